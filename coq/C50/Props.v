(* `step fixr fixp s o` is the transcription of one committed-or-rolled-back operation (a
   scim_sync_apply request, an administrator's change of sync_yield_authority, a user's modify);
   states, requests and histories are arbitrary (no size bound anywhere). fixr / fixp = true: the
   code with the guard of /verif/fixes/C50.patch (/repo 7a11b7d) for the reserved uuid range /
   for the phantom import attribute; false: the code without it (documented by the C50_prefix_*
   theorems); theorems quantified over the flags hold for both trees. *)
From Coq Require Import List NArith Bool.
Import ListNotations.
Require Import KV.C50.Model KV.C50.Proofs.
Open Scope N_scope.

(* An accepted synchronisation request was presented by a sync identity, and it creates, changes
   or deletes only entries that the agreement owns: every stored entry is afterwards either
   identical, or was live and owned by the agreement before and is owned by it afterwards; new
   entries are owned by the agreement; no entry disappears. (Both trees, no premise.) *)
Theorem C50_owns_only : forall fixr fixp s r s',
  step fixr fixp s (OSync r) = (ROk, s') ->
  r_ik r = IKSynch /\
  forall i, match lookup (s_ents s) i, lookup (s_ents s') i with
            | None, None => True
            | Some _, None => False
            | None, Some e' => e_owner e' = Some (r_agr r)
            | Some e, Some e' =>
                e = e' \/ (e_live e = true /\ e_owner e = Some (r_agr r) /\ e_owner e' = Some (r_agr r))
            end.
Proof.
  intros fixr fixp s r s' H. destruct (sync_step_scope _ _ _ _ _ H) as (Hik & Hr & _). split; [exact Hik|].
  intros i. specialize (Hr i).
  destruct (lookup (s_ents s) i), (lookup (s_ents s') i); cbn [EOK] in Hr; auto.
  - destruct Hr as [->|(L & O & O' & _)]; [left; reflexivity | right]. apply owner_is_Some in O, O'. auto.
  - apply owner_is_Some, Hr.
Qed.

(* Whatever a synchronisation request changes in a surviving entry is a synchronisable attribute,
   and the entry's classes only grow, by sync-allowed classes. (Both trees, no premise.) *)
Theorem C50_only_syncable : forall fixr fixp s r s' i e e',
  step fixr fixp s (OSync r) = (ROk, s') ->
  lookup (s_ents s) i = Some e -> lookup (s_ents s') i = Some e' ->
  (forall a, aget a e <> aget a e' -> mem a SYNCABLE = true) /\
  (forall c, mem c (e_cls e') = true -> mem c (e_cls e) = true \/ mem c sync_classes = true) /\
  (forall c, mem c (e_cls e) = true -> mem c (e_cls e') = true).
Proof.
  intros fixr fixp s r s' i e e' H Hl Hl'. destruct (sync_step_scope _ _ _ _ _ H) as (_ & Hr & _).
  specialize (Hr i). rewrite Hl, Hl' in Hr. destruct Hr as [->|(_ & _ & _ & S & Ga & Gb)].
  - split; [intros a Hne; contradiction|]. split; auto.
  - split; [intros a Hne; apply (S a Hne)|]. split; assumption.
Qed.

(* never creates entries in the reserved system uuid range *)
Definition C50_no_reserved_statement (fixr fixp : bool) : Prop :=
  forall s r s' i e', step fixr fixp s (OSync r) = (ROk, s') ->
    lookup (s_ents s) i = None -> lookup (s_ents s') i = Some e' ->
    DYN_MIN <= i /\ has_cls K_Builtin e' = false.

(* The statement holds in full (phase 2 refuses a missing uuid below DYNAMIC_RANGE_MINIMUM_UUID). *)
Theorem C50_no_reserved_fixed : forall fixp, C50_no_reserved_statement true fixp.
Proof. intros fixp s r s' i e' H. exact (no_reserved_gen _ _ _ _ _ _ _ H eq_refl). Qed.

(* Before the fix it held only for requests that do not themselves name a missing uuid below
   DYNAMIC_RANGE_MINIMUM_UUID ... *)
Theorem C50_prefix_no_reserved_partial : forall fixp s r s' i e',
  step false fixp s (OSync r) = (ROk, s') -> known_reserved s (OSync r) = false ->
  lookup (s_ents s) i = None -> lookup (s_ents s') i = Some e' ->
  DYN_MIN <= i /\ has_cls K_Builtin e' = false.
Proof. intros fixp s r s' i e' H Hk. apply (no_reserved_gen _ _ _ _ _ _ _ H). rewrite Hk. reflexivity. Qed.

(* ... and was false in general: a group requested under uuid 5 was created and tagged built-in. *)
Definition refute_reserved_state : st := mkS [] [(7, mkA None [])] 0.
Definition refute_reserved_req : sreq :=
  mkR IKSynch 7 SRefresh (SActive 1) [mkSE 5 [SCls K_Group] (Some 50) [(A_Name, 50)]] RIgnore.
Theorem C50_prefix_no_reserved_refuted : forall fixp, ~ C50_no_reserved_statement false fixp.
Proof.
  intros fixp Hs.
  assert (E : exists s', step false fixp refute_reserved_state (OSync refute_reserved_req) = (ROk, s')
                         /\ lookup (s_ents s') 5 <> None).
  { destruct fixp; vm_compute; eexists; (split; [reflexivity | discriminate]). }
  destruct E as [s' [E1 E2]]. destruct (lookup (s_ents s') 5) as [e'|] eqn:E3; [|congruence].
  destruct (Hs _ _ _ 5 e' E1 eq_refl E3) as [Hle _]. vm_compute in Hle. apply Hle. reflexivity.
Qed.

(* changes only attributes that are synchronisable and not handed over *)
Definition C50_attrs_scoped_statement (fixr fixp : bool) : Prop :=
  forall s r s' i e e' a, step fixr fixp s (OSync r) = (ROk, s') ->
    lookup (s_ents s) i = Some e -> lookup (s_ents s') i = Some e' -> aget a e <> aget a e' ->
    mem a SYNCABLE = true /\ mem a (yield_of s (r_agr r)) = false.

(* The statement holds in full (a phantom import attribute is sync owned only while neither it
   nor primary_credential is yielded). *)
Theorem C50_attrs_scoped_fixed : forall fixr, C50_attrs_scoped_statement fixr true.
Proof. intros fixr s r s' i e e' a H. exact (attrs_scoped_gen _ _ _ _ _ _ _ _ _ H eq_refl). Qed.

(* Before the fix it held only for requests that do not carry password_import while authority over
   primary_credential / password_import is yielded ... *)
Theorem C50_prefix_attrs_scoped_partial : forall fixr s r s' i e e' a,
  step fixr false s (OSync r) = (ROk, s') -> known_phantom s (OSync r) = false ->
  lookup (s_ents s) i = Some e -> lookup (s_ents s') i = Some e' -> aget a e <> aget a e' ->
  mem a SYNCABLE = true /\ mem a (yield_of s (r_agr r)) = false.
Proof. intros fixr s r s' i e e' a H Hk. apply (attrs_scoped_gen _ _ _ _ _ _ _ _ _ H). rewrite Hk. reflexivity. Qed.

(* ... and was false in general: the yielded primary credential of a synchronised person was replaced. *)
Definition refute_phantom_state : st :=
  mkS [(DYN_MIN + 1, mkE true (Some 7) [K_Object; K_SyncObject; K_Account; K_Person] [K_Account; K_Person]
                         (Some 10) true [(A_Name, 10); (A_DisplayName, 1); (A_PrimaryCredential, 3)])]
      [(7, mkA (Some 1) [A_PrimaryCredential])] 9.
Definition refute_phantom_req : sreq :=
  mkR IKSynch 7 (SActive 1) (SActive 2)
      [mkSE (DYN_MIN + 1) [SCls K_Account; SCls K_Person] (Some 10)
            [(A_Name, 10); (A_DisplayName, 1); (A_PasswordImport, 0)]] RIgnore.
Theorem C50_prefix_attrs_scoped_refuted : forall fixr, ~ C50_attrs_scoped_statement fixr false.
Proof.
  intros fixr Hs.
  assert (E : exists s' e', step fixr false refute_phantom_state (OSync refute_phantom_req) = (ROk, s')
                /\ lookup (s_ents s') (DYN_MIN + 1) = Some e' /\ aget A_PrimaryCredential e' = Some 9).
  { destruct fixr; vm_compute; do 2 eexists; repeat split. }
  destruct E as [s' [e' [E1 [E2 E3]]]].
  destruct (Hs _ _ _ (DYN_MIN + 1) _ e' A_PrimaryCredential E1 eq_refl E2) as [_ Hy].
  - rewrite E3. vm_compute. discriminate.
  - vm_compute in Hy. discriminate.
Qed.

(* the statement for the tree this check runs against *)
Definition C50_full_statement : Prop :=
  C50_no_reserved_statement tree_fixed_reserved tree_fixed_phantom /\
  C50_attrs_scoped_statement tree_fixed_reserved tree_fixed_phantom.

(* With both guards both statements hold. *)
Theorem C50_fixed_full : C50_no_reserved_statement true true /\ C50_attrs_scoped_statement true true.
Proof. split; [apply C50_no_reserved_fixed | apply C50_attrs_scoped_fixed]. Qed.

(* The tree before the fix (both flags false) did not satisfy the full statement. *)
Theorem C50_prefix_refuted :
  ~ (C50_no_reserved_statement false false /\ C50_attrs_scoped_statement false false).
Proof. intros [H _]. exact (C50_prefix_no_reserved_refuted _ H). Qed.

(* On the tree the check runs against a synchronisation request never creates an entry in the
   reserved system uuid range (nor one tagged built-in), and changes only attributes that are
   synchronisable and not handed over to Kanidm's authority. (The sentence is written over the two
   flags of Model.v: with both true it is the full statement itself; were one false, it would be
   its refutation.) *)
Theorem C50_tree_verdict :
  if tree_fixed_reserved && tree_fixed_phantom then C50_full_statement else ~ C50_full_statement.
Proof.
  unfold C50_full_statement. destruct tree_fixed_reserved, tree_fixed_phantom; cbn [andb].
  - exact C50_fixed_full.
  - intros [_ H]. exact (C50_prefix_attrs_scoped_refuted _ H).
  - intros [H _]. exact (C50_prefix_no_reserved_refuted _ H).
  - exact C50_prefix_refuted.
Qed.

(* The full statement, for the flags as Model.v sets them. *)
Theorem C50_full : C50_full_statement.
Proof. exact C50_tree_verdict. Qed.

(* An accepted user modify touches exactly the addressed entry, never its liveness, owner, classes,
   sync classes or external id, and on a synchronised entry only an attribute that the owning
   agreement yielded to Kanidm or one of the four session / credential-reset attributes. *)
Theorem C50_user_edits : forall fixr fixp s t m s',
  step fixr fixp s (OUser t m) = (ROk, s') ->
  s_agrs s' = s_agrs s /\
  (forall i, i <> t -> lookup (s_ents s') i = lookup (s_ents s) i) /\
  exists e e', lookup (s_ents s) t = Some e /\ lookup (s_ents s') t = Some e' /\
    e_live e' = e_live e /\ e_owner e' = e_owner e /\ e_cls e' = e_cls e /\
    e_scls e' = e_scls e /\ e_ext e' = e_ext e /\
    (has_cls K_SyncObject e = true ->
       exists u, e_owner e = Some u /\
         forall a, aget a e' <> aget a e -> mem a (SYNC_BASE ++ yield_of s u) = true).
Proof.
  intros fixr fixp s t m s' H. destruct (step_ok _ _ _ _ _ H) as [s1 [Ha ->]]. exact (user_apply_ok _ _ _ _ Ha).
Qed.

(* A refused operation changes no entry and no agreement. *)
Theorem C50_refused_changes_nothing : forall fixr fixp s o e s',
  step fixr fixp s o = (RErr e, s') -> s_ents s' = s_ents s /\ s_agrs s' = s_agrs s.
Proof. exact step_err. Qed.

(* Requests presented by anything but a sync identity with Synchronise scope are refused. *)
Theorem C50_only_sync_identities : forall fixr fixp s r,
  r_ik r <> IKSynch -> fst (step fixr fixp s (OSync r)) = RErr EDenied.
Proof.
  intros fixr fixp s r H. rewrite step_unfold. cbn [apply_op]. unfold sync_apply, phase1.
  destruct (r_ik r); try reflexivity. contradiction.
Qed.

(* Over ANY history of synchronisation requests (any agreements, any contents, accepted or not):
   an entry that is not a synchronised entry (no owner) stays exactly as it was ... *)
Theorem C50_native_untouched : forall fixr fixp ops s i e,
  sync_only ops -> lookup (s_ents s) i = Some e -> e_owner e = None ->
  lookup (s_ents (run fixr fixp s ops)) i = Some e.
Proof.
  intros fixr fixp ops s i e Hops Hl Ho. apply run_sync_foreign; [|exact Hl].
  intros o Hin. destruct (Hops o Hin) as [r ->]. exists r. split; [reflexivity | congruence].
Qed.

(* ... and so does every entry of agreement B when no request comes from B. *)
Theorem C50_foreign_untouched : forall fixr fixp ops s i e B,
  (forall o, In o ops -> exists r, o = OSync r /\ r_agr r <> B) ->
  lookup (s_ents s) i = Some e -> e_owner e = Some B ->
  lookup (s_ents (run fixr fixp s ops)) i = Some e.
Proof.
  intros fixr fixp ops s i e B Hops Hl Ho. apply run_sync_foreign; [|exact Hl].
  intros o Hin. destruct (Hops o Hin) as [r [-> Hr]]. exists r. split; [reflexivity | congruence].
Qed.

(* Over any history of all three kinds of operation no entry ever disappears or changes owner. *)
Theorem C50_owner_stable : forall fixr fixp ops s i e,
  lookup (s_ents s) i = Some e ->
  exists e', lookup (s_ents (run fixr fixp s ops)) i = Some e' /\ e_owner e' = e_owner e.
Proof.
  intros fixr fixp ops s i e Hl.
  apply (run_inv _ _ (fun s => exists e', lookup (s_ents s) i = Some e' /\ e_owner e' = e_owner e)); [|eauto].
  intros s0 o _ [e1 [H1 O1]]. destruct (step_owner_stable fixr fixp s0 o i e1 H1) as [e2 [H2 O2]].
  exists e2. split; [exact H2 | congruence].
Qed.

(* The model's own steps satisfy the executable property predicate (on the tree before the fix:
   outside the two defect classes; `known_step true true` is constantly false). *)
Theorem C50_model_satisfies_pcheck : forall fixr fixp s o r s',
  step fixr fixp s o = (r, s') -> known_step fixr fixp s o r = false -> pcheck_step s o r s' = true.
Proof. exact step_pcheck. Qed.

(* Whenever the implementation's answer and resulting state agree with the model, the property's
   executable predicate holds on the implementation's own observations. *)
Theorem C50_agree_implies_property : forall c, agree c = true -> pcheck c = true.
Proof.
  intros [s o r s'|cl al] Ha; [|reflexivity]. cbn [agree pcheck] in *.
  destruct (step_tree s o) as [r1 s1] eqn:Es. apply andb_true_iff in Ha as [Hr Hs].
  apply res_eqb_eq in Hr. apply st_eqb_eq in Hs. subst r1 s1.
  eapply step_pcheck; [exact Es|]. destruct r; reflexivity.
Qed.

(* What the executable predicate means on an accepted synchronisation request (independent of the
   transcription): sync identity; every entry present afterwards is unchanged, or was owned (and
   live) and changed only in synchronisable, not yielded attributes, or is new, owned, outside the
   protected uuid range and not tagged built-in. *)
Theorem C50_pcheck_sound : forall s r s', pcheck_step s (OSync r) ROk s' = true ->
  r_ik r = IKSynch /\
  forall i e', lookup (s_ents s') i = Some e' ->
    match lookup (s_ents s) i with
    | None => e_owner e' = Some (r_agr r) /\ DYN_MIN <= i /\ has_cls K_Builtin e' = false
    | Some e =>
        e = e' \/ (e_live e = true /\ e_owner e = Some (r_agr r) /\ e_owner e' = Some (r_agr r) /\
                   forall a, aget a e <> aget a e' ->
                             mem a SYNCABLE = true /\ mem a (yield_of s (r_agr r)) = false)
    end.
Proof.
  intros s r s' H. cbn [pcheck_step] in H. rewrite !andb_true_iff, forallb_forall in H.
  destruct H as [[[Hik Hents] _] _]. split; [destruct (r_ik r); try discriminate; reflexivity|].
  intros i e' Hl'. assert (Hin : In i (all_ids s s')).
  { apply in_or_app. right. exact (lookup_Some_keys _ _ _ _ Hl'). }
  apply Hents, sync_ent_ok_iff in Hin. rewrite Hl' in Hin.
  destruct (lookup (s_ents s) i) as [e|]; cbn [EOK] in Hin.
  - destruct Hin as [->|(L & O & O' & S & _)]; [left; reflexivity | right].
    apply owner_is_Some in O, O'. auto.
  - destruct Hin as [O Hs]. apply owner_is_Some in O. destruct (Hs eq_refl). auto.
Qed.
