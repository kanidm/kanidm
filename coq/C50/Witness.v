(* Non-vacuity: concrete states / requests meeting the hypotheses of the theorems. *)
From Coq Require Import List NArith Bool.
Import ListNotations.
Require Import KV.C50.Model KV.C50.Proofs KV.C50.Props.
Open Scope N_scope.

Definition D (k : N) : N := DYN_MIN + k.
(* agreement 7 owns a group (D 1) and a person (D 2); agreement 8 owns a group (D 3); D 4 is a native
   group, D 5 a recycled entry of agreement 7 *)
Definition w_state : st :=
  mkS [ (D 1, mkE true (Some 7) [K_Object; K_SyncObject; K_Group] [K_Group] (Some 10) true [(A_Name, 10); (A_Description, 1)]);
        (D 2, mkE true (Some 7) [K_Object; K_SyncObject; K_Account; K_Person] [K_Account; K_Person] (Some 20) true
                  [(A_Name, 20); (A_DisplayName, 1); (A_LegalName, 2); (A_PrimaryCredential, 0)]);
        (D 3, mkE true (Some 8) [K_Object; K_SyncObject; K_Group] [K_Group] (Some 30) true [(A_Name, 30)]);
        (D 4, mkE true None [K_Object; K_Group] [] None true [(A_Name, 40); (A_Description, 0)]);
        (D 5, mkE false (Some 7) [K_Object; K_SyncObject; K_Group] [K_Group] (Some 50) true [(A_Name, 50)]) ]
      [ (7, mkA (Some 1) [A_LegalName]); (8, mkA None []) ] 4.

(* an accepted request of agreement 7: renames its group, re-imports the person's password (legalname is
   yielded and left alone), creates D 6, deletes nothing foreign *)
Definition w_req : sreq :=
  mkR IKSynch 7 (SActive 1) (SActive 2)
      [ mkSE (D 1) [SCls K_Group] (Some 11) [(A_Name, 12)];
        mkSE (D 2) [SCls K_Person; SCls K_Account] (Some 20) [(A_Name, 20); (A_DisplayName, 3); (A_PasswordImport, 1)];
        mkSE (D 6) [SCls K_Group] (Some 60) [(A_Name, 60); (A_Description, 2)] ]
      (RDelete [D 1; D 5]).

Example C50_witness_sync_accepted :
  fst (step_tree w_state (OSync w_req)) = ROk /\
  known_reserved w_state (OSync w_req) = false /\ known_phantom w_state (OSync w_req) = false /\
  (* a created entry, a changed one, a deleted one, and the yielded attribute kept *)
  lookup (s_ents w_state) (D 6) = None /\
  option_map e_owner (lookup (s_ents (snd (step_tree w_state (OSync w_req)))) (D 6)) = Some (Some 7) /\
  option_map e_live (lookup (s_ents (snd (step_tree w_state (OSync w_req)))) (D 1)) = Some false /\
  option_map (aget A_LegalName) (lookup (s_ents (snd (step_tree w_state (OSync w_req)))) (D 2)) = Some (Some 2) /\
  option_map (aget A_PrimaryCredential) (lookup (s_ents (snd (step_tree w_state (OSync w_req)))) (D 2)) = Some (Some 4) /\
  pcheck_step w_state (OSync w_req) ROk (snd (step_tree w_state (OSync w_req))) = true.
Proof. vm_compute. repeat split. Qed.

(* out-of-scope requests are refused and leave everything as it was *)
Example C50_witness_refused :
  fst (step_tree w_state (OSync (mkR IKSynch 7 (SActive 1) (SActive 2) [mkSE (D 3) [SCls K_Group] (Some 30) [(A_Name, 31)]] RIgnore))) = RErr EAssert /\
  fst (step_tree w_state (OSync (mkR IKSynch 7 (SActive 1) (SActive 2) [mkSE (D 4) [SCls K_Group] None [(A_Name, 41)]] RIgnore))) = RErr EEmpty /\
  fst (step_tree w_state (OSync (mkR IKSynch 7 (SActive 1) (SActive 2) [mkSE (D 4) [SCls K_Group] (Some 40) [(A_Name, 41)]] RIgnore))) = RErr EAssert /\
  fst (step_tree w_state (OSync (mkR IKSynch 7 (SActive 1) (SActive 2) [] (RDelete [D 4])))) = RErr EDenied /\
  fst (step_tree w_state (OSync (mkR IKSynch 7 (SActive 1) (SActive 2) [mkSE (D 5) [SCls K_Group] (Some 50) [(A_Name, 50)]] RIgnore))) = RErr EEntryState /\
  fst (step_tree w_state (OSync (mkR IKSynch 7 (SActive 1) (SActive 2) [mkSE (D 2) [SCls K_Person; SCls K_Account] (Some 20) [(A_Name, 20); (A_DisplayName, 3); (A_LegalName, 9)]] RIgnore))) = RErr EEntryState /\
  fst (step_tree w_state (OSync (mkR IKSynch 7 (SActive 3) (SActive 2) [] RIgnore))) = RErr ESyncState /\
  fst (step_tree w_state (OSync (mkR IKUser 7 (SActive 1) (SActive 2) [] RIgnore))) = RErr EDenied.
Proof. vm_compute. repeat split. Qed.

(* the two defect classes of the tree before the fix, and their refusal on the current tree *)
Example C50_witness_known_classes :
  fst (step false false refute_reserved_state (OSync refute_reserved_req)) = ROk /\
  known_reserved refute_reserved_state (OSync refute_reserved_req) = true /\
  fst (step true true refute_reserved_state (OSync refute_reserved_req)) = RErr EEntryState /\
  fst (step false false refute_phantom_state (OSync refute_phantom_req)) = ROk /\
  known_phantom refute_phantom_state (OSync refute_phantom_req) = true /\
  fst (step true true refute_phantom_state (OSync refute_phantom_req)) = RErr EEntryState /\
  (* the fixed tree still accepts the in-scope request above, with the same result *)
  step true true w_state (OSync w_req) = step false false w_state (OSync w_req).
Proof. vm_compute. repeat split. Qed.

(* user edits: legalname of the person is yielded by agreement 7, displayname is not *)
Example C50_witness_user :
  fst (step_tree w_state (OUser (D 2) (USet A_LegalName 5))) = ROk /\
  option_map (aget A_LegalName) (lookup (s_ents (snd (step_tree w_state (OUser (D 2) (USet A_LegalName 5))))) (D 2)) = Some (Some 5) /\
  fst (step_tree w_state (OUser (D 2) (USet A_DisplayName 5))) = RErr EDenied /\
  fst (step_tree w_state (OUser (D 2) (UPurge A_UserAuthTokenSession))) = ROk /\
  fst (step_tree w_state (OUser (D 4) (USet A_Description 5))) = ROk /\
  fst (step_tree w_state (OUser (D 5) (USet A_Name 51))) = RErr ENoMatch.
Proof. vm_compute. repeat split. Qed.

(* a history of requests of agreements 7 and 8: the request of 8 also names the native entry D 4 and is
   refused as a whole, the last request of 7 is a refresh with an empty entry set. The native entry D 4 is
   untouched (C50_native_untouched) and D 3 of agreement 8 is still live. Evaluated on the tree without
   the guards. *)
Definition w_hist : list op :=
  [ OSync w_req;
    OSync (mkR IKSynch 8 SRefresh (SActive 1) [mkSE (D 3) [SCls K_Group] (Some 30) [(A_Name, 31)]; mkSE (D 4) [SCls K_Group] (Some 40) [(A_Name, 41)]] RIgnore);
    OSync (mkR IKSynch 7 SRefresh SRefresh [] (RRetain [])) ].
Example C50_witness_history :
  sync_only w_hist /\
  (exists e, lookup (s_ents w_state) (D 4) = Some e /\ e_owner e = None
             /\ lookup (s_ents (run false false w_state w_hist)) (D 4) = Some e) /\
  (* the refresh with an empty entry set deleted everything agreement 7 owned *)
  option_map e_live (lookup (s_ents (run false false w_state w_hist)) (D 2)) = Some false /\
  option_map e_live (lookup (s_ents (run false false w_state w_hist)) (D 3)) = Some true.
Proof.
  split; [|vm_compute; repeat split; eexists; repeat split].
  intros o [<-|[<-|[<-|[]]]]; eexists; reflexivity.
Qed.

Example C50_witness_agree :
  agree (CStep w_state (OSync w_req) ROk (snd (step_tree w_state (OSync w_req)))) = true /\
  known (CStep w_state (OSync w_req) ROk (snd (step_tree w_state (OSync w_req)))) = false.
Proof. vm_compute. split; reflexivity. Qed.
