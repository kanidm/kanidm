(* Each phase of scim_sync_apply takes the entry table to one that is `in_scope` of the requesting agreement
   (`EOK` at every uuid), and `in_scope` is transitive; so an accepted request is within scope on both trees
   (`sync_scope`), and the executable predicate is the same relation (`sync_ent_ok_iff`). Where a tree lacks a
   guard of /verif/fixes/C50.patch, the yield set (or the protected uuid range) is claimed to be respected
   only by requests outside the defect class that guard closes. *)
From Coq Require Import List NArith Bool.
Import ListNotations.
Require Import KV.C50.Model.
Open Scope N_scope.

Lemma mem_In : forall x l, mem x l = true <-> In x l.
Proof.
  intros x l. induction l as [|y r IH]; cbn [mem In].
  - split; [discriminate | tauto].
  - rewrite orb_true_iff, IH, N.eqb_eq. split; intros [H|H]; auto.
Qed.

Lemma mem_add : forall x y l, mem x (add y l) = (x =? y) || mem x l.
Proof.
  intros x y l. induction l as [|z r IH]; cbn [add mem].
  - reflexivity.
  - destruct (N.eqb_spec y z) as [->|Hyz].
    + cbn [mem]. destruct (x =? z); reflexivity.
    + destruct (y <? z); cbn [mem]; [reflexivity|].
      rewrite IH. destruct (x =? y), (x =? z); reflexivity.
Qed.

Lemma mem_union : forall x b a, mem x (union a b) = mem x a || mem x b.
Proof.
  intros x b. unfold union. induction b as [|z r IH]; intros a; cbn [fold_left mem].
  - rewrite orb_false_r. reflexivity.
  - rewrite IH, mem_add. destruct (x =? z), (mem x a), (mem x r); reflexivity.
Qed.

Lemma mem_app : forall x a b, mem x (a ++ b) = mem x a || mem x b.
Proof.
  intros x a b. induction a as [|z r IH]; cbn [app mem]; [reflexivity|].
  rewrite IH. destruct (x =? z); reflexivity.
Qed.

Lemma mem_filter : forall (p : N -> bool) l x, mem x (filter p l) = true -> p x = true /\ mem x l = true.
Proof.
  intros p l x H. apply mem_In, filter_In in H as [H1 H2]. split; [exact H2 | apply mem_In; exact H1].
Qed.

Lemma existsb_false : forall T (f : T -> bool) l, existsb f l = false -> forall x, In x l -> f x = false.
Proof.
  intros T f l H x Hx. destruct (f x) eqn:E; [|reflexivity].
  rewrite <- H. symmetry. apply existsb_exists. eauto.
Qed.

Lemma lookup_upsert : forall V k (v : V) m j, lookup (upsert k v m) j = if j =? k then Some v else lookup m j.
Proof.
  intros V k v m j. induction m as [|[k' v'] r IH]; cbn [upsert lookup]; [reflexivity|].
  destruct (N.eqb_spec k k') as [<-|Hk].
  - cbn [lookup]. destruct (j =? k); reflexivity.
  - destruct (k <? k'); cbn [lookup]; [reflexivity|]. rewrite IH.
    destruct (N.eqb_spec j k) as [E|]; [subst j|reflexivity]. apply N.eqb_neq in Hk. rewrite Hk. reflexivity.
Qed.

Lemma lookup_upsert_other : forall V k j (v : V) m, k <> j -> lookup (upsert k v m) j = lookup m j.
Proof.
  intros V k j v m H. rewrite lookup_upsert. destruct (N.eqb_spec j k); [congruence | reflexivity].
Qed.

Lemma lookup_map_vals : forall V (f : N -> V -> V) m k,
  lookup (map_vals f m) k = option_map (f k) (lookup m k).
Proof.
  intros V f m k. induction m as [|[k' v'] r IH]; cbn [map_vals map lookup fst snd option_map].
  - reflexivity.
  - destruct (N.eqb_spec k k') as [->|Hk]; [reflexivity | exact IH].
Qed.

Lemma lookup_map_vals_fix : forall V (f : N -> V -> V) m k,
  (forall v, f k v = v) -> lookup (map_vals f m) k = lookup m k.
Proof.
  intros V f m k H. rewrite lookup_map_vals. destruct (lookup m k); cbn [option_map]; [rewrite H|]; reflexivity.
Qed.

Lemma keys_map_vals : forall V (f : N -> V -> V) m, keys (map_vals f m) = keys m.
Proof.
  intros V f m. unfold keys, map_vals. rewrite map_map. reflexivity.
Qed.

Lemma lookup_Some_In : forall V (m : list (N * V)) k v, lookup m k = Some v -> In (k, v) m.
Proof.
  intros V m k v. induction m as [|[k' v'] r IH]; cbn [lookup]; [discriminate|].
  destruct (N.eqb_spec k k') as [->|Hk]; intros H.
  - injection H as ->. left. reflexivity.
  - right. auto.
Qed.

Lemma lookup_Some_keys : forall V (m : list (N * V)) k v, lookup m k = Some v -> In k (keys m).
Proof.
  intros V m k v H. apply lookup_Some_In in H. exact (in_map fst _ _ H).
Qed.

Lemma keys_lookup : forall V (m : list (N * V)) k, In k (keys m) -> exists v, lookup m k = Some v.
Proof.
  intros V m k. induction m as [|[k' v'] r IH]; cbn [keys map In lookup fst]; [tauto|].
  intros [H|H].
  - subst. rewrite N.eqb_refl. eauto.
  - destruct (k =? k'); [eauto | apply IH; exact H].
Qed.

Lemma lookup_None_keys : forall V (m : list (N * V)) k, lookup m k = None -> ~ In k (keys m).
Proof.
  intros V m k H Hin. apply keys_lookup in Hin as [v Hv]. congruence.
Qed.

Lemma keys_filter : forall V (p : N * V -> bool) m i, In i (keys (filter p m)) -> In i (keys m).
Proof.
  intros V p m i H. apply in_map_iff in H as [kv [<- Hin]].
  apply filter_In in Hin as [Hin _]. apply in_map. exact Hin.
Qed.

Lemma lookup_filter_fst : forall (p : N -> bool) (l : list (N * N)) a,
  lookup (filter (fun av => p (fst av)) l) a = if p a then lookup l a else None.
Proof.
  intros p l a. induction l as [|[k v] r IH]; cbn [filter lookup fst].
  - destruct (p a); reflexivity.
  - destruct (p k) eqn:Hpk; cbn [lookup].
    + destruct (N.eqb_spec a k) as [->|Hak]; [rewrite Hpk; reflexivity | exact IH].
    + destruct (N.eqb_spec a k) as [->|Hak]; [rewrite Hpk in IH |- *; exact IH | exact IH].
Qed.

Definition attrs_scoped (y : list N) (e e' : entry) : Prop :=
  forall a, aget a e <> aget a e' -> mem a SYNCABLE = true /\ mem a y = false.
Definition cls_grow (e e' : entry) : Prop :=
  (forall c, mem c (e_cls e') = true -> mem c (e_cls e) = true \/ mem c sync_classes = true) /\
  (forall c, mem c (e_cls e) = true -> mem c (e_cls e') = true).
Definition mod_ok (A : N) (y : list N) (e e' : entry) : Prop :=
  e_live e = true /\ owner_is A e = true /\ owner_is A e' = true /\ attrs_scoped y e e' /\ cls_grow e e'.
(* what may happen to the entry stored under uuid i; strict: new entries lie outside the protected range
   and are not tagged built-in *)
Definition EOK (A : N) (y : list N) (strict : bool) (i : N) (o o' : option entry) : Prop :=
  match o, o' with
  | None, None => True
  | Some _, None => False
  | None, Some e' => owner_is A e' = true /\ (strict = true -> DYN_MIN <= i /\ has_cls K_Builtin e' = false)
  | Some e, Some e' => e = e' \/ mod_ok A y e e'
  end.

Lemma EOK_same : forall A y strict i o, EOK A y strict i o o.
Proof. intros A y strict i [e|]; cbn; auto. Qed.

Lemma EOK_refl : forall A y st i o, o <> None \/ o = None -> EOK A y st i o o.
Proof. intros A y st i o _. apply EOK_same. Qed.

Lemma owner_is_Some : forall A e, owner_is A e = true <-> e_owner e = Some A.
Proof.
  intros A e. unfold owner_is. destruct (e_owner e) as [u|]; [rewrite N.eqb_eq|]; split; congruence.
Qed.

Lemma optN_dec : forall a b : option N, {a = b} + {a <> b}.
Proof. decide equality. apply N.eq_dec. Qed.

Lemma mod_ok_trans : forall A y e1 e2 e3, mod_ok A y e1 e2 -> mod_ok A y e2 e3 -> mod_ok A y e1 e3.
Proof.
  intros A y e1 e2 e3 (L1 & O1 & O1' & S1 & G1a & G1b) (L2 & O2 & O2' & S2 & G2a & G2b).
  repeat (split; [assumption|]). split; [|split].
  - intros a Hne. destruct (optN_dec (aget a e1) (aget a e2)) as [E|E].
    + apply S2. congruence.
    + apply S1. exact E.
  - intros c Hc. destruct (G2a c Hc) as [H|H]; [apply G1a; exact H | right; exact H].
  - intros c Hc. apply G2b, G1b, Hc.
Qed.

Lemma EOK_trans : forall A y strict i o1 o2 o3,
  EOK A y strict i o1 o2 -> EOK A y strict i o2 o3 -> EOK A y strict i o1 o3.
Proof.
  intros A y strict i [e1|] [e2|] [e3|]; cbn; try tauto.
  - intros [->|H1] [->|H2]; auto. right. eapply mod_ok_trans; eauto.
  - (* a new entry that is changed again: a later change adds sync-allowed classes only, never `builtin` *)
    intros [Ho Hs] [->|(_ & _ & O2' & _ & G2a & _)]; [auto|]. split; [exact O2'|].
    intros Hst. destruct (Hs Hst) as [Hi Hb]. split; [exact Hi|].
    unfold has_cls in *. destruct (mem K_Builtin (e_cls e3)) eqn:E; [|reflexivity].
    destruct (G2a _ E) as [H|H]; [congruence | discriminate H].
Qed.

Definition in_scope (A : N) (y : list N) (strict : bool) (es es' : list (N * entry)) : Prop :=
  forall i, EOK A y strict i (lookup es i) (lookup es' i).

Lemma in_scope_refl : forall A y strict es, in_scope A y strict es es.
Proof. intros A y strict es i. apply EOK_same. Qed.

Lemma in_scope_trans : forall A y strict es1 es2 es3,
  in_scope A y strict es1 es2 -> in_scope A y strict es2 es3 -> in_scope A y strict es1 es3.
Proof. intros A y strict es1 es2 es3 H1 H2 i. exact (EOK_trans _ _ _ _ _ _ _ (H1 i) (H2 i)). Qed.

Lemma in_scope_Some : forall A y strict es es' i e, in_scope A y strict es es' -> lookup es i = Some e ->
  exists e', lookup es' i = Some e' /\ (e = e' \/ mod_ok A y e e').
Proof.
  intros A y strict es es' i e H Hl. specialize (H i). rewrite Hl in H.
  destruct (lookup es' i) as [e'|]; [eauto | contradiction].
Qed.

(* the shape of every phase after stub creation *)
Lemma in_scope_map_vals : forall A y strict f es,
  (forall i e, lookup es i = Some e -> e = f i e \/ mod_ok A y e (f i e)) ->
  in_scope A y strict es (map_vals f es).
Proof.
  intros A y strict f es H i. rewrite lookup_map_vals.
  destruct (lookup es i) as [e|] eqn:E; cbn [option_map EOK]; [exact (H i e E) | exact I].
Qed.

Lemma mod_ok_same : forall A y e e',
  e_live e = true -> owner_is A e = true -> e_owner e' = e_owner e ->
  e_attrs e' = e_attrs e -> e_cls e' = e_cls e -> mod_ok A y e e'.
Proof.
  intros A y e e' L O Ho Ha Hc. repeat (split; [assumption|]).
  split; [unfold owner_is; rewrite Ho; exact O|]. split; [|split].
  - intros a Hne. contradiction Hne. unfold aget. rewrite Ha. reflexivity.
  - intros c Hc'. left. rewrite <- Hc. exact Hc'.
  - intros c Hc'. rewrite Hc. exact Hc'.
Qed.

(* the ownership assertion of the batch modifies of phases 2 and 3 *)
Lemma all_owned : forall A es l, existsb (fun i => negb (owned_at A es i)) l = false ->
  forall i e, In i l -> lookup es i = Some e -> owner_is A e = true.
Proof.
  intros A es l H i e Hi He. apply (existsb_false _ _ _ H) in Hi. unfold owned_at in Hi. rewrite He in Hi.
  apply negb_false_iff, Hi.
Qed.

Lemma lookup_add_stubs : forall A l es i,
  lookup (fold_left (add_stub A) l es) i =
    match lookup es i with
    | Some e => Some e
    | None => if mem i l then Some (stub A i) else None
    end.
Proof.
  intros A l. induction l as [|k r IH]; intros es i; cbn [fold_left mem].
  - destruct (lookup es i); reflexivity.
  - rewrite IH. unfold add_stub. destruct (lookup es k) eqn:Ek; [|rewrite lookup_upsert].
    + destruct (N.eqb_spec i k) as [->|Hik]; [rewrite Ek|]; reflexivity.
    + destruct (N.eqb_spec i k) as [->|Hik]; [rewrite Ek|]; reflexivity.
Qed.

Lemma stub_not_builtin : forall A i, DYN_MIN <= i -> has_cls K_Builtin (stub A i) = false.
Proof.
  intros A i H. unfold has_cls, stub. cbn [e_cls]. apply N.ltb_ge in H. rewrite H. reflexivity.
Qed.

Lemma add_stubs_scope : forall A y strict l es,
  (strict = true -> forall i, In i l -> lookup es i = None -> DYN_MIN <= i) ->
  in_scope A y strict es (fold_left (add_stub A) l es).
Proof.
  intros A y strict l es Hr i. rewrite lookup_add_stubs.
  destruct (lookup es i) eqn:Ee; [left; reflexivity|].
  destruct (mem i l) eqn:Em; [|exact I]. apply mem_In in Em. split.
  - cbn. apply N.eqb_refl.
  - intros Hst. specialize (Hr Hst i Em Ee). split; [exact Hr | apply stub_not_builtin, Hr].
Qed.

(* the reserved-range guard, as phase 2 reads it (over uuids) and as known_reserved does (over request entries) *)
Lemma no_missing_reserved : forall T (id : T -> N) (es : list (N * entry)) l,
  existsb (fun x => (id x <? DYN_MIN) && negb (is_some (lookup es (id x)))) l = false ->
  forall x, In x l -> lookup es (id x) = None -> DYN_MIN <= id x.
Proof.
  intros T id es l H x Hx Hn. apply (existsb_false _ _ _ H) in Hx. rewrite Hn, andb_true_r in Hx.
  apply N.ltb_ge, Hx.
Qed.

(* second premise: on the tree without the guard the caller supplies that the request names no missing
   uuid of the protected range; with the guard phase 2 has refused such a request itself *)
Lemma phase2_ok : forall fixr A y cm es es1 strict,
  phase2 fixr A cm es = inr es1 ->
  (strict = true -> fixr = false -> forall i, In i (keys cm) -> lookup es i = None -> DYN_MIN <= i) ->
  in_scope A y strict es es1 /\
  (forall i e, In i (keys cm) -> lookup es1 i = Some e -> e_live e = true).
Proof.
  intros fixr A y cm es es1 strict H Hs. unfold phase2 in H.
  destruct cm as [|c0 cmr] eqn:Ecm.
  - injection H as <-. split; [apply in_scope_refl | intros i e []].
  - rewrite <- Ecm in *. clear Ecm c0 cmr.
    destruct (existsb _ (keys cm)) eqn:Emask in H; [discriminate|].
    destruct (fixr && existsb _ (keys cm)) eqn:Efix in H; [discriminate|].
    set (es0 := fold_left (add_stub A) (keys cm) es) in *.
    set (withext := filter (fun kv => is_some (se_ext (snd kv))) cm) in *.
    destruct withext as [|w0 wr] eqn:Ew; [discriminate|]. rewrite <- Ew in *. clear Ew w0 wr.
    destruct (existsb _ (keys withext)) eqn:Eas in H; [discriminate|].
    injection H as <-.
    assert (Hlive : forall i e, In i (keys cm) -> lookup es0 i = Some e -> e_live e = true).
    { intros i e Hi. unfold es0. rewrite lookup_add_stubs. destruct (lookup es i) as [e0|] eqn:Ee.
      - intros [= <-]. apply (existsb_false _ _ _ Emask) in Hi. rewrite Ee in Hi. apply negb_false_iff, Hi.
      - apply mem_In in Hi. rewrite Hi. intros [= <-]. reflexivity. }
    split.
    + apply (in_scope_trans _ _ _ _ es0).
      * apply add_stubs_scope. intros Hst. destruct fixr; [|exact (Hs Hst eq_refl)].
        exact (no_missing_reserved _ (fun i => i) _ _ Efix).
      * apply in_scope_map_vals. intros i e He.
        destruct (lookup withext i) as [se|] eqn:Ese; [right | left; reflexivity].
        apply lookup_Some_keys in Ese. apply mod_ok_same; try reflexivity.
        -- exact (Hlive i e (keys_filter _ _ _ _ Ese) He).
        -- exact (all_owned _ _ _ Eas i e Ese He).
    + intros i e Hi. rewrite lookup_map_vals. destruct (lookup es0 i) as [e0|] eqn:E0; [|discriminate].
      intros [= <-]. destruct (lookup withext i); exact (Hlive i e0 Hi E0).
Qed.

(* internal_delete of the live entries of agreement A that p selects *)
Lemma recycle_scope : forall A y strict (p : N -> bool) es,
  in_scope A y strict es (map_vals (fun i e => if e_live e && owner_is A e && p i then recycle e else e) es).
Proof.
  intros A y strict p es. apply in_scope_map_vals. intros i e _.
  destruct (e_live e && owner_is A e && p i) eqn:E; [right | left; reflexivity].
  apply andb_true_iff in E as [E _]. apply andb_true_iff in E as [L O]. apply mod_ok_same; auto.
Qed.

Lemma del_not_in_ok : forall A y strict keep es, in_scope A y strict es (del_not_in A keep es).
Proof. intros A y strict keep. exact (recycle_scope A y strict (fun i => negb (mem i keep))). Qed.

Lemma del_in_ok : forall A y strict l es, in_scope A y strict es (del_in A l es).
Proof. intros A y strict l. exact (recycle_scope A y strict (fun i => mem i l)). Qed.

Lemma del_not_in_keep : forall A keep es i, mem i keep = true -> lookup (del_not_in A keep es) i = lookup es i.
Proof.
  intros A keep es i H. apply lookup_map_vals_fix. intros e. rewrite H. cbn [negb]. rewrite andb_false_r. reflexivity.
Qed.

Lemma phase4_ok : forall A y strict rt es es4, phase4 A rt es = inr es4 -> in_scope A y strict es es4.
Proof.
  intros A y strict rt es es4 H. unfold phase4 in H. destruct rt as [|l|l].
  - injection H as <-. apply in_scope_refl.
  - injection H as <-. apply del_not_in_ok.
  - destruct (existsb _ l) in H; [discriminate|]. injection H as <-. apply del_in_ok.
Qed.

Lemma aget_spn_set : forall a e, aget a (spn_set e) = aget a e.
Proof. intros a e. unfold spn_set. destruct (_ || _); reflexivity. Qed.

Lemma spn_set_fields : forall e,
  e_live (spn_set e) = e_live e /\ e_owner (spn_set e) = e_owner e /\ e_cls (spn_set e) = e_cls e /\
  e_scls (spn_set e) = e_scls e /\ e_ext (spn_set e) = e_ext e.
Proof. intros e. unfold spn_set. destruct (_ || _); cbn; auto 6. Qed.

Lemma req_classes_sync : forall l rc, req_classes l = Some rc ->
  forall c, mem c rc = true -> mem c sync_classes = true.
Proof.
  induction l as [|s r IH]; intros rc H c Hc; cbn [req_classes] in H.
  - injection H as <-. discriminate.
  - destruct s as [k|]; [|discriminate].
    destruct (mem k sync_classes) eqn:Ek; [|discriminate].
    destruct (req_classes r) as [rc'|] eqn:Er; [|discriminate]. injection H as <-.
    rewrite mem_add in Hc. apply orb_true_iff in Hc as [Hc|Hc].
    + apply N.eqb_eq in Hc. subst. exact Ek.
    + eapply IH; eauto.
Qed.

Lemma real_owned_scoped : forall y rc a,
  mem a (real_owned y rc) = true -> mem a SYNCABLE = true /\ mem a y = false.
Proof.
  intros y rc a H. apply mem_filter in H as [H _]. apply andb_true_iff in H as [H1 H2].
  apply negb_true_iff in H2. auto.
Qed.

Lemma phantoms_scoped : forall fixp y a, mem a (phantoms fixp y) = true ->
  a = A_PasswordImport /\ (fixp = true -> mem A_PrimaryCredential y = false).
Proof.
  intros fixp y a H. unfold phantoms in H. destruct (fixp && _) eqn:E in H; [discriminate|].
  cbn [mem] in H. rewrite orb_false_r in H. apply N.eqb_eq in H. split; [exact H|].
  intros ->. cbn [andb] in E. apply orb_false_iff in E. apply E.
Qed.

Lemma entry_mod_props : forall fixp y se m, entry_mod fixp y se = Some m ->
  m_attrs m = se_attrs se /\
  (forall c, mem c (m_rc m) = true -> mem c sync_classes = true) /\
  (forall a, mem a (m_real m) = true -> mem a SYNCABLE = true /\ mem a y = false) /\
  (forall av, In av (m_attrs m) -> mem (fst av) (m_real m) = true \/
     fst av = A_PasswordImport /\ (fixp = true -> mem A_PrimaryCredential y = false)).
Proof.
  intros fixp y se m H. unfold entry_mod in H.
  destruct (req_classes (se_sch se)) as [rc|] eqn:Er; [|discriminate].
  destruct (forallb _ (se_attrs se)) eqn:Ef; [|discriminate]. injection H as <-. cbn [m_rc m_real m_attrs].
  split; [reflexivity|]. split; [exact (req_classes_sync _ _ Er)|]. split; [apply real_owned_scoped|].
  intros av Hin. rewrite forallb_forall in Ef. apply Ef in Hin. rewrite mem_app in Hin.
  apply orb_true_iff in Hin as [Hin|Hin]; [left; exact Hin | right; exact (phantoms_scoped _ _ _ Hin)].
Qed.

Lemma import_guarded : forall y se m, entry_mod true y se = Some m -> has_import se = true ->
  mem A_PrimaryCredential y = false.
Proof.
  intros y se m Hm Hi. destruct (entry_mod_props _ _ _ _ Hm) as (Heq & _ & Hreal & Hat).
  unfold has_import in Hi. destruct (lookup (se_attrs se) A_PasswordImport) as [v|] eqn:El; [|discriminate].
  apply lookup_Some_In in El. rewrite <- Heq in El. destruct (Hat _ El) as [H|[_ H]]; [|auto].
  apply Hreal in H as [H _]. discriminate H.
Qed.

Lemma lookup_set_attrs : forall l attrs a,
  (forall av, In av l -> fst av <> a \/ fst av = A_PasswordImport) ->
  lookup (set_attrs l attrs) a = lookup attrs a.
Proof.
  unfold set_attrs. induction l as [|av r IH]; intros attrs a H; cbn [fold_left]; [reflexivity|].
  rewrite IH by (intros x Hx; apply H; right; exact Hx).
  destruct (N.eqb_spec (fst av) A_PasswordImport) as [E|E]; [reflexivity|].
  apply lookup_upsert_other. destruct (H av (or_introl eq_refl)); [assumption | contradiction].
Qed.

(* a password import writes primary_credential *)
Lemma aget_apply_mod : forall fixp y se tick m e a,
  entry_mod fixp y se = Some m -> mem a (m_real m) = false ->
  (a =? A_PrimaryCredential) && has_import se = false ->
  aget a (apply_mod tick m e) = aget a e.
Proof.
  intros fixp y se tick m e a Hm Hr Hpc. destruct (entry_mod_props _ _ _ _ Hm) as (Heq & _ & _ & Hat).
  unfold apply_mod. rewrite aget_spn_set. unfold aget, apply_mod0. cbn [e_attrs].
  assert (E2 : lookup (set_attrs (m_attrs m)
                 (filter (fun av => negb (mem (fst av) (m_real m))) (e_attrs e))) a = lookup (e_attrs e) a).
  { rewrite lookup_set_attrs.
    - rewrite (lookup_filter_fst (fun k => negb (mem k (m_real m)))), Hr. reflexivity.
    - intros av Hin. destruct (Hat av Hin) as [H|[H _]]; [left; congruence | right; exact H]. }
  unfold has_import in Hpc. rewrite <- Heq in Hpc.
  destruct (is_some (lookup (m_attrs m) A_PasswordImport)); [|exact E2].
  rewrite andb_true_r in Hpc. apply N.eqb_neq in Hpc. rewrite lookup_upsert_other by congruence. exact E2.
Qed.

Lemma apply_mod_fields : forall tick m e,
  e_live (apply_mod tick m e) = e_live e /\ e_owner (apply_mod tick m e) = e_owner e /\
  e_cls (apply_mod tick m e) = union (e_cls e) (m_rc m).
Proof. intros. unfold apply_mod, spn_set. destruct (_ || _); cbn; auto. Qed.

(* yr: the yielded attributes the modification is claimed to respect, a part of the agreement's yield set y;
   without the guard primary_credential is respected only if the request imports no password *)
Lemma apply_mod_ok : forall fixp A y yr tick se m e,
  (forall a, mem a y = false -> mem a yr = false) ->
  (fixp = false -> has_import se = true -> mem A_PrimaryCredential yr = false) ->
  entry_mod fixp y se = Some m -> e_live e = true -> owner_is A e = true ->
  mod_ok A yr e (apply_mod tick m e).
Proof.
  intros fixp A y yr tick se m e Hinc Hph Hm L O.
  destruct (entry_mod_props _ _ _ _ Hm) as (_ & Hrc & Hreal & _).
  destruct (apply_mod_fields tick m e) as (_ & Fo & Fc).
  repeat (split; [assumption|]). split; [unfold owner_is; rewrite Fo; exact O|]. split; [|split].
  - intros a Hne. destruct (mem a (m_real m)) eqn:Er; [destruct (Hreal a Er); auto|].
    destruct ((a =? A_PrimaryCredential) && has_import se) eqn:Ei.
    2: { contradiction Hne. symmetry. exact (aget_apply_mod _ _ _ tick _ e a Hm Er Ei). }
    apply andb_true_iff in Ei as [Ea Ei]. apply N.eqb_eq in Ea. subst a. split; [reflexivity|].
    destruct fixp; [exact (Hinc _ (import_guarded _ _ _ Hm Ei)) | auto].
  - intros c Hc. rewrite Fc, mem_union in Hc. apply orb_true_iff in Hc as [Hc|Hc]; [left; exact Hc | right; auto].
  - intros c Hc. rewrite Fc, mem_union, Hc. reflexivity.
Qed.

Lemma mods_of_lookup : forall fixp y cm ms, mods_of fixp y cm = Some ms ->
  forall i m, lookup ms i = Some m -> exists se, lookup cm i = Some se /\ entry_mod fixp y se = Some m.
Proof.
  intros fixp y. induction cm as [|[k se] r IH]; intros ms H i m Hl; cbn [mods_of] in H.
  - injection H as <-. discriminate.
  - destruct (entry_mod fixp y se) as [m0|] eqn:Em; [|discriminate].
    destruct (mods_of fixp y r) as [ms'|] eqn:Er; [|discriminate]. injection H as <-.
    cbn [lookup] in *. destruct (i =? k).
    + injection Hl as <-. eauto.
    + eapply IH; eauto.
Qed.

(* yr and the premise for the tree without the guard: as in apply_mod_ok *)
Lemma phase3_ok : forall fixp A y yr tick cm es es3 strict,
  phase3 fixp A y tick cm es = inr es3 ->
  (forall a, mem a y = false -> mem a yr = false) ->
  (fixp = false -> forall i se, lookup cm i = Some se -> has_import se = true ->
                   mem A_PrimaryCredential yr = false) ->
  (forall i e, In i (keys cm) -> lookup es i = Some e -> e_live e = true) ->
  in_scope A yr strict es es3.
Proof.
  intros fixp A y yr tick cm es es3 strict H Hinc Hph Hlive. unfold phase3 in H.
  destruct cm as [|c0 cmr] eqn:Ecm; [injection H as <-; apply in_scope_refl|].
  rewrite <- Ecm in *. clear Ecm c0 cmr.
  destruct (mods_of fixp y cm) as [ms|] eqn:Ems; [|discriminate].
  destruct (existsb _ (keys ms)) eqn:Eas in H; [discriminate|].
  do 2 (destruct (existsb _ ms) in H; [discriminate|]).
  injection H as <-. apply in_scope_map_vals. intros i e Ee.
  destruct (lookup ms i) as [m|] eqn:Em; [right | left; reflexivity].
  destruct (mods_of_lookup _ _ _ _ Ems i m Em) as [se [Hse Hmod]].
  apply (apply_mod_ok fixp A y yr tick se); auto.
  - intros Hf. exact (Hph Hf i se Hse).
  - exact (Hlive i e (lookup_Some_keys _ _ _ _ Hse) Ee).
  - exact (all_owned _ _ _ Eas i e (lookup_Some_keys _ _ _ _ Em) Ee).
Qed.

Lemma cmap_lookup_acc : forall l acc i se,
  lookup (fold_left (fun acc se => upsert (se_id se) se acc) l acc) i = Some se ->
  lookup acc i = Some se \/ In se l /\ se_id se = i.
Proof.
  induction l as [|x r IH]; intros acc i se H; cbn [fold_left] in H; [left; exact H|].
  apply IH in H as [H|[H1 H2]]; [|right; split; [right|]; assumption].
  rewrite lookup_upsert in H. destruct (N.eqb_spec i (se_id x)) as [->|]; [|left; exact H].
  injection H as <-. right. split; [left|]; reflexivity.
Qed.

Lemma cmap_lookup : forall l i se, lookup (cmap l) i = Some se -> In se l /\ se_id se = i.
Proof. intros l i se H. apply cmap_lookup_acc in H as [H|H]; [discriminate | exact H]. Qed.

Lemma phase1_ok : forall s r a, phase1 s r = inr a ->
  r_ik r = IKSynch /\ lookup (s_agrs s) (r_agr r) = Some a.
Proof.
  intros s r a H. unfold phase1 in H. destruct (r_ik r); try discriminate.
  destruct (lookup (s_agrs s) (r_agr r)) as [a0|]; [|discriminate].
  split; [reflexivity|].
  destruct (r_from r) as [|c]; [injection H as ->; reflexivity|].
  destruct (a_cookie a0) as [c'|]; [|discriminate].
  destruct (c =? c'); [injection H as ->; reflexivity | discriminate].
Qed.

Lemma phase5_other : forall A to agrs k, k <> A -> lookup (phase5 A to agrs) k = lookup agrs k.
Proof.
  intros A to agrs k H. apply lookup_map_vals_fix. intros a. apply N.eqb_neq in H. rewrite H. reflexivity.
Qed.

Lemma phase5_yield : forall A to s es tick, yield_of (mkS es (phase5 A to (s_agrs s)) tick) A = yield_of s A.
Proof.
  intros A to s es tick. unfold yield_of, phase5. cbn [s_agrs]. rewrite lookup_map_vals.
  destruct (lookup (s_agrs s) A); cbn [option_map]; [|reflexivity]. rewrite N.eqb_refl. reflexivity.
Qed.

Lemma known_phantom_false : forall s r,
  known_phantom s (OSync r) = false ->
  existsb has_import (r_ents r) = true -> mem A_PrimaryCredential (yield_of s (r_agr r)) = false.
Proof.
  intros s r H Hi. cbn [known_phantom] in H. rewrite Hi in H. cbn [andb] in H.
  apply orb_false_iff in H as [_ H]. exact H.
Qed.

(* What an accepted request does, on either tree. The yield set is respected, and new entries stay out of
   the protected range, as far as the tree has the guard or the request is outside the defect class the guard
   closes; otherwise in_scope is handed the yield set [], which claims nothing about yielded attributes, and
   strict = false, which claims nothing about where new entries lie. *)
Definition sync_scope (fixr fixp : bool) (s : st) (r : sreq) (s' : st) : Prop :=
  r_ik r = IKSynch /\
  in_scope (r_agr r) (if fixp || negb (known_phantom s (OSync r)) then yield_of s (r_agr r) else [])
           (fixr || negb (known_reserved s (OSync r))) (s_ents s) (s_ents s') /\
  (forall k, k <> r_agr r -> lookup (s_agrs s') k = lookup (s_agrs s) k) /\
  yield_of s' (r_agr r) = yield_of s (r_agr r).

Theorem sync_apply_scope : forall fixr fixp s r s',
  sync_apply fixr fixp s r = inr s' -> sync_scope fixr fixp s r s'.
Proof.
  intros fixr fixp s r s' H. unfold sync_apply in H. unfold sync_scope.
  destruct (phase1 s r) as [e|a] eqn:E1; [discriminate|].
  destruct (phase1_ok _ _ _ E1) as [Hik Ha].
  set (A := r_agr r) in *. set (cm := cmap (r_ents r)) in *.
  set (yr := if fixp || negb (known_phantom s (OSync r)) then yield_of s A else []).
  set (strict := fixr || negb (known_reserved s (OSync r))).
  destruct (phase2 fixr A cm (s_ents s)) as [e|es1] eqn:E2; [discriminate|].
  set (es2 := match r_from r with SRefresh => del_not_in A (keys cm) es1 | SActive _ => es1 end) in *.
  destruct (phase3 fixp A (a_yield a) (s_tick s) cm es2) as [e|es3] eqn:E3; [discriminate|].
  destruct (phase4 A (r_retain r) es3) as [e|es4] eqn:E4; [discriminate|].
  injection H as <-. cbn [s_ents s_agrs].
  split; [exact Hik|]. split; [|split].
  - destruct (phase2_ok fixr A yr cm (s_ents s) es1 strict E2) as [H12 Hlive].
    { intros Hst Hf i Hi Hn. unfold strict in Hst. rewrite Hf in Hst. apply negb_true_iff in Hst.
      apply keys_lookup in Hi as [se Hse]. apply cmap_lookup in Hse as [Hin <-].
      exact (no_missing_reserved _ se_id _ _ Hst se Hin Hn). }
    apply (in_scope_trans _ _ _ _ es1); [exact H12|]. apply (in_scope_trans _ _ _ _ es2).
    { unfold es2. destruct (r_from r); [apply del_not_in_ok | apply in_scope_refl]. }
    apply (in_scope_trans _ _ _ _ es3); [|exact (phase4_ok _ _ _ _ _ _ E4)].
    apply (phase3_ok _ _ _ _ _ _ _ _ _ E3).
    + intros x Hx. unfold yr, yield_of. rewrite Ha. destruct (_ || _); [exact Hx | reflexivity].
    + intros Hf i se Hse Himp. unfold yr. rewrite Hf.
      destruct (known_phantom s (OSync r)) eqn:Ek; [reflexivity|]. apply (known_phantom_false _ _ Ek).
      apply existsb_exists. exists se. split; [apply (cmap_lookup _ _ _ Hse) | exact Himp].
    + (* the refresh cleanup keeps what the request names *)
      intros i e Hi He. apply (Hlive i e Hi). rewrite <- He. symmetry. unfold es2.
      destruct (r_from r); [apply del_not_in_keep, mem_In, Hi | reflexivity].
  - intros k Hk. apply phase5_other, Hk.
  - apply phase5_yield.
Qed.

Lemma aget_umod_apply : forall m e a, a <> umod_attr m -> aget a (umod_apply m e) = aget a e.
Proof.
  intros m e a Hne. unfold aget, umod_apply. destruct m as [b v|b]; cbn [e_attrs umod_attr] in *.
  - apply lookup_upsert_other. congruence.
  - rewrite (lookup_filter_fst (fun k => negb (k =? b))).
    destruct (N.eqb_spec a b); [contradiction | reflexivity].
Qed.

Lemma user_apply_ok : forall s t m s', user_apply s t m = inr s' ->
  s_agrs s' = s_agrs s /\
  (forall i, i <> t -> lookup (s_ents s') i = lookup (s_ents s) i) /\
  exists e e', lookup (s_ents s) t = Some e /\ lookup (s_ents s') t = Some e' /\
    e_live e' = e_live e /\ e_owner e' = e_owner e /\ e_cls e' = e_cls e /\
    e_scls e' = e_scls e /\ e_ext e' = e_ext e /\
    (has_cls K_SyncObject e = true ->
       exists u, e_owner e = Some u /\
         forall a, aget a e' <> aget a e -> mem a (SYNC_BASE ++ yield_of s u) = true).
Proof.
  intros s t m s' H. unfold user_apply in H.
  destruct (t <? DYN_MIN); [discriminate|].
  destruct (lookup (s_ents s) t) as [e|] eqn:Ee; [|discriminate].
  destruct (negb (e_live e)); [discriminate|].
  destruct (negb (mem (umod_attr m) ACP_ATTRS)); [discriminate|].
  destruct (sync_constrain s e) as [c|] eqn:Ec; [|discriminate].
  destruct (match c with Some l => negb (mem (umod_attr m) l) | None => false end) eqn:Ea; [discriminate|].
  destruct (spn_fail (umod_apply m e)); [discriminate|].
  destruct (negb (schema_ok (spn_set (umod_apply m e)))); [discriminate|].
  injection H as <-. cbn [s_ents s_agrs].
  split; [reflexivity|]. split.
  - intros i Hi. apply lookup_map_vals_fix. intros x. apply N.eqb_neq in Hi. rewrite Hi. reflexivity.
  - exists e, (spn_set (umod_apply m e)). split; [reflexivity|]. split.
    { rewrite lookup_map_vals, Ee. cbn [option_map]. rewrite N.eqb_refl. reflexivity. }
    destruct (spn_set_fields (umod_apply m e)) as (-> & -> & -> & -> & ->).
    repeat (split; [reflexivity|]).
    intros Hs. unfold sync_constrain in Ec. rewrite Hs in Ec.
    destruct (e_owner e) as [u|]; [|discriminate]. injection Ec as <-. exists u. split; [reflexivity|].
    (* only the attribute the modification names can change, and the constraint admitted it *)
    intros a Hne. destruct (N.eq_dec a (umod_attr m)) as [->|Hx]; [apply negb_false_iff, Ea|].
    contradiction Hne. rewrite aget_spn_set. apply aget_umod_apply, Hx.
Qed.

Lemma yield_apply_ok : forall s A ys s', yield_apply s A ys = inr s' ->
  s_ents s' = s_ents s /\ (forall k, k <> A -> lookup (s_agrs s') k = lookup (s_agrs s) k).
Proof.
  intros s A ys s' H. unfold yield_apply in H.
  destruct (lookup (s_agrs s) A); [|discriminate]. injection H as <-. split; [reflexivity|].
  intros k Hk. apply lookup_map_vals_fix. intros x. apply N.eqb_neq in Hk. rewrite Hk. reflexivity.
Qed.

Definition apply_op (fixr fixp : bool) (s : st) (o : op) : err + st :=
  match o with
  | OSync r => sync_apply fixr fixp s r
  | OYield A ys => yield_apply s A ys
  | OUser t m => user_apply s t m
  end.

Lemma step_unfold : forall fixr fixp s o,
  step fixr fixp s o =
  match apply_op fixr fixp s o with
  | inl e => (RErr e, mkS (s_ents s) (s_agrs s) (s_tick s + 1))
  | inr s' => (ROk, mkS (s_ents s') (s_agrs s') (s_tick s + 1))
  end.
Proof. intros. unfold step, apply_op. destruct o; reflexivity. Qed.

Lemma step_err : forall fixr fixp s o e s', step fixr fixp s o = (RErr e, s') ->
  s_ents s' = s_ents s /\ s_agrs s' = s_agrs s.
Proof.
  intros fixr fixp s o e s' H. rewrite step_unfold in H.
  destruct (apply_op fixr fixp s o); [|discriminate]. injection H as _ <-. auto.
Qed.

Lemma step_ok : forall fixr fixp s o s', step fixr fixp s o = (ROk, s') ->
  exists s1, apply_op fixr fixp s o = inr s1 /\ s' = mkS (s_ents s1) (s_agrs s1) (s_tick s + 1).
Proof.
  intros fixr fixp s o s' H. rewrite step_unfold in H.
  destruct (apply_op fixr fixp s o) as [e|s1]; [discriminate|]. injection H as <-. eauto.
Qed.

Theorem sync_step_scope : forall fixr fixp s r s',
  step fixr fixp s (OSync r) = (ROk, s') -> sync_scope fixr fixp s r s'.
Proof.
  intros fixr fixp s r s' H. apply step_ok in H as [s1 [Ha ->]]. exact (sync_apply_scope _ _ _ _ _ Ha).
Qed.

Lemma no_reserved_gen : forall fixr fixp s r s' i e',
  step fixr fixp s (OSync r) = (ROk, s') ->
  fixr || negb (known_reserved s (OSync r)) = true ->
  lookup (s_ents s) i = None -> lookup (s_ents s') i = Some e' ->
  DYN_MIN <= i /\ has_cls K_Builtin e' = false.
Proof.
  intros fixr fixp s r s' i e' H Hk Hl Hl'. destruct (sync_step_scope _ _ _ _ _ H) as (_ & Hr & _).
  specialize (Hr i). rewrite Hl, Hl' in Hr. apply Hr, Hk.
Qed.

Lemma attrs_scoped_gen : forall fixr fixp s r s' i e e' a,
  step fixr fixp s (OSync r) = (ROk, s') ->
  fixp || negb (known_phantom s (OSync r)) = true ->
  lookup (s_ents s) i = Some e -> lookup (s_ents s') i = Some e' -> aget a e <> aget a e' ->
  mem a SYNCABLE = true /\ mem a (yield_of s (r_agr r)) = false.
Proof.
  intros fixr fixp s r s' i e e' a H Hk Hl Hl' Hne. destruct (sync_step_scope _ _ _ _ _ H) as (_ & Hr & _).
  specialize (Hr i). rewrite Hk, Hl, Hl' in Hr.
  destruct Hr as [->|(_ & _ & _ & S & _)]; [contradiction | exact (S a Hne)].
Qed.

Definition sync_only (ops : list op) : Prop := forall o, In o ops -> exists r, o = OSync r.

Lemma run_inv : forall fixr fixp (P : st -> Prop) ops s,
  (forall s o, In o ops -> P s -> P (snd (step fixr fixp s o))) -> P s -> P (run fixr fixp s ops).
Proof.
  intros fixr fixp P ops. induction ops as [|o ops IH]; intros s Hstep Hs; [exact Hs|].
  apply IH; [|apply Hstep]; auto with datatypes.
Qed.

Lemma sync_step_foreign : forall fixr fixp s r i e,
  lookup (s_ents s) i = Some e -> e_owner e <> Some (r_agr r) ->
  lookup (s_ents (snd (step fixr fixp s (OSync r)))) i = Some e.
Proof.
  intros fixr fixp s r i e Hl Ho. destruct (step fixr fixp s (OSync r)) as [[|er] s'] eqn:E; cbn [snd].
  - destruct (sync_step_scope _ _ _ _ _ E) as (_ & H & _).
    destruct (in_scope_Some _ _ _ _ _ _ _ H Hl) as [e' [-> [<-|(_ & O & _)]]]; [reflexivity|].
    apply owner_is_Some in O. contradiction.
  - apply step_err in E as [-> _]. exact Hl.
Qed.

Lemma run_sync_foreign : forall fixr fixp ops s i e,
  (forall o, In o ops -> exists r, o = OSync r /\ e_owner e <> Some (r_agr r)) ->
  lookup (s_ents s) i = Some e -> lookup (s_ents (run fixr fixp s ops)) i = Some e.
Proof.
  intros fixr fixp ops s i e Hops. apply (run_inv _ _ (fun s => lookup (s_ents s) i = Some e)).
  intros s0 o Hin Hl. destruct (Hops o Hin) as [rq [-> Hn]]. apply sync_step_foreign; assumption.
Qed.

Lemma step_owner_stable : forall fixr fixp s o i e,
  lookup (s_ents s) i = Some e ->
  exists e', lookup (s_ents (snd (step fixr fixp s o))) i = Some e' /\ e_owner e' = e_owner e.
Proof.
  intros fixr fixp s o i e Hl. destruct (step fixr fixp s o) as [[|er] s'] eqn:E; cbn [snd].
  2: { apply step_err in E as [-> _]. eauto. }
  destruct o as [rq|A ys|t m].
  - destruct (sync_step_scope _ _ _ _ _ E) as (_ & H & _).
    destruct (in_scope_Some _ _ _ _ _ _ _ H Hl) as [e' [He' [<-|(_ & O & O' & _)]]]; [eauto|].
    apply owner_is_Some in O, O'. exists e'. split; [exact He' | congruence].
  - apply step_ok in E as [s1 [Ha ->]]. destruct (yield_apply_ok _ _ _ _ Ha) as [-> _]. eauto.
  - apply step_ok in E as [s1 [Ha ->]]. cbn [s_ents].
    destruct (user_apply_ok _ _ _ _ Ha) as (_ & H3 & e0 & e1 & L0 & L1 & _ & F2 & _).
    destruct (N.eq_dec i t) as [->|Hi]; [exists e1; split; [exact L1 | congruence] | rewrite (H3 i Hi); eauto].
Qed.

Lemma opt_eqb_eq : forall a b, opt_eqb a b = true <-> a = b.
Proof. intros [x|] [y|]; cbn [opt_eqb]; rewrite ?N.eqb_eq; split; congruence. Qed.

Lemma list_eqb_eq : forall T (f : T -> T -> bool),
  (forall x y, f x y = true <-> x = y) -> forall a b, list_eqb f a b = true <-> a = b.
Proof.
  intros T f Hf a. induction a as [|x r IH]; intros [|y q]; cbn [list_eqb];
    rewrite ?andb_true_iff, ?Hf, ?IH; intuition congruence.
Qed.

Lemma ln_eqb_eq : forall a b, list_eqb N.eqb a b = true <-> a = b.
Proof. exact (list_eqb_eq N N.eqb N.eqb_eq). Qed.

Lemma keyed_eqb_eq : forall V (f : V -> V -> bool), (forall x y, f x y = true <-> x = y) ->
  forall a b : N * V, (fst a =? fst b) && f (snd a) (snd b) = true <-> a = b.
Proof.
  intros V f Hf [a1 a2] [b1 b2]. cbn [fst snd]. rewrite andb_true_iff, N.eqb_eq, Hf. intuition congruence.
Qed.

Lemma pair_eqb_eq : forall a b, pair_eqb a b = true <-> a = b.
Proof. exact (keyed_eqb_eq N N.eqb N.eqb_eq). Qed.

Lemma entry_eqb_eq : forall a b, entry_eqb a b = true <-> a = b.
Proof.
  intros [a1 a2 a3 a4 a5 a6 a7] [b1 b2 b3 b4 b5 b6 b7]. unfold entry_eqb. cbn.
  rewrite !andb_true_iff, !eqb_true_iff, !opt_eqb_eq, !ln_eqb_eq, (list_eqb_eq _ _ pair_eqb_eq).
  intuition congruence.
Qed.

Lemma agr_eqb_eq : forall a b, agr_eqb a b = true <-> a = b.
Proof.
  intros [a1 a2] [b1 b2]. unfold agr_eqb. cbn. rewrite andb_true_iff, opt_eqb_eq, ln_eqb_eq. intuition congruence.
Qed.

Lemma ents_eqb_eq : forall a b, ents_eqb a b = true <-> a = b.
Proof. exact (list_eqb_eq _ _ (keyed_eqb_eq _ entry_eqb entry_eqb_eq)). Qed.
Lemma agrs_eqb_eq : forall a b, agrs_eqb a b = true <-> a = b.
Proof. exact (list_eqb_eq _ _ (keyed_eqb_eq _ agr_eqb agr_eqb_eq)). Qed.

Lemma st_eqb_eq : forall a b, st_eqb a b = true <-> a = b.
Proof.
  intros [a1 a2 a3] [b1 b2 b3]. unfold st_eqb. cbn. rewrite !andb_true_iff, ents_eqb_eq, agrs_eqb_eq, N.eqb_eq.
  intuition congruence.
Qed.

Lemma res_eqb_eq : forall a b, res_eqb a b = true -> a = b.
Proof.
  intros [|x] [|y]; cbn [res_eqb]; intros H; try discriminate; try reflexivity.
  destruct x, y; cbn in H; try discriminate; reflexivity.
Qed.

Lemma oent_eqb_refl : forall o, oent_eqb o o = true.
Proof. intros [e|]; cbn; [apply entry_eqb_eq|]; reflexivity. Qed.
Lemma oagr_eqb_refl : forall o, oagr_eqb o o = true.
Proof. intros [e|]; cbn; [apply agr_eqb_eq|]; reflexivity. Qed.

Lemma changed_iff : forall e e' a, changed e e' a = true <-> aget a e <> aget a e'.
Proof.
  intros e e' a. unfold changed. rewrite negb_true_iff, <- not_true_iff_false, opt_eqb_eq. reflexivity.
Qed.

(* checking the attribute names either entry lists is checking every attribute *)
Lemma changed_forallb : forall (p : N -> bool) e e',
  forallb (fun a => negb (changed e e' a) || p a) (attr_names e e') = true <->
  (forall a, aget a e <> aget a e' -> p a = true).
Proof.
  intros p e e'. rewrite forallb_forall. split.
  - intros H a Hne. assert (Hin : In a (attr_names e e')).
    { apply in_or_app. unfold aget in Hne.
      destruct (lookup (e_attrs e) a) eqn:E1; [left; exact (lookup_Some_keys _ _ _ _ E1)|].
      destruct (lookup (e_attrs e') a) eqn:E2; [right; exact (lookup_Some_keys _ _ _ _ E2) | congruence]. }
    apply H in Hin. apply changed_iff in Hne. rewrite Hne in Hin. exact Hin.
  - intros H a _. destruct (changed e e' a) eqn:Ec; [|reflexivity]. apply changed_iff, H in Ec. exact Ec.
Qed.

Theorem sync_ent_ok_iff : forall A y i o o', sync_ent_ok A y i o o' = true <-> EOK A y true i o o'.
Proof.
  intros A y i [e|] [e'|]; cbn [EOK sync_ent_ok].
  - rewrite orb_true_iff, entry_eqb_eq, !andb_true_iff, changed_forallb, !forallb_forall.
    split; (intros [He|H]; [left; exact He | right]).
    + destruct H as [[[[[L O] O'] Ha] Hc1] Hc2]. repeat (split; [assumption|]). split; [|split].
      * intros a Hne. apply Ha, andb_true_iff in Hne as [H1 H2]. apply negb_true_iff in H2. auto.
      * intros c Hc. apply orb_true_iff, Hc1, mem_In, Hc.
      * intros c Hc. apply Hc2, mem_In, Hc.
    + destruct H as (L & O & O' & S & G1 & G2). repeat split; try assumption.
      * intros a Hne. destruct (S a Hne) as [-> ->]. reflexivity.
      * intros c Hc. apply orb_true_iff, G1, mem_In, Hc.
      * intros c Hc. apply G2, mem_In, Hc.
  - split; [discriminate | contradiction].
  - rewrite !andb_true_iff, N.leb_le, negb_true_iff. split.
    + intros [[O Hi] Hb]. auto.
    + intros [O H]. destruct (H eq_refl). auto.
  - split; auto.
Qed.

Lemma same_data_iff : forall s s', same_data s s' = true <-> s_ents s = s_ents s' /\ s_agrs s = s_agrs s'.
Proof. intros s s'. unfold same_data. rewrite andb_true_iff, ents_eqb_eq, agrs_eqb_eq. reflexivity. Qed.

Lemma agr_forall : forall A s s', (forall k, k <> A -> lookup (s_agrs s') k = lookup (s_agrs s) k) ->
  forallb (fun k => (k =? A) || oagr_eqb (lookup (s_agrs s) k) (lookup (s_agrs s') k)) (all_agrs s s') = true.
Proof.
  intros A s s' H. apply forallb_forall. intros k _. destruct (N.eqb_spec k A) as [->|Hk]; [reflexivity|].
  rewrite (H k Hk). apply oagr_eqb_refl.
Qed.

Lemma guard_closed : forall guard known, negb guard && known = false -> guard || negb known = true.
Proof. intros [|] [|]; auto. Qed.

Lemma step_pcheck : forall fixr fixp s o r s',
  step fixr fixp s o = (r, s') -> known_step fixr fixp s o r = false -> pcheck_step s o r s' = true.
Proof.
  intros fixr fixp s o r s' H Hk. destruct r as [|e].
  2: { apply same_data_iff. destruct (step_err _ _ _ _ _ _ H) as [-> ->]. auto. }
  apply orb_false_iff in Hk as [Kr Kp]. cbn [pcheck_step]. destruct o as [rq|A ys|t m].
  - destruct (sync_step_scope _ _ _ _ _ H) as (Hik & Hents & Hag & Hy).
    rewrite (guard_closed _ _ Kr), (guard_closed _ _ Kp) in Hents.
    rewrite Hik. cbn [andb]. rewrite !andb_true_iff. split; [split|].
    + apply forallb_forall. intros i _. apply sync_ent_ok_iff, Hents.
    + apply agr_forall, Hag.
    + apply ln_eqb_eq. symmetry. exact Hy.
  - apply step_ok in H as [s1 [Ha ->]]. destruct (yield_apply_ok _ _ _ _ Ha) as [H1 H3].
    apply andb_true_iff. split; [apply ents_eqb_eq; symmetry; exact H1 | apply agr_forall; exact H3].
  - apply step_ok in H as [s1 [Ha ->]].
    destruct (user_apply_ok _ _ _ _ Ha) as (H1 & H3 & e0 & e1 & L0 & L1 & F1 & F2 & F3 & F4 & F5 & Hsy).
    apply andb_true_iff. split; [apply agrs_eqb_eq; symmetry; exact H1|].
    apply forallb_forall. intros i _. cbn [s_ents]. destruct (N.eqb_spec i t) as [->|Hi].
    2: { rewrite (H3 i Hi). apply oent_eqb_refl. }
    rewrite L0, L1. cbn [user_ent_ok]. rewrite F1, F2, F3, F4, F5, !andb_true_iff, eqb_true_iff, !opt_eqb_eq, !ln_eqb_eq.
    split; [repeat split|]. destruct (has_cls K_SyncObject e0) eqn:Es; [|reflexivity].
    destruct (Hsy eq_refl) as [u [Hu Hm]]. rewrite Hu. apply changed_forallb. intros a Hne. apply Hm. congruence.
Qed.
