(* The SHA-2 of KV.C29.Hash rearranged so that the kernel's lazy machine (which evaluates a
   [vm_compute] proof again when a compiled file is checked independently) gets through it
   cheaply, and proved equal to it on every input and for every parameter record ([sha2f_eq]).
   The 1000-round sha-crypt vectors are stated on [sha256]/[sha512] and evaluated on
   [sha256f]/[sha512f] (KV.C30.CryptEval).

   The recursion is that of the reference.  What differs:
   - [rotr] rebuilds [N.ones bits] and [bits - n] at every call; here the mask, 2^bits and the
     shift amounts are computed once in [sha2f] and handed down (call-by-need shares them).
   - A rotation is a shift of the doubled word d = x | x * 2^bits: bit i < bits of d >> n is
     bit i + n of x, or bit i + n - bits of x once that runs off the top ([rotr_dbl]; no bound
     on x is needed, only n <= bits).  The three terms of a sigma are one doubled word shifted
     further and further right.
   - Whatever is only ever summed and then masked need only be right below [bits]
     ([add_mask]): the sigmas are left unmasked, and ch is z ^ (x & (y ^ z)).
   - maj a b c = ((a ^ b) & (b ^ c)) ^ b, and b ^ c is the a ^ b of the round before.
   - Every schedule word goes through both small sigmas, so the window keeps each word with its
     two sigmas over one shared doubled word (the lazy machine leaves them unevaluated until a
     round reads them; the VM computes them at once). *)
From Coq Require Import List NArith Bool Lia.
Require Import KV.C29.Hash.
Import ListNotations.
Open Scope N_scope.

Section Fast.
  Variable P : sha2_params.
  Variables bits mask pow : N.     (* instantiated with p_bits P, N.ones bits, 2 ^ bits *)

  Definition dbl (x : N) : N := N.lor x (pow * x).

  (* The sigmas take x and [dbl x].  Amounts that are increasing and <= bits (all those of
     SHA-256/512) use the doubled word; any other record falls back to the reference, so that
     sha2f_eq needs no hypothesis on P.  The test is made once per hash. *)
  Definition bigsigf (r : N * N * N) : N -> N -> N :=
    let '(a, b, c) := r in
    if (a <=? b) && (b <=? c) && (c <=? bits) then
      let ba := b - a in let cb := c - b in
      fun _ d => let u := N.shiftr d a in let v := N.shiftr u ba in
                 N.lxor (N.lxor u v) (N.shiftr v cb)
    else fun x _ => bigsig P r x.
  Definition smallsigf (r : N * N * N) : N -> N -> N :=
    let '(a, b, c) := r in
    if (a <=? b) && (b <=? bits) then
      let ba := b - a in
      fun x d => let u := N.shiftr d a in
                 N.lxor (N.lxor u (N.shiftr u ba)) (N.shiftr x c)
    else fun x _ => smallsig P r x.
  Definition chf (x y z : N) : N := N.lxor z (N.land x (N.lxor y z)).

  Variables S0 S1 s0 s1 : N -> N -> N.

  Definition sched (x : N) : N * N * N := let d := dbl x in (x, s0 x d, s1 x d).
  (* the default is [sched 0] for [map_nth] *)
  Definition wnth (i : nat) (w : list (N * N * N)) : N * N * N := nth i w (sched 0).

  (* [bc] = b xor c *)
  Fixpoint roundsf (ks : list N) (w : list (N * N * N)) (bc : N) (s : st8) : st8 :=
    match ks with
    | [] => s
    | k :: ks' =>
        let '(a, b, c, d, e, f, g, h) := s in
        let wt := fst (fst (wnth 0 w)) in
        let t1 := h + S1 e (dbl e) + chf e f g + k + wt in
        let ab := N.lxor a b in
        let t2 := S0 a (dbl a) + N.lxor (N.land ab bc) b in
        let nw := N.land (snd (wnth 14 w) + fst (fst (wnth 9 w)) + snd (fst (wnth 1 w)) + wt) mask in
        roundsf ks' (tl w ++ [sched nw]) ab
          (N.land (t1 + t2) mask, a, b, c, N.land (d + t1) mask, e, f, g)
    end.

  Definition be_wordf (bs : list N) : N := fold_left (fun acc b => 256 * acc + b) bs 0.

  Definition blockf (wbytes : nat) (s : st8) (blk : list N) : st8 :=
    let '(a, b, c, d, e, f, g, h) := s in
    let '(a', b', c', d', e', f', g', h') :=
      roundsf (p_K P) (map (fun bs => sched (be_wordf bs)) (chunks wbytes blk)) (N.lxor b c) s in
    (N.land (a + a') mask, N.land (b + b') mask, N.land (c + c') mask, N.land (d + d') mask,
     N.land (e + e') mask, N.land (f + f') mask, N.land (g + g') mask, N.land (h + h') mask).
End Fast.

Definition sha2f (P : sha2_params) (wbytes : nat) (init : st8) (msg : list N) : list N :=
  let bits := p_bits P in
  let mask := N.ones bits in
  let pow := 2 ^ bits in
  let S0 := bigsigf P bits (p_S0 P) in
  let S1 := bigsigf P bits (p_S1 P) in
  let s0 := smallsigf P bits (p_s0 P) in
  let s1 := smallsigf P bits (p_s1 P) in
  let '(a, b, c, d, e, f, g, h) :=
    fold_left (blockf P mask pow S0 S1 s0 s1 wbytes)
      (chunks (16 * wbytes) (md_pad (16 * wbytes) (2 * wbytes) msg)) init in
  be_bytes wbytes a ++ be_bytes wbytes b ++ be_bytes wbytes c ++ be_bytes wbytes d ++
  be_bytes wbytes e ++ be_bytes wbytes f ++ be_bytes wbytes g ++ be_bytes wbytes h.

Definition sha256f : list N -> list N := sha2f sha256_params 4 sha256_init.
Definition sha512f : list N -> list N := sha2f sha512_params 8 sha512_init.

Lemma fold_left_ext : forall (A B : Type) (f g : A -> B -> A) l a,
  (forall a b, f a b = g a b) -> fold_left f l a = fold_left g l a.
Proof. intros A B f g l a E. revert a. induction l as [|b l IH]; intros a; cbn; [reflexivity | now rewrite E]. Qed.

Lemma be_wordf_eq : forall bs, be_wordf bs = be_word bs.
Proof. intros bs. apply fold_left_ext. intros a b. now rewrite N.mul_comm. Qed.

Lemma add_mask : forall n x x' y y',
  N.land x (N.ones n) = N.land x' (N.ones n) -> N.land y (N.ones n) = N.land y' (N.ones n) ->
  N.land (x + y) (N.ones n) = N.land (x' + y') (N.ones n).
Proof.
  intros n x x' y y'. rewrite !N.land_ones. intros Ex Ey.
  assert (Hn : 2 ^ n <> 0) by (apply N.pow_nonzero; discriminate).
  now rewrite (N.add_mod x), Ex, Ey, <- N.add_mod.
Qed.

Lemma majf_eq : forall a b c, N.lxor (N.land (N.lxor a b) (N.lxor b c)) b = maj a b c.
Proof.
  intros a b c. unfold maj. apply N.bits_inj. intros i.
  rewrite ?N.lxor_spec, ?N.land_spec, ?N.lxor_spec.
  now destruct (N.testbit a i), (N.testbit b i), (N.testbit c i).
Qed.

Lemma land_lxor_l : forall a b m, N.land (N.lxor a b) m = N.lxor (N.land a m) (N.land b m).
Proof.
  intros a b m. apply N.bits_inj. intros i. rewrite !N.lxor_spec, !N.land_spec, N.lxor_spec.
  now destruct (N.testbit a i), (N.testbit b i), (N.testbit m i).
Qed.

Section Eq.
  Variable P : sha2_params.
  Local Notation bits := (p_bits P).
  Local Notation mask := (N.ones (p_bits P)).
  Local Notation pow := (2 ^ p_bits P).

  Lemma rotr_dbl : forall n x, n <= bits -> N.land (N.shiftr (dbl pow x) n) mask = rotr P n x.
  Proof.
    intros n x Hn. unfold rotr, dbl. rewrite N.mul_comm, <- N.shiftl_mul_pow2.
    apply N.bits_inj. intros i. rewrite !N.land_spec. destruct (N.lt_ge_cases i bits) as [Hi|Hi].
    2: now rewrite N.ones_spec_high, !andb_false_r.
    f_equal. rewrite N.shiftr_spec', !N.lor_spec, N.shiftr_spec'. f_equal.
    destruct (N.lt_ge_cases (i + n) bits) as [Hl|Hl].
    - rewrite !N.shiftl_spec_low by lia. reflexivity.
    - rewrite !N.shiftl_spec_high' by lia. f_equal. lia.
  Qed.

  Lemma rotr_mask : forall n x, N.land (rotr P n x) mask = rotr P n x.
  Proof. intros n x. unfold rotr. now rewrite <- N.land_assoc, N.land_diag. Qed.

  Lemma bigsigf_eq : forall r x,
    N.land (bigsigf P bits r x (dbl pow x)) mask = N.land (bigsig P r x) mask.
  Proof.
    intros [[a b] c] x. unfold bigsigf.
    destruct ((a <=? b) && (b <=? c) && (c <=? bits)) eqn:E; [|reflexivity].
    apply andb_true_iff in E as [E Hc]. apply andb_true_iff in E as [Ha Hb].
    apply N.leb_le in Ha, Hb, Hc. cbv zeta. rewrite !N.shiftr_shiftr.
    replace (a + (b - a)) with b by lia. replace (b + (c - b)) with c by lia.
    unfold bigsig. rewrite !land_lxor_l, !rotr_dbl, !rotr_mask by lia. reflexivity.
  Qed.

  Lemma smallsigf_eq : forall r x,
    N.land (smallsigf P bits r x (dbl pow x)) mask = N.land (smallsig P r x) mask.
  Proof.
    intros [[a b] c] x. unfold smallsigf.
    destruct ((a <=? b) && (b <=? bits)) eqn:E; [|reflexivity].
    apply andb_true_iff in E as [Ha Hb]. apply N.leb_le in Ha, Hb. cbv zeta.
    rewrite N.shiftr_shiftr. replace (a + (b - a)) with b by lia.
    unfold smallsig. rewrite !land_lxor_l, !rotr_dbl, !rotr_mask by lia. reflexivity.
  Qed.

  Lemma chf_eq : forall x y z, N.land (chf x y z) mask = N.land (ch P x y z) mask.
  Proof.
    intros x y z. unfold chf, ch. apply N.bits_inj. intros i.
    rewrite !N.land_spec, !N.lxor_spec, !N.land_spec, !N.lxor_spec.
    destruct (N.lt_ge_cases i bits) as [Hi|Hi].
    - rewrite N.ones_spec_low by exact Hi.
      now destruct (N.testbit x i), (N.testbit y i), (N.testbit z i).
    - now rewrite N.ones_spec_high, !andb_false_r.
  Qed.

  Variables S0 S1 s0 s1 : N -> N -> N.
  Hypothesis HS0 : forall x, N.land (S0 x (dbl pow x)) mask = N.land (bigsig P (p_S0 P) x) mask.
  Hypothesis HS1 : forall x, N.land (S1 x (dbl pow x)) mask = N.land (bigsig P (p_S1 P) x) mask.
  Hypothesis Hs0 : forall x, N.land (s0 x (dbl pow x)) mask = N.land (smallsig P (p_s0 P) x) mask.
  Hypothesis Hs1 : forall x, N.land (s1 x (dbl pow x)) mask = N.land (smallsig P (p_s1 P) x) mask.
  Local Notation sched := (sched pow s0 s1).

  Lemma wnth_map : forall i w, wnth pow s0 s1 i (map sched w) = sched (nth i w 0).
  Proof. intros i w. apply map_nth. Qed.

  Lemma roundsf_eq : forall ks w a b c d e f g h,
    roundsf mask pow S0 S1 s0 s1 ks (map sched w) (N.lxor b c) (a, b, c, d, e, f, g, h) =
    sha2_rounds P ks w (a, b, c, d, e, f, g, h).
  Proof.
    induction ks as [|k ks IH]; intros w a b c d e f g h; [reflexivity|].
    cbn [roundsf sha2_rounds]. rewrite !wnth_map. cbn [HashFast.sched fst snd]. rewrite majf_eq.
    replace (tl (map sched w)) with (map sched (tl w)) by now destruct w.
    change [sched ?x] with (map sched [x]). rewrite <- map_app, <- IH.
    (* descend to the masked sums, split them, and close the summands that differ *)
    repeat first [solve [auto using chf_eq] | apply add_mask | f_equal].
  Qed.

  Lemma blockf_eq : forall wbytes s blk,
    blockf P mask pow S0 S1 s0 s1 wbytes s blk = sha2_block P wbytes s blk.
  Proof.
    intros wbytes [[[[[[[a b] c] d] e] f] g] h] blk. unfold blockf, sha2_block.
    rewrite <- (map_map be_wordf sched), (map_ext _ _ be_wordf_eq), roundsf_eq. reflexivity.
  Qed.
End Eq.

Theorem sha2f_eq : forall P wbytes init msg, sha2 P wbytes init msg = sha2f P wbytes init msg.
Proof.
  intros P wbytes init msg. unfold sha2, sha2f. cbv zeta.
  rewrite (fold_left_ext _ _ _ _ _ _
    (blockf_eq P _ _ _ _ (bigsigf_eq P _) (bigsigf_eq P _) (smallsigf_eq P _) (smallsigf_eq P _) wbytes)).
  reflexivity.
Qed.

Corollary sha256f_eq : forall m, sha256 m = sha256f m.
Proof. intros m. apply sha2f_eq. Qed.
Corollary sha512f_eq : forall m, sha512 m = sha512f m.
Proof. intros m. apply sha2f_eq. Qed.
