(* C29_statement_for is the property: it holds of the current code (C29_full) and fails for the
   code before /repo 0cbaf1f (C29_prefix_refuted). *)
From Coq Require Import String List Arith NArith Bool Lia.
Import ListNotations.
Require Import KV.C29.Hash KV.C29.Model KV.C29.Proofs.
Open Scope N_scope.

(* THE PROPERTY, for a verify function [v] (first argument: build with overflow checks or not):
   for every positive step and every time at least one step after the epoch, the call returns
   (no panic) and accepts exactly when the code is the RFC 6238 code — for the token's secret of
   ANY length, algorithm and digit count — of the step containing the time or of the step
   immediately before it (the step containing t - step). *)
Definition C29_statement_for
  (v : bool -> algo -> digits -> list N -> N -> N -> N -> outcome) : Prop :=
  forall ovf a d key step chal t,
    0 < step -> step <= t ->
    exists b, v ovf a d key step chal t = OBool b /\
      (b = true <-> chal = rfc_totp a d key step t \/ chal = rfc_totp a d key step (t - step)).

(* the full statement about the tree under check (Model.verify = the current code) *)
Definition C29_full_statement : Prop := C29_statement_for verify.

(* It holds: unbounded secret (length and contents), step, time and candidate code; all three
   algorithms, both digit counts; with or without overflow checks. *)
Theorem C29_full : C29_full_statement.
Proof.
  intros ovf a d key step chal t Hs Ht. exists (accept_spec a d key step chal t).
  split; [exact (verify_gen_spec true _ _ _ _ _ _ _ Hs Ht) | apply accept_spec_iff].
Qed.

(* Same fact as one equation: under the hypotheses verify IS the declarative acceptance test. *)
Theorem C29_verify_is_spec : forall ovf a d key step chal t,
  0 < step -> step <= t ->
  verify ovf a d key step chal t = OBool (accept_spec a d key step chal t).
Proof.
  intros ovf a d key step chal t Hs Ht. exact (verify_gen_spec true _ _ _ _ _ _ _ Hs Ht).
Qed.

(* Totp::digest never fails and never slices out of range (DOk: neither DErr nor DPanic): every
   HMAC tag has >= 20 bytes and offset <= 15; its value is the RFC 4226 dynamic truncation, below
   10^digits. *)
Theorem C29_trunc_in_bounds : forall a d key ctr,
  digest_gen tree_fixed a d key ctr = DOk (rfc_hotp a d key ctr) /\
  rfc_hotp a d key ctr < digits_mod d.
Proof.
  intros a d key ctr. split; [exact (digest_gen_spec true a d key ctr) | apply rfc_hotp_lt].
Qed.

(* the two counters tried, c = floor(t/step) and c-1, are the step that contains t and the step
   immediately before it (which contains t - step) *)
Theorem C29_window : forall step t,
  0 < step -> step <= t ->
  let c := t / step in
  1 <= c /\ c * step <= t < (c + 1) * step /\
  (t - step) / step = c - 1 /\ (c - 1) * step <= t - step < c * step.
Proof.
  intros step t Hs Ht c.
  pose proof (counter_window step (t - step) Hs) as Hprev.
  rewrite (prev_counter step t Hs Ht), (N.sub_add 1 _ (counter_pos step t Hs Ht)) in Hprev.
  exact (conj (counter_pos step t Hs Ht) (conj (counter_window step t Hs)
          (conj (prev_counter step t Hs Ht) Hprev))).
Qed.

(* Bridge: every case (one token, one time, any list of candidate codes with the implementation's
   answers) on which the model and the implementation agree satisfies the property's executable
   predicate. *)
Theorem C29_agree_implies_property : forall c, agree c = true -> pcheck c = true.
Proof.
  intros [ovf a d key step secs nanos obs] Ha. apply pcheck_iff. intros Hs Ht chal out Hin.
  rewrite <- (proj1 (agree_iff _ _ _ _ _ _ _ _) Ha chal out Hin).
  apply C29_verify_is_spec; assumption.
Qed.

(* what a passing pcheck says about the implementation's recorded answers *)
Theorem C29_pcheck_sound : forall ovf a d key step secs nanos obs chal out,
  pcheck (CV ovf a d key step secs nanos obs) = true ->
  0 < step -> step <= secs -> In (chal, out) obs ->
  exists b, out = OBool b /\
    (b = true <-> chal = rfc_totp a d key step secs \/ chal = rfc_totp a d key step (secs - step)).
Proof.
  intros ovf a d key step secs nanos obs chal out Hp Hs Ht Hin.
  exists (accept_spec a d key step chal secs). split.
  - exact (proj1 (pcheck_iff _ _ _ _ _ _ _ _) Hp Hs Ht chal out Hin).
  - apply accept_spec_iff.
Qed.

(* The code before /repo 0cbaf1f (verify_gen false) was exact for every secret that fits the block
   (64 bytes SHA-1/SHA-256, 128 SHA-512): there the zeroed fixed-size key buffer is RFC 2104's
   zero padding ... *)
Theorem C29_prefix_exact_short_secret : forall ovf a d key step chal t,
  key_ok a key = true ->
  0 < step -> step <= t ->
  verify_gen false ovf a d key step chal t = OBool (accept_spec a d key step chal t).
Proof.
  intros ovf a d key step chal t Hk Hs Ht. rewrite verify_gen_spec, Hk by assumption. reflexivity.
Qed.

(* ... and refused every code for a longer secret (unusable token; nothing wrong accepted). *)
Theorem C29_prefix_long_secret_refused : forall ovf a d key step chal t,
  key_ok a key = false -> 0 < step -> step <= t ->
  verify_gen false ovf a d key step chal t = OBool false.
Proof.
  intros ovf a d key step chal t Hk Hs Ht. rewrite verify_gen_spec, Hk by assumption. reflexivity.
Qed.

(* So the statement was FALSE for it: a 65-byte SHA-1 secret (one byte longer than the HMAC block,
   which RFC 2104 hashes first) never verified, not even its own current RFC 6238 code. *)
Theorem C29_prefix_refuted : ~ C29_statement_for (verify_gen false).
Proof.
  intros H.
  destruct (H true Sha1 D6 (repeat 7 65%nat) 30 (rfc_totp Sha1 D6 (repeat 7 65%nat) 30 59) 59
              eq_refl ltac:(discriminate)) as [b [Hv [_ Hb]]].
  rewrite (C29_prefix_long_secret_refused true Sha1) in Hv by (reflexivity || discriminate).
  specialize (Hb (or_introl eq_refl)). congruence.
Qed.

(* Hence the fix changes the answer only for codes of long-secret tokens that the RFC accepts. *)
Theorem C29_fix_is_conservative : forall ovf a d key step chal t,
  0 < step -> step <= t ->
  verify_gen false ovf a d key step chal t <> verify_gen true ovf a d key step chal t ->
  key_ok a key = false /\ accept_spec a d key step chal t = true.
Proof.
  intros ovf a d key step chal t Hs Ht Hne. rewrite !verify_gen_spec in Hne by assumption.
  destruct (key_ok a key), (accept_spec a d key step chal t);
    try (exfalso; apply Hne; reflexivity).
  split; reflexivity.
Qed.
