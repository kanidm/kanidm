(* Argument order (Model.verify_gen): verify ovf algo digits key step chal secs, ovf = built with
   overflow checks; verify_gen takes the tree (false = the code before the fix) in front. *)
From Coq Require Import String List Arith NArith Bool.
Import ListNotations.
Require Import KV.C29.Hash KV.C29.Model.
Open Scope N_scope.

(* RFC 6238 Appendix B, time 59 and 1111111109, 8 digits, the three algorithms with their
   20/32/64-byte ASCII secrets: the reference used by pcheck reproduces the RFC's table *)
Example C29_witness_rfc6238_vectors :
  rfc_totp Sha1 D8 (str "12345678901234567890") 30 59 = 94287082 /\
  rfc_totp Sha256 D8 (str "12345678901234567890123456789012") 30 59 = 46119246 /\
  rfc_totp Sha512 D8 (str "1234567890123456789012345678901234567890123456789012345678901234") 30 59 = 90693936 /\
  rfc_totp Sha1 D8 (str "12345678901234567890") 30 1111111109 = 7081804 /\
  rfc_totp Sha256 D8 (str "12345678901234567890123456789012") 30 1111111109 = 68084774 /\
  rfc_totp Sha512 D8 (str "1234567890123456789012345678901234567890123456789012345678901234") 30 1111111109 = 25091201.
Proof. vm_compute. repeat split; reflexivity. Qed.

(* kanidm's own unit-test values (totp.rs hotp_basic), evaluated on the code before the fix; the
   one-byte key fits the block, so the current code gives the same (Proofs.digest_gen_spec) *)
Example C29_witness_kanidm_hotp_basic :
  digest_gen false Sha1 D6 [0] 0 = DOk 328482 /\
  digest_gen false Sha256 D6 [0] 0 = DOk 356306 /\
  digest_gen false Sha512 D6 [0] 0 = DOk 674061.
Proof. vm_compute. repeat split; reflexivity. Qed.

(* hypotheses of C29_full / C29_verify_is_spec / C29_prefix_exact_short_secret are met
   non-trivially: a 32-byte secret, t >= step; the current code and the previous step's code are
   accepted, the next step's and the one two steps back are not, and current <> previous *)
Example C29_witness_exact :
  let key := hex "000102030405060708090a0b0c0d0e0f101112131415161718191a1b1c1d1e1f" in
  let t := 1700000019 in
  key_ok Sha256 key = true /\ 0 < 30 /\ 30 <= t /\
  verify true Sha256 D6 key 30 (rfc_totp Sha256 D6 key 30 t) t = OBool true /\
  verify true Sha256 D6 key 30 (rfc_totp Sha256 D6 key 30 (t - 30)) t = OBool true /\
  verify true Sha256 D6 key 30 (rfc_totp Sha256 D6 key 30 (t + 30)) t = OBool false /\
  verify true Sha256 D6 key 30 (rfc_totp Sha256 D6 key 30 (t - 60)) t = OBool false /\
  rfc_totp Sha256 D6 key 30 t <> rfc_totp Sha256 D6 key 30 (t - 30).
Proof. vm_compute. repeat split; try reflexivity; discriminate. Qed.

(* the refuting input of C29_prefix_refuted / a non-vacuous instance of
   C29_prefix_long_secret_refused and C29_fix_is_conservative: 65-byte SHA-1 secret, its own
   current code, refused by the code before the fix, accepted by the current code *)
Example C29_witness_prefix_refuted :
  let key := repeat 7 65%nat in
  key_ok Sha1 key = false /\ 0 < 30 /\ 30 <= 59 /\
  verify_gen false true Sha1 D6 key 30 (rfc_totp Sha1 D6 key 30 59) 59 = OBool false /\
  verify true Sha1 D6 key 30 (rfc_totp Sha1 D6 key 30 59) 59 = OBool true.
Proof. vm_compute. repeat split; try reflexivity; discriminate. Qed.

(* boundary behaviour outside the property's hypotheses that the model also transcribes:
   step 0 panics; before the first step the subtraction overflows (panic in a checked build) unless
   the current code already matched; without overflow checks it wraps to counter 2^64-1 and the
   wrong code is refused *)
Example C29_witness_boundaries :
  verify true Sha1 D6 [1; 2; 3] 0 5 100 = OPanic /\
  verify true Sha1 D6 [1; 2; 3] 30 5 29 = OPanic /\
  verify true Sha1 D6 [1; 2; 3] 30 (rfc_totp Sha1 D6 [1; 2; 3] 30 29) 29 = OBool true /\
  verify false Sha1 D6 [1; 2; 3] 30 5 29 = OBool false.
Proof. vm_compute. repeat split; reflexivity. Qed.

(* agree / pcheck / known on concrete cases: an agreeing case with accepted and refused codes, and
   a long secret (accepted = agrees and satisfies the property; refused, as before the fix =
   flagged by both) *)
Example C29_witness_case :
  let key := hex "000102030405060708090a0b0c0d0e0f101112131415161718191a1b1c1d1e1f" in
  let t := 1700000019 in
  let c := CV true Sha256 D6 key 30 t 5
             [(rfc_totp Sha256 D6 key 30 t, OBool true); (rfc_totp Sha256 D6 key 30 (t - 30), OBool true);
              (rfc_totp Sha256 D6 key 30 (t + 30), OBool false); (1000000 + rfc_totp Sha256 D6 key 30 t, OBool false)] in
  agree c = true /\ known c = false /\ pcheck c = true.
Proof. vm_compute. repeat split; reflexivity. Qed.
Example C29_witness_long_secret_case :
  let key := repeat 7 65%nat in
  let c := CV true Sha1 D6 key 30 59 0 [(rfc_totp Sha1 D6 key 30 59, OBool true)] in
  let c' := CV true Sha1 D6 key 30 59 0 [(rfc_totp Sha1 D6 key 30 59, OBool false)] in
  agree c = true /\ known c = false /\ pcheck c = true /\ agree c' = false /\ pcheck c' = false.
Proof. vm_compute. repeat split; reflexivity. Qed.
