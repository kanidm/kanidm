(* SHA-1, SHA-256, SHA-512 (FIPS 180-4) and HMAC (RFC 2104) over byte lists (`list N`, every
   element meant to be < 256), written for vm_compute: all word arithmetic is binary `N` with bit
   operations; `nat` only counts list positions.

   An INDEPENDENT implementation, validated by the standard vectors at the end of the file (FIPS
   180 examples, RFC 2202, RFC 4231 and padding-boundary messages; expected values from the RFCs /
   Python hashlib) and not proved against FIPS 180.  The facts proved here are structural: output
   lengths, bytes < 256, and that zero-padding a short HMAC key to the block size does not change
   the MAC. *)
From Coq Require Import String Ascii List Arith NArith Bool Lia.
Import ListNotations.
Open Scope N_scope.

Fixpoint be_bytes (n : nat) (x : N) : list N :=
  match n with
  | O => []
  | S n' => N.land (N.shiftr x (8 * N.of_nat n')) 255 :: be_bytes n' x
  end.

Definition be_word (bs : list N) : N := fold_left (fun acc b => acc * 256 + b) bs 0.

Fixpoint chunks_fuel (fuel k : nat) (l : list N) : list (list N) :=
  match fuel with
  | O => []
  | S f => match l with [] => [] | _ => firstn k l :: chunks_fuel f k (skipn k l) end
  end.
(* consecutive [k]-byte pieces (k > 0) *)
Definition chunks (k : nat) (l : list N) : list (list N) := chunks_fuel (length l) k l.

(* Merkle–Damgård padding: 0x80, zeros, bit length in [lenbytes] bytes; total multiple of [blk] *)
Definition md_pad (blk lenbytes : nat) (msg : list N) : list N :=
  let len := N.of_nat (length msg) in
  let b := N.of_nat blk in
  let used := (len + 1 + N.of_nat lenbytes) mod b in
  let z := (b - used) mod b in
  msg ++ 128 :: repeat 0 (N.to_nat z) ++ be_bytes lenbytes (8 * len).

Definition m32 : N := 0xffffffff.
Definition rotl32 (n x : N) : N := N.land (N.lor (N.shiftl x n) (N.shiftr x (32 - n))) m32.
Definition rotr32 (n x : N) : N := N.land (N.lor (N.shiftr x n) (N.shiftl x (32 - n))) m32.
Definition not32 (x : N) : N := N.lxor x m32.

Definition sha1_f (t b c d : N) : N :=
  if t <? 20 then N.lor (N.land b c) (N.land (not32 b) d)
  else if t <? 40 then N.lxor (N.lxor b c) d
  else if t <? 60 then N.lor (N.lor (N.land b c) (N.land b d)) (N.land c d)
  else N.lxor (N.lxor b c) d.
Definition sha1_k (t : N) : N :=
  if t <? 20 then 0x5a827999 else if t <? 40 then 0x6ed9eba1
  else if t <? 60 then 0x8f1bbcdc else 0xca62c1d6.

Definition st5 := (N * N * N * N * N)%type.

(* [w] is the sliding window W[t-16..t-1] shifted so that its head is W[t] *)
Fixpoint sha1_rounds (n : nat) (t : N) (w : list N) (s : st5) : st5 :=
  match n with
  | O => s
  | S n' =>
      let '(a, b, c, d, e) := s in
      let wt := nth 0 w 0 in
      let tmp := N.land (rotl32 5 a + sha1_f t b c d + e + sha1_k t + wt) m32 in
      let nw := rotl32 1 (N.lxor (N.lxor (nth 13 w 0) (nth 8 w 0)) (N.lxor (nth 2 w 0) wt)) in
      sha1_rounds n' (t + 1) (tl w ++ [nw]) (tmp, a, rotl32 30 b, c, d)
  end.

Definition sha1_block (s : st5) (blk : list N) : st5 :=
  let '(a, b, c, d, e) := s in
  let '(a', b', c', d', e') := sha1_rounds 80 0 (map be_word (chunks 4 blk)) s in
  (N.land (a + a') m32, N.land (b + b') m32, N.land (c + c') m32,
   N.land (d + d') m32, N.land (e + e') m32).

Definition sha1_init : st5 := (0x67452301, 0xefcdab89, 0x98badcfe, 0x10325476, 0xc3d2e1f0).

Definition sha1 (msg : list N) : list N :=
  let '(a, b, c, d, e) := fold_left sha1_block (chunks 64 (md_pad 64 8 msg)) sha1_init in
  be_bytes 4 a ++ be_bytes 4 b ++ be_bytes 4 c ++ be_bytes 4 d ++ be_bytes 4 e.

Record sha2_params := {
  p_bits : N;            (* 32 | 64 *)
  p_S0 : N * N * N;      (* rotations of big sigma 0 *)
  p_S1 : N * N * N;
  p_s0 : N * N * N;      (* small sigma 0: rotr, rotr, shr *)
  p_s1 : N * N * N;
  p_K : list N
}.

Section SHA2.
  Variable P : sha2_params.
  Let bits := p_bits P.
  Let mask := N.ones bits.
  Definition rotr (n x : N) : N := N.land (N.lor (N.shiftr x n) (N.shiftl x (bits - n))) mask.
  Definition bigsig (r : N * N * N) (x : N) : N :=
    let '(a, b, c) := r in N.lxor (N.lxor (rotr a x) (rotr b x)) (rotr c x).
  Definition smallsig (r : N * N * N) (x : N) : N :=
    let '(a, b, c) := r in N.lxor (N.lxor (rotr a x) (rotr b x)) (N.shiftr x c).
  Definition ch (x y z : N) : N := N.lxor (N.land x y) (N.land (N.lxor x mask) z).
  Definition maj (x y z : N) : N := N.lxor (N.lxor (N.land x y) (N.land x z)) (N.land y z).

  Definition st8 := (N * N * N * N * N * N * N * N)%type.

  (* one round per constant of K; [w] as in sha1_rounds *)
  Fixpoint sha2_rounds (ks : list N) (w : list N) (s : st8) : st8 :=
    match ks with
    | [] => s
    | k :: ks' =>
        let '(a, b, c, d, e, f, g, h) := s in
        let wt := nth 0 w 0 in
        let t1 := h + bigsig (p_S1 P) e + ch e f g + k + wt in
        let t2 := bigsig (p_S0 P) a + maj a b c in
        let nw := N.land (smallsig (p_s1 P) (nth 14 w 0) + nth 9 w 0
                          + smallsig (p_s0 P) (nth 1 w 0) + wt) mask in
        sha2_rounds ks' (tl w ++ [nw])
          (N.land (t1 + t2) mask, a, b, c, N.land (d + t1) mask, e, f, g)
    end.

  Definition sha2_block (wbytes : nat) (s : st8) (blk : list N) : st8 :=
    let '(a, b, c, d, e, f, g, h) := s in
    let '(a', b', c', d', e', f', g', h') :=
      sha2_rounds (p_K P) (map be_word (chunks wbytes blk)) s in
    (N.land (a + a') mask, N.land (b + b') mask, N.land (c + c') mask, N.land (d + d') mask,
     N.land (e + e') mask, N.land (f + f') mask, N.land (g + g') mask, N.land (h + h') mask).

  (* [wbytes] = bytes per word (4 | 8); block = 16 words; length field = 2 words *)
  Definition sha2 (wbytes : nat) (init : st8) (msg : list N) : list N :=
    let '(a, b, c, d, e, f, g, h) :=
      fold_left (sha2_block wbytes) (chunks (16 * wbytes) (md_pad (16 * wbytes) (2 * wbytes) msg)) init in
    be_bytes wbytes a ++ be_bytes wbytes b ++ be_bytes wbytes c ++ be_bytes wbytes d ++
    be_bytes wbytes e ++ be_bytes wbytes f ++ be_bytes wbytes g ++ be_bytes wbytes h.
End SHA2.

Definition sha256_K : list N := [
   0x428a2f98; 0x71374491; 0xb5c0fbcf; 0xe9b5dba5;
   0x3956c25b; 0x59f111f1; 0x923f82a4; 0xab1c5ed5;
   0xd807aa98; 0x12835b01; 0x243185be; 0x550c7dc3;
   0x72be5d74; 0x80deb1fe; 0x9bdc06a7; 0xc19bf174;
   0xe49b69c1; 0xefbe4786; 0x0fc19dc6; 0x240ca1cc;
   0x2de92c6f; 0x4a7484aa; 0x5cb0a9dc; 0x76f988da;
   0x983e5152; 0xa831c66d; 0xb00327c8; 0xbf597fc7;
   0xc6e00bf3; 0xd5a79147; 0x06ca6351; 0x14292967;
   0x27b70a85; 0x2e1b2138; 0x4d2c6dfc; 0x53380d13;
   0x650a7354; 0x766a0abb; 0x81c2c92e; 0x92722c85;
   0xa2bfe8a1; 0xa81a664b; 0xc24b8b70; 0xc76c51a3;
   0xd192e819; 0xd6990624; 0xf40e3585; 0x106aa070;
   0x19a4c116; 0x1e376c08; 0x2748774c; 0x34b0bcb5;
   0x391c0cb3; 0x4ed8aa4a; 0x5b9cca4f; 0x682e6ff3;
   0x748f82ee; 0x78a5636f; 0x84c87814; 0x8cc70208;
   0x90befffa; 0xa4506ceb; 0xbef9a3f7; 0xc67178f2
].
Definition sha256_init : st8 :=
  (0x6a09e667, 0xbb67ae85, 0x3c6ef372, 0xa54ff53a,
   0x510e527f, 0x9b05688c, 0x1f83d9ab, 0x5be0cd19).
Definition sha256_params : sha2_params :=
  {| p_bits := 32; p_S0 := (2, 13, 22); p_S1 := (6, 11, 25); p_s0 := (7, 18, 3); p_s1 := (17, 19, 10);
     p_K := sha256_K |}.
Definition sha256 (msg : list N) : list N := sha2 sha256_params 4 sha256_init msg.

Definition sha512_K : list N := [
   0x428a2f98d728ae22; 0x7137449123ef65cd;
   0xb5c0fbcfec4d3b2f; 0xe9b5dba58189dbbc;
   0x3956c25bf348b538; 0x59f111f1b605d019;
   0x923f82a4af194f9b; 0xab1c5ed5da6d8118;
   0xd807aa98a3030242; 0x12835b0145706fbe;
   0x243185be4ee4b28c; 0x550c7dc3d5ffb4e2;
   0x72be5d74f27b896f; 0x80deb1fe3b1696b1;
   0x9bdc06a725c71235; 0xc19bf174cf692694;
   0xe49b69c19ef14ad2; 0xefbe4786384f25e3;
   0x0fc19dc68b8cd5b5; 0x240ca1cc77ac9c65;
   0x2de92c6f592b0275; 0x4a7484aa6ea6e483;
   0x5cb0a9dcbd41fbd4; 0x76f988da831153b5;
   0x983e5152ee66dfab; 0xa831c66d2db43210;
   0xb00327c898fb213f; 0xbf597fc7beef0ee4;
   0xc6e00bf33da88fc2; 0xd5a79147930aa725;
   0x06ca6351e003826f; 0x142929670a0e6e70;
   0x27b70a8546d22ffc; 0x2e1b21385c26c926;
   0x4d2c6dfc5ac42aed; 0x53380d139d95b3df;
   0x650a73548baf63de; 0x766a0abb3c77b2a8;
   0x81c2c92e47edaee6; 0x92722c851482353b;
   0xa2bfe8a14cf10364; 0xa81a664bbc423001;
   0xc24b8b70d0f89791; 0xc76c51a30654be30;
   0xd192e819d6ef5218; 0xd69906245565a910;
   0xf40e35855771202a; 0x106aa07032bbd1b8;
   0x19a4c116b8d2d0c8; 0x1e376c085141ab53;
   0x2748774cdf8eeb99; 0x34b0bcb5e19b48a8;
   0x391c0cb3c5c95a63; 0x4ed8aa4ae3418acb;
   0x5b9cca4f7763e373; 0x682e6ff3d6b2b8a3;
   0x748f82ee5defb2fc; 0x78a5636f43172f60;
   0x84c87814a1f0ab72; 0x8cc702081a6439ec;
   0x90befffa23631e28; 0xa4506cebde82bde9;
   0xbef9a3f7b2c67915; 0xc67178f2e372532b;
   0xca273eceea26619c; 0xd186b8c721c0c207;
   0xeada7dd6cde0eb1e; 0xf57d4f7fee6ed178;
   0x06f067aa72176fba; 0x0a637dc5a2c898a6;
   0x113f9804bef90dae; 0x1b710b35131c471b;
   0x28db77f523047d84; 0x32caab7b40c72493;
   0x3c9ebe0a15c9bebc; 0x431d67c49c100d4c;
   0x4cc5d4becb3e42b6; 0x597f299cfc657e2a;
   0x5fcb6fab3ad6faec; 0x6c44198c4a475817
].
Definition sha512_init : st8 :=
  (0x6a09e667f3bcc908, 0xbb67ae8584caa73b,
   0x3c6ef372fe94f82b, 0xa54ff53a5f1d36f1,
   0x510e527fade682d1, 0x9b05688c2b3e6c1f,
   0x1f83d9abfb41bd6b, 0x5be0cd19137e2179).
Definition sha512_params : sha2_params :=
  {| p_bits := 64; p_S0 := (28, 34, 39); p_S1 := (14, 18, 41); p_s0 := (1, 8, 7); p_s1 := (19, 61, 6);
     p_K := sha512_K |}.
Definition sha512 (msg : list N) : list N := sha2 sha512_params 8 sha512_init msg.

(* RFC 2104; [H] the hash, [B] its block size in bytes *)
Definition hmac_key (H : list N -> list N) (B : nat) (key : list N) : list N :=
  let k0 := if (B <? length key)%nat then H key else key in
  k0 ++ repeat 0 (B - length k0).
Definition hmac (H : list N -> list N) (B : nat) (key msg : list N) : list N :=
  let k := hmac_key H B key in
  H (map (N.lxor 0x5c) k ++ H (map (N.lxor 0x36) k ++ msg)).

Definition hmac_sha1 := hmac sha1 64.
Definition hmac_sha256 := hmac sha256 64.
Definition hmac_sha512 := hmac sha512 128.

Definition str (s : string) : list N := map N_of_ascii (list_ascii_of_string s).
Definition hexval (c : ascii) : N :=
  let n := N_of_ascii c in
  if (48 <=? n) && (n <=? 57) then n - 48
  else if (97 <=? n) && (n <=? 102) then n - 87
  else if (65 <=? n) && (n <=? 70) then n - 55 else 0.
Fixpoint hex (s : string) : list N :=
  match s with
  | String a (String b r) => (16 * hexval a + hexval b) :: hex r
  | _ => []
  end.

Lemma be_bytes_length : forall n x, length (be_bytes n x) = n.
Proof. induction n as [|n IH]; intros x; cbn [be_bytes length]; [reflexivity | now rewrite IH]. Qed.

Lemma land_255_lt : forall x, N.land x 255 < 256.
Proof. intros x. change 255 with (N.ones 8). rewrite N.land_ones. apply N.mod_lt. discriminate. Qed.

Lemma be_bytes_lt : forall n x, Forall (fun b => b < 256) (be_bytes n x).
Proof.
  induction n as [|n IH]; intros x; cbn [be_bytes]; constructor; [apply land_255_lt | apply IH].
Qed.

Lemma sha1_length : forall msg, length (sha1 msg) = 20%nat.
Proof.
  intros msg. unfold sha1.
  destruct (fold_left sha1_block _ sha1_init) as [[[[a b] c] d] e].
  rewrite !app_length, !be_bytes_length. reflexivity.
Qed.
Lemma sha2_length : forall P wb init msg, length (sha2 P wb init msg) = (8 * wb)%nat.
Proof.
  intros P wb init msg. unfold sha2.
  destruct (fold_left _ _ init) as [[[[[[[a b] c] d] e] f] g] h].
  rewrite !app_length, !be_bytes_length. lia.
Qed.
Lemma sha256_length : forall msg, length (sha256 msg) = 32%nat.
Proof. intros msg. apply sha2_length. Qed.
Lemma sha512_length : forall msg, length (sha512 msg) = 64%nat.
Proof. intros msg. apply sha2_length. Qed.

Lemma sha1_bytes : forall msg, Forall (fun b => b < 256) (sha1 msg).
Proof.
  intros msg. unfold sha1.
  destruct (fold_left sha1_block _ sha1_init) as [[[[a b] c] d] e].
  repeat (apply Forall_app; split); apply be_bytes_lt.
Qed.
Lemma sha2_bytes : forall P wb init msg, Forall (fun b => b < 256) (sha2 P wb init msg).
Proof.
  intros P wb init msg. unfold sha2.
  destruct (fold_left _ _ init) as [[[[[[[a b] c] d] e] f] g] h].
  repeat (apply Forall_app; split); apply be_bytes_lt.
Qed.

Lemma hmac_is_hash : forall H B key msg, exists m, hmac H B key msg = H m.
Proof. intros H B key msg. unfold hmac. eexists. reflexivity. Qed.

(* zero-padding the key to B bytes is what a fixed-size key buffer does *)
Lemma hmac_key_zero_pad : forall H B key,
  (length key <= B)%nat ->
  hmac_key H B (key ++ repeat 0 (B - length key)) = hmac_key H B key.
Proof.
  intros H B key Hle. unfold hmac_key.
  assert (Hl : length (key ++ repeat 0 (B - length key)) = B)
    by (rewrite app_length, repeat_length; lia).
  rewrite Hl.
  destruct (Nat.ltb_spec B B) as [Hbb|_]; [lia|].
  destruct (Nat.ltb_spec B (length key)) as [Hbk|_]; [lia|].
  rewrite Hl, Nat.sub_diag. cbn [repeat]. now rewrite app_nil_r.
Qed.
Lemma hmac_zero_pad : forall H B key msg,
  (length key <= B)%nat ->
  hmac H B (key ++ repeat 0 (B - length key)) msg = hmac H B key msg.
Proof. intros H B key msg Hle. unfold hmac. now rewrite hmac_key_zero_pad. Qed.

Example test_sha1_empty : sha1 [] = hex "da39a3ee5e6b4b0d3255bfef95601890afd80709".
Proof. vm_compute. reflexivity. Qed.

Example test_sha1_abc : sha1 (str "abc") = hex "a9993e364706816aba3e25717850c26c9cd0d89d".
Proof. vm_compute. reflexivity. Qed.

Example test_sha1_448 : sha1 (str "abcdbcdecdefdefgefghfghighijhijkijkljklmklmnlmnomnopnopq") = hex "84983e441c3bd26ebaae4aa1f95129e5e54670f1".
Proof. vm_compute. reflexivity. Qed.

Example test_sha1_896 : sha1 (str "abcdefghbcdefghicdefghijdefghijkefghijklfghijklmghijklmnhijklmnoijklmnopjklmnopqklmnopqrlmnopqrsmnopqrstnopqrstu") = hex "a49b2446a02c645bf419f995b67091253a04a259".
Proof. vm_compute. reflexivity. Qed.

Example test_sha1_a1000 : sha1 (repeat 97 1000%nat) = hex "291e9a6c66994949b57ba5e650361e98fc36b1ba".
Proof. vm_compute. reflexivity. Qed.

Example test_sha1_len55 : sha1 (map N.of_nat (seq 0%nat 55%nat)) = hex "8ae2d46729cfe68ff927af5eec9c7d1b66d65ac2".
Proof. vm_compute. reflexivity. Qed.

Example test_sha1_len56 : sha1 (map N.of_nat (seq 0%nat 56%nat)) = hex "636e2ec698dac903498e648bd2f3af641d3c88cb".
Proof. vm_compute. reflexivity. Qed.

Example test_sha1_len63 : sha1 (map N.of_nat (seq 0%nat 63%nat)) = hex "6d942da0c4392b123528f2905c713a3ce28364bd".
Proof. vm_compute. reflexivity. Qed.

Example test_sha1_len64 : sha1 (map N.of_nat (seq 0%nat 64%nat)) = hex "c6138d514ffa2135bfce0ed0b8fac65669917ec7".
Proof. vm_compute. reflexivity. Qed.

Example test_sha1_len111 : sha1 (map N.of_nat (seq 0%nat 111%nat)) = hex "bc544e24573d592290fdaff8ecf3f7f2b00cd483".
Proof. vm_compute. reflexivity. Qed.

Example test_sha1_len112 : sha1 (map N.of_nat (seq 0%nat 112%nat)) = hex "e4ce142d09a84a8645338dd6535cbfaaf800d320".
Proof. vm_compute. reflexivity. Qed.

Example test_sha1_len128 : sha1 (map N.of_nat (seq 0%nat 128%nat)) = hex "e6434bc401f98603d7eda504790c98c67385d535".
Proof. vm_compute. reflexivity. Qed.

Example test_sha256_empty : sha256 [] = hex "e3b0c44298fc1c149afbf4c8996fb92427ae41e4649b934ca495991b7852b855".
Proof. vm_compute. reflexivity. Qed.

Example test_sha256_abc : sha256 (str "abc") = hex "ba7816bf8f01cfea414140de5dae2223b00361a396177a9cb410ff61f20015ad".
Proof. vm_compute. reflexivity. Qed.

Example test_sha256_448 : sha256 (str "abcdbcdecdefdefgefghfghighijhijkijkljklmklmnlmnomnopnopq") = hex "248d6a61d20638b8e5c026930c3e6039a33ce45964ff2167f6ecedd419db06c1".
Proof. vm_compute. reflexivity. Qed.

Example test_sha256_896 : sha256 (str "abcdefghbcdefghicdefghijdefghijkefghijklfghijklmghijklmnhijklmnoijklmnopjklmnopqklmnopqrlmnopqrsmnopqrstnopqrstu") = hex "cf5b16a778af8380036ce59e7b0492370b249b11e8f07a51afac45037afee9d1".
Proof. vm_compute. reflexivity. Qed.

Example test_sha256_a1000 : sha256 (repeat 97 1000%nat) = hex "41edece42d63e8d9bf515a9ba6932e1c20cbc9f5a5d134645adb5db1b9737ea3".
Proof. vm_compute. reflexivity. Qed.

Example test_sha256_len55 : sha256 (map N.of_nat (seq 0%nat 55%nat)) = hex "463eb28e72f82e0a96c0a4cc53690c571281131f672aa229e0d45ae59b598b59".
Proof. vm_compute. reflexivity. Qed.

Example test_sha256_len56 : sha256 (map N.of_nat (seq 0%nat 56%nat)) = hex "da2ae4d6b36748f2a318f23e7ab1dfdf45acdc9d049bd80e59de82a60895f562".
Proof. vm_compute. reflexivity. Qed.

Example test_sha256_len63 : sha256 (map N.of_nat (seq 0%nat 63%nat)) = hex "29af2686fd53374a36b0846694cc342177e428d1647515f078784d69cdb9e488".
Proof. vm_compute. reflexivity. Qed.

Example test_sha256_len64 : sha256 (map N.of_nat (seq 0%nat 64%nat)) = hex "fdeab9acf3710362bd2658cdc9a29e8f9c757fcf9811603a8c447cd1d9151108".
Proof. vm_compute. reflexivity. Qed.

Example test_sha256_len111 : sha256 (map N.of_nat (seq 0%nat 111%nat)) = hex "60780e9451bdc43cf4530ffc95cbb0c4eb24dae2c39f55f334d679e076c08065".
Proof. vm_compute. reflexivity. Qed.

Example test_sha256_len112 : sha256 (map N.of_nat (seq 0%nat 112%nat)) = hex "09373f127d34e61dbbaa8bc4499c87074f2ddb10e1b465f506d7d70a15011979".
Proof. vm_compute. reflexivity. Qed.

Example test_sha256_len128 : sha256 (map N.of_nat (seq 0%nat 128%nat)) = hex "471fb943aa23c511f6f72f8d1652d9c880cfa392ad80503120547703e56a2be5".
Proof. vm_compute. reflexivity. Qed.

Example test_sha512_empty : sha512 [] = hex "cf83e1357eefb8bdf1542850d66d8007d620e4050b5715dc83f4a921d36ce9ce47d0d13c5d85f2b0ff8318d2877eec2f63b931bd47417a81a538327af927da3e".
Proof. vm_compute. reflexivity. Qed.

Example test_sha512_abc : sha512 (str "abc") = hex "ddaf35a193617abacc417349ae20413112e6fa4e89a97ea20a9eeee64b55d39a2192992a274fc1a836ba3c23a3feebbd454d4423643ce80e2a9ac94fa54ca49f".
Proof. vm_compute. reflexivity. Qed.

Example test_sha512_448 : sha512 (str "abcdbcdecdefdefgefghfghighijhijkijkljklmklmnlmnomnopnopq") = hex "204a8fc6dda82f0a0ced7beb8e08a41657c16ef468b228a8279be331a703c33596fd15c13b1b07f9aa1d3bea57789ca031ad85c7a71dd70354ec631238ca3445".
Proof. vm_compute. reflexivity. Qed.

Example test_sha512_896 : sha512 (str "abcdefghbcdefghicdefghijdefghijkefghijklfghijklmghijklmnhijklmnoijklmnopjklmnopqklmnopqrlmnopqrsmnopqrstnopqrstu") = hex "8e959b75dae313da8cf4f72814fc143f8f7779c6eb9f7fa17299aeadb6889018501d289e4900f7e4331b99dec4b5433ac7d329eeb6dd26545e96e55b874be909".
Proof. vm_compute. reflexivity. Qed.

Example test_sha512_a1000 : sha512 (repeat 97 1000%nat) = hex "67ba5535a46e3f86dbfbed8cbbaf0125c76ed549ff8b0b9e03e0c88cf90fa634fa7b12b47d77b694de488ace8d9a65967dc96df599727d3292a8d9d447709c97".
Proof. vm_compute. reflexivity. Qed.

Example test_sha512_len55 : sha512 (map N.of_nat (seq 0%nat 55%nat)) = hex "6856647f269c2ee3d8128f0b25427659d880641ef343300dd3cd4679168f58d6527fda70b4ebc854e2065e172b7d58c1536992c0810599259ba84a2b40c65414".
Proof. vm_compute. reflexivity. Qed.

Example test_sha512_len56 : sha512 (map N.of_nat (seq 0%nat 56%nat)) = hex "8b12b2f6fe400a51d29656e2b8c42a1bbfe6fcf3e425da430db05d1a2dda14790dee20fa8b22d8762afffe4988a5c98a4430d22a17e41e23d90fa61ab75671a9".
Proof. vm_compute. reflexivity. Qed.

Example test_sha512_len63 : sha512 (map N.of_nat (seq 0%nat 63%nat)) = hex "9dc9c5598e55dc42955695320839788e353f1d7f6ba74df74c80a8a52f463c0697f57f68835d1418f4ce9b6530cd79bd0f4c6f7e13c93feb1218c0b65c2c0561".
Proof. vm_compute. reflexivity. Qed.

Example test_sha512_len64 : sha512 (map N.of_nat (seq 0%nat 64%nat)) = hex "ee4320ebaf3fdb4f2c832b137200c08e235e0fa7bbd0eb1740c7063ba8a0d151da77e003398e1714a955d475b05e3e950b639503b452ec185de4229bc4873949".
Proof. vm_compute. reflexivity. Qed.

Example test_sha512_len111 : sha512 (map N.of_nat (seq 0%nat 111%nat)) = hex "a1a111449b198d9b1f538bad7f3fc1022b3a5b1a5e90a0bc860de8512746cbc31599e6c834de3a3235327af0b51ff57bf7acf1974a73014d9c3953812edc7c8d".
Proof. vm_compute. reflexivity. Qed.

Example test_sha512_len112 : sha512 (map N.of_nat (seq 0%nat 112%nat)) = hex "c5fbd731d19d2ae1180f001be72c2c1aaba1d7b094b3748880e24593b8e117a750e11c1bd867cc2f96dace8c8b74abd2d5c4f236be444e77d30d1916174070b9".
Proof. vm_compute. reflexivity. Qed.

Example test_sha512_len128 : sha512 (map N.of_nat (seq 0%nat 128%nat)) = hex "1dffd5e3adb71d45d2245939665521ae001a317a03720a45732ba1900ca3b8351fc5c9b4ca513eba6f80bc7b1d1fdad4abd13491cb824d61b08d8c0e1561b3f7".
Proof. vm_compute. reflexivity. Qed.

Example test_hmac_sha1_rfc2202_1 : hmac_sha1 (repeat 0x0b 20%nat) (str "Hi There") = hex "b617318655057264e28bc0b6fb378c8ef146be00".
Proof. vm_compute. reflexivity. Qed.

Example test_hmac_sha1_rfc2202_2 : hmac_sha1 (str "Jefe") (str "what do ya want for nothing?") = hex "effcdf6ae5eb2fa2d27416d5f184df9c259a7c79".
Proof. vm_compute. reflexivity. Qed.

Example test_hmac_sha1_rfc2202_3 : hmac_sha1 (repeat 0xaa 20%nat) (repeat 0xdd 50%nat) = hex "125d7342b9ac11cd91a39af48aa17b4f63f175d3".
Proof. vm_compute. reflexivity. Qed.

Example test_hmac_sha1_rfc2202_6 : hmac_sha1 (repeat 0xaa 80%nat) (str "Test Using Larger Than Block-Size Key - Hash Key First") = hex "aa4ae5e15272d00e95705637ce8a3b55ed402112".
Proof. vm_compute. reflexivity. Qed.

Example test_hmac_sha1_rfc2202_7 : hmac_sha1 (repeat 0xaa 80%nat) (str "Test Using Larger Than Block-Size Key and Larger Than One Block-Size Data") = hex "e8e99d0f45237d786d6bbaa7965c7808bbff1a91".
Proof. vm_compute. reflexivity. Qed.

Example test_hmac_sha256_rfc4231_1 : hmac_sha256 (repeat 0x0b 20%nat) (str "Hi There") = hex "b0344c61d8db38535ca8afceaf0bf12b881dc200c9833da726e9376c2e32cff7".
Proof. vm_compute. reflexivity. Qed.

Example test_hmac_sha256_rfc4231_2 : hmac_sha256 (str "Jefe") (str "what do ya want for nothing?") = hex "5bdcc146bf60754e6a042426089575c75a003f089d2739839dec58b964ec3843".
Proof. vm_compute. reflexivity. Qed.

Example test_hmac_sha256_rfc4231_3 : hmac_sha256 (repeat 0xaa 20%nat) (repeat 0xdd 50%nat) = hex "773ea91e36800e46854db8ebd09181a72959098b3ef8c122d9635514ced565fe".
Proof. vm_compute. reflexivity. Qed.

Example test_hmac_sha256_rfc4231_6 : hmac_sha256 (repeat 0xaa 131%nat) (str "Test Using Larger Than Block-Size Key - Hash Key First") = hex "60e431591ee0b67f0d8a26aacbf5b77f8e0bc6213728c5140546040f0ee37f54".
Proof. vm_compute. reflexivity. Qed.

Example test_hmac_sha256_rfc4231_7 : hmac_sha256 (repeat 0xaa 131%nat) (str "This is a test using a larger than block-size key and a larger than block-size data. The key needs to be hashed before being used by the HMAC algorithm.") = hex "9b09ffa71b942fcb27635fbcd5b0e944bfdc63644f0713938a7f51535c3a35e2".
Proof. vm_compute. reflexivity. Qed.

Example test_hmac_sha256_blockkey : hmac_sha256 (map N.of_nat (seq 0%nat 64%nat)) (str "x") = hex "b8dc75d4220cfd86a5bf7c4301b3698f142a66fd7c004627df558626edb480cd".
Proof. vm_compute. reflexivity. Qed.

Example test_hmac_sha256_blockkey1 : hmac_sha256 (map N.of_nat (seq 0%nat 65%nat)) (str "x") = hex "839c2a8225cd27fb5d7ed3f6dc9a67cc7210572d15a39a276bf53b59d64033f0".
Proof. vm_compute. reflexivity. Qed.

Example test_hmac_sha512_rfc4231_1 : hmac_sha512 (repeat 0x0b 20%nat) (str "Hi There") = hex "87aa7cdea5ef619d4ff0b4241a1d6cb02379f4e2ce4ec2787ad0b30545e17cdedaa833b7d6b8a702038b274eaea3f4e4be9d914eeb61f1702e696c203a126854".
Proof. vm_compute. reflexivity. Qed.

Example test_hmac_sha512_rfc4231_2 : hmac_sha512 (str "Jefe") (str "what do ya want for nothing?") = hex "164b7a7bfcf819e2e395fbe73b56e0a387bd64222e831fd610270cd7ea2505549758bf75c05a994a6d034f65f8f0e6fdcaeab1a34d4a6b4b636e070a38bce737".
Proof. vm_compute. reflexivity. Qed.

Example test_hmac_sha512_rfc4231_3 : hmac_sha512 (repeat 0xaa 20%nat) (repeat 0xdd 50%nat) = hex "fa73b0089d56a284efb0f0756c890be9b1b5dbdd8ee81a3655f83e33b2279d39bf3e848279a722c806b485a47e67c807b946a337bee8942674278859e13292fb".
Proof. vm_compute. reflexivity. Qed.

Example test_hmac_sha512_rfc4231_6 : hmac_sha512 (repeat 0xaa 131%nat) (str "Test Using Larger Than Block-Size Key - Hash Key First") = hex "80b24263c7c1a3ebb71493c1dd7be8b49b46d1f41b4aeec1121b013783f8f3526b56d037e05f2598bd0fd2215d6a1e5295e64f73f63f0aec8b915a985d786598".
Proof. vm_compute. reflexivity. Qed.

Example test_hmac_sha512_rfc4231_7 : hmac_sha512 (repeat 0xaa 131%nat) (str "This is a test using a larger than block-size key and a larger than block-size data. The key needs to be hashed before being used by the HMAC algorithm.") = hex "e37b6a775dc87dbaa4dfa9f96e5e3ffddebd71f8867289865df5a32d20cdc944b6022cac3c4982b10d5eeb55c3e4de15134676fb6de0446065c97440fa8c6a58".
Proof. vm_compute. reflexivity. Qed.

Example test_hmac_sha512_blockkey : hmac_sha512 (map N.of_nat (seq 0%nat 128%nat)) (str "x") = hex "df0d02dfb105a623db2ca1ac8108103706a65c7aea41d702c8d26f285f1174be2bd9f094e3ce6a3ffdd76633236ee61e64a60ed80e9aa19fdd7eef2dfb5575c9".
Proof. vm_compute. reflexivity. Qed.

Example test_hmac_sha512_blockkey1 : hmac_sha512 (map N.of_nat (seq 0%nat 129%nat)) (str "x") = hex "9dba57b5465e2012dda23b46b0a9daa6f5a6ec4481ffd253414032bcb6af21b0acf5a2416c8081aedb6da04b399c6ee24dd703c5be5f03ae234aa4383865881e".
Proof. vm_compute. reflexivity. Qed.
