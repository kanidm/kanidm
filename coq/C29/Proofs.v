From Coq Require Import String List Arith NArith Bool Lia.
Import ListNotations.
Require Import KV.C29.Hash KV.C29.Model.
Open Scope N_scope.

(* 20 bytes are enough for the dynamic truncation: offset <= 15 *)
Lemma hash_of_mac : forall a m,
  (20 <= length (hash_of a m))%nat /\ Forall (fun b => b < 256) (hash_of a m).
Proof.
  intros [] m; cbn [hash_of].
  - rewrite sha1_length. split; [lia | apply sha1_bytes].
  - rewrite sha256_length. split; [lia | apply sha2_bytes].
  - rewrite sha512_length. split; [lia | apply sha2_bytes].
Qed.
Lemma hmac_rfc_mac : forall a key msg,
  (20 <= length (hmac_rfc a key msg))%nat /\ Forall (fun b => b < 256) (hmac_rfc a key msg).
Proof.
  intros a key msg. unfold hmac_rfc.
  destruct (hmac_is_hash (hash_of a) (block a) key msg) as [m ->]. apply hash_of_mac.
Qed.

Lemma offset_le15 : forall x, (N.to_nat (N.land x 15) <= 15)%nat.
Proof.
  intros x. change 15 with (N.ones 4). rewrite N.land_ones.
  assert (H : x mod 2 ^ 4 < 2 ^ 4) by (apply N.mod_lt; discriminate).
  change (2 ^ 4) with 16 in *. lia.
Qed.

Lemma slice4 : forall (l : list N) (o : nat),
  (o + 4 <= length l)%nat ->
  firstn 4 (skipn o l) = [nth o l 0; nth (o + 1) l 0; nth (o + 2) l 0; nth (o + 3) l 0].
Proof.
  intros l o; revert l. induction o as [|o IH]; intros l Hl.
  - destruct l as [|x0 [|x1 [|x2 [|x3 r]]]]; cbn [length] in Hl; try lia. reflexivity.
  - destruct l as [|x0 r]; cbn [length] in Hl; [lia|].
    cbn [skipn Nat.add nth]. apply IH. lia.
Qed.

(* the code's `u32::from_be_bytes(..) & 0x7fff_ffff` is the RFC's `(b0 & 0x7f) << 24 | b1 << 16 | b2 << 8 | b3` *)
Lemma trunc_word : forall b0 b1 b2 b3,
  b0 < 256 -> b1 < 256 -> b2 < 256 -> b3 < 256 ->
  N.land (be_word [b0; b1; b2; b3]) 0x7fffffff
  = N.land b0 127 * 16777216 + b1 * 65536 + b2 * 256 + b3.
Proof.
  intros b0 b1 b2 b3 H0 H1 H2 H3.
  unfold be_word. cbn [fold_left].
  change 0x7fffffff with (N.ones 31). change 127 with (N.ones 7). rewrite !N.land_ones.
  change (2 ^ 31) with 2147483648. change (2 ^ 7) with 128.
  pose proof (N.div_mod b0 128 ltac:(discriminate)) as Hdm.
  pose proof (N.mod_lt b0 128 ltac:(discriminate)) as Hm.
  symmetry. apply (N.mod_unique _ _ (b0 / 128)); lia.
Qed.

(* the bodies of Model.digest_gen (Totp::digest) and of Model.rfc_hotp after the HMAC *)
Definition trunc (d : digits) (mac : list N) : dres :=
  match mac with
  | [] => DErr
  | _ =>
      let off := N.to_nat (N.land (last mac 0) 15) in
      if (length mac <? off + 4)%nat then DPanic
      else DOk (N.land (be_word (firstn 4 (skipn off mac))) 0x7fffffff mod digits_mod d)
  end.
Definition rfc_trunc (d : digits) (mac : list N) : N :=
  let o := N.to_nat (N.land (last mac 0) 15) in
  (N.land (nth o mac 0) 127 * 16777216 + nth (o + 1) mac 0 * 65536
   + nth (o + 2) mac 0 * 256 + nth (o + 3) mac 0) mod digits_mod d.

Lemma digest_gen_trunc : forall fx a d key ctr,
  digest_gen fx a d key ctr =
  match algo_digest_gen fx a key ctr with None => DErr | Some mac => trunc d mac end.
Proof. reflexivity. Qed.
Lemma rfc_hotp_trunc : forall a d key ctr,
  rfc_hotp a d key ctr = rfc_trunc d (hmac_rfc a key (be_bytes 8 ctr)).
Proof. reflexivity. Qed.

(* offset + 4 never leaves a MAC of >= 20 bytes: no HmacError, no slice panic, and the
   value is the RFC's *)
Lemma trunc_in_bounds : forall d mac,
  (20 <= length mac)%nat -> Forall (fun b => b < 256) mac ->
  trunc d mac = DOk (rfc_trunc d mac).
Proof.
  intros d mac Hlen Hb. unfold trunc, rfc_trunc.
  destruct mac as [|m0 mr] eqn:Em; [cbn [length] in Hlen; lia|]. rewrite <- Em in *. clear Em m0 mr.
  set (o := N.to_nat (N.land (last mac 0) 15)).
  assert (Ho : (o <= 15)%nat) by apply offset_le15.
  destruct (Nat.ltb_spec (length mac) (o + 4)) as [Hbad|_]; [lia|].
  rewrite slice4 by lia.
  pose proof (proj1 (Forall_nth _ mac) Hb) as Hn.
  rewrite trunc_word; [reflexivity | apply Hn; lia ..].
Qed.

Lemma rfc_trunc_lt : forall d mac, rfc_trunc d mac < digits_mod d.
Proof. intros d mac. unfold rfc_trunc. apply N.mod_lt. destruct d; discriminate. Qed.

(* Both trees at once.  Before the fix a secret that fits the block went through the zeroed key
   buffer, which is RFC 2104's zero padding; a longer one was InvalidKeyError. *)
Lemma algo_digest_gen_spec : forall fx a key ctr,
  algo_digest_gen fx a key ctr =
  if fx || key_ok a key then Some (hmac_rfc a key (be_bytes 8 ctr)) else None.
Proof.
  intros fx a key ctr. unfold algo_digest_gen, key_ok. destruct fx; [reflexivity|]. cbn [orb].
  rewrite Nat.ltb_antisym.
  destruct (Nat.leb_spec (length key) (block a)) as [Hle|_]; [|reflexivity].
  cbn [negb]. unfold hmac_rfc. now rewrite hmac_zero_pad.
Qed.

Lemma digest_gen_spec : forall fx a d key ctr,
  digest_gen fx a d key ctr = if fx || key_ok a key then DOk (rfc_hotp a d key ctr) else DErr.
Proof.
  intros fx a d key ctr. rewrite digest_gen_trunc, algo_digest_gen_spec.
  destruct (fx || key_ok a key); [|reflexivity].
  rewrite rfc_hotp_trunc. apply trunc_in_bounds; apply hmac_rfc_mac.
Qed.

Lemma rfc_hotp_lt : forall a d key ctr, rfc_hotp a d key ctr < digits_mod d.
Proof. intros. rewrite rfc_hotp_trunc. apply rfc_trunc_lt. Qed.

Lemma div_step : forall step t, 0 < step -> step <= t -> t / step = (t - step) / step + 1.
Proof. intros step t Hs Ht. rewrite <- (N.div_add _ 1) by lia. f_equal. lia. Qed.

Lemma prev_counter : forall step t, 0 < step -> step <= t -> (t - step) / step = t / step - 1.
Proof. intros step t Hs Ht. rewrite (div_step step t Hs Ht). symmetry. apply N.add_sub. Qed.
Lemma counter_pos : forall step t, 0 < step -> step <= t -> 1 <= t / step.
Proof. intros step t Hs Ht. rewrite (div_step step t Hs Ht). apply N.le_add_l. Qed.
Lemma counter_window : forall step t, 0 < step -> t / step * step <= t < (t / step + 1) * step.
Proof.
  intros step t Hs.
  pose proof (N.div_mod t step ltac:(lia)) as Hdm.
  pose proof (N.mod_lt t step ltac:(lia)) as Hm.
  revert Hdm Hm. generalize (t / step) (t mod step). intros q r Hdm Hm. nia.
Qed.

(* Inside the property's hypotheses, both trees: the call returns, and accepts exactly the RFC's
   two codes unless it is the code before the fix with a secret longer than the block, which
   accepts nothing. *)
Theorem verify_gen_spec : forall fx ovf a d key step chal t,
  0 < step -> step <= t ->
  verify_gen fx ovf a d key step chal t =
  OBool ((fx || key_ok a key) && accept_spec a d key step chal t).
Proof.
  intros fx ovf a d key step chal t Hs Ht.
  unfold verify_gen, verify_core, second_counter, accept_spec, rfc_totp.
  pose proof (counter_pos step t Hs Ht) as Hc.
  destruct (N.eqb_spec step 0) as [E|_]; [lia|].
  destruct (N.eqb_spec (t / step) 0) as [E|_]; [lia|]. cbn [andb].
  rewrite !digest_gen_spec, (prev_counter step t Hs Ht).
  destruct (fx || key_ok a key); [|reflexivity]. cbn [andb].
  rewrite !(N.eqb_sym chal).
  destruct (rfc_hotp a d key (t / step) =? chal); reflexivity.
Qed.

Lemma accept_spec_iff : forall a d key step chal t,
  accept_spec a d key step chal t = true <->
  chal = rfc_totp a d key step t \/ chal = rfc_totp a d key step (t - step).
Proof.
  intros. unfold accept_spec. rewrite orb_true_iff, !N.eqb_eq. reflexivity.
Qed.

Lemma outcome_eqb_iff : forall x y, outcome_eqb x y = true <-> x = y.
Proof.
  intros [b1|] [b2|]; cbn [outcome_eqb]; rewrite ?Bool.eqb_true_iff; split; intros; congruence.
Qed.

Lemma agree_iff : forall ovf a d key step secs nanos obs,
  agree (CV ovf a d key step secs nanos obs) = true <->
  forall chal out, In (chal, out) obs -> verify ovf a d key step chal secs = out.
Proof.
  intros ovf a d key step secs nanos obs. cbn [agree]. rewrite forallb_forall. split.
  - intros H chal out Hin. apply outcome_eqb_iff. exact (H _ Hin).
  - intros H [chal out] Hin. apply outcome_eqb_iff. exact (H _ _ Hin).
Qed.

Lemma pcheck_iff : forall ovf a d key step secs nanos obs,
  pcheck (CV ovf a d key step secs nanos obs) = true <->
  (0 < step -> step <= secs ->
   forall chal out, In (chal, out) obs -> out = OBool (accept_spec a d key step chal secs)).
Proof.
  intros ovf a d key step secs nanos obs. cbn [pcheck].
  destruct (N.ltb_spec 0 step) as [Hs|Hs]; [destruct (N.leb_spec step secs) as [Ht|Ht]|]; cbn [andb].
  - rewrite forallb_forall. split.
    + intros H _ _ chal out Hin. apply outcome_eqb_iff. exact (H _ Hin).
    + intros H [chal out] Hin. apply outcome_eqb_iff. exact (H Hs Ht _ _ Hin).
  - split; [intros _ _ ?; lia | reflexivity].
  - split; [intros _ ?; lia | reflexivity].
Qed.
