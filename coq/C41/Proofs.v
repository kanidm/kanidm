(* The translated filter against the standard's reading of the source filter.
   LDAP: [ldap_partial], the three-valued equation ldap_sem = tv_of fmatch outside [ldap_known]; the one-part
   case of a substring assertion and the superset theorem are both read off [sub_terms_sem].
   SCIM: [scim_sound], one induction for the translator with and without the fix. *)
From Coq Require Import List NArith Bool String Ascii Lia.
Import ListNotations.
Require Import KV.Base.Filter KV.C41.Model.
Open Scope N_scope.

Arguments leaf_holds : simpl never.
Arguments scim_known : simpl never.

Lemma str_eqb_eq : forall a b, str_eqb a b = true -> a = b.
Proof.
  induction a as [|x a IH]; destruct b as [|y b]; simpl; try discriminate; auto.
  intros H. apply andb_true_iff in H as [H1 H2]. apply N.eqb_eq in H1. subst. f_equal. auto.
Qed.

Lemma assoc_in {A} : forall k (m : list (str * A)) x, assoc k m = Some x -> In (k, x) m.
Proof.
  induction m as [|[k' y] m IH]; simpl; intros x H; try discriminate.
  destruct (str_eqb k k') eqn:E.
  - apply str_eqb_eq in E. subst. inversion H. subst. left. reflexivity.
  - right. auto.
Qed.

Lemma existsb_ext {A} (f g : A -> bool) : (forall x, f x = g x) -> forall l, existsb f l = existsb g l.
Proof. intros H. induction l as [|x l IH]; simpl; auto. rewrite H, IH. reflexivity. Qed.

Lemma existsb_false {A} (l : list A) : existsb (fun _ => false) l = false.
Proof. induction l; simpl; auto. Qed.

Lemma existsb_orb {A} (f g : A -> bool) : forall l, existsb (fun x => f x || g x) l = existsb f l || existsb g l.
Proof.
  induction l as [|x l IH]; simpl; auto. rewrite IH.
  destruct (f x), (g x), (existsb f l), (existsb g l); reflexivity.
Qed.

Lemma tv_true_of : forall b, tv_true (tv_of b) = b.
Proof. destruct b; reflexivity. Qed.
Lemma tv_and_of : forall a b, tv_and (tv_of a) (tv_of b) = tv_of (a && b).
Proof. destruct a, b; reflexivity. Qed.
Lemma tv_or_of : forall a b, tv_or (tv_of a) (tv_of b) = tv_of (a || b).
Proof. destruct a, b; reflexivity. Qed.
Lemma tv_not_of : forall a, tv_not (tv_of a) = tv_of (negb a).
Proof. destruct a; reflexivity. Qed.
Lemma tv_of_not_uu : forall b, tv_of b <> UU.
Proof. destruct b; discriminate. Qed.

Lemma subset_refl : forall a, subset a a = true.
Proof.
  intros a. unfold subset. apply forallb_forall. intros x Hx. unfold mem.
  apply existsb_exists. exists x. split; auto. apply N.eqb_refl.
Qed.
Lemma set_eqb_refl : forall a, set_eqb a a = true.
Proof. intros a. unfold set_eqb. rewrite subset_refl. reflexivity. Qed.
Lemma set_eqb_sym : forall a b, set_eqb a b = set_eqb b a.
Proof. intros a b. unfold set_eqb. apply andb_comm. Qed.

Lemma fmatch_ignore_hidden : forall sch e g,
  fmatch sch e (ignore_hidden g) = negb (hidden e) && fmatch sch e g.
Proof.
  intros sch e g. unfold ignore_hidden, hidden. simpl. unfold leaf_holds.
  rewrite !orb_false_r, andb_true_r. reflexivity.
Qed.

Lemma search_std : forall sch p g (sem : entry -> bool),
  (forall e, In e p -> fmatch sch e g = sem e) ->
  search sch p g = map euuid (filter (fun e => negb (hidden e) && sem e) p).
Proof.
  intros sch p g sem H. unfold search. f_equal. apply filter_ext_in. intros e He.
  rewrite fmatch_ignore_hidden, (H e He). reflexivity.
Qed.

Lemma agree_std : forall (m impl : res (list N)) std,
  (forall r, m = Ok r -> r = std) -> out_eqb m impl = true ->
  match impl with Err _ => true | Ok r => set_eqb r std end = true.
Proof.
  intros m [r|er] std Hm H; auto. destruct m as [r'|er]; try discriminate.
  rewrite <- (Hm r' eq_refl), set_eqb_sym. exact H.
Qed.

Definition some_str (sy : syn) (test : str -> bool) (e : entry) (a : str) : bool :=
  existsb (fun x => match x with VS t => test (nval sy t) | VN _ => false end) (vals e a).

Lemma some_str_ext : forall sy f g e a, (forall t, f t = g t) -> some_str sy f e a = some_str sy g e a.
Proof. intros sy f g e a H. apply existsb_ext. intros [t|n]; auto. Qed.

Lemma some_str_intro : forall sy (test : str -> bool) e a t,
  In (VS t) (vals e a) -> test (nval sy t) = true -> some_str sy test e a = true.
Proof. intros sy test e a t Hin Ht. apply existsb_exists. exists (VS t). auto. Qed.

Lemma leaf_holds_str : forall sch e k a q sy m,
  assoc a sch = Some (sy, m) -> In k [KCnt; KStw; KEnw] ->
  leaf_holds sch e k a (VS q) = is_str sy && some_str sy (strop k (nval sy q)) e a.
Proof.
  intros sch e k a q sy m As Hk. unfold leaf_holds.
  destruct Hk as [<- | [<- | [<- | []]]]; rewrite As; destruct (is_str sy); auto;
    apply existsb_ext; intros [t|n]; auto; unfold nval; destruct (folds sy); reflexivity.
Qed.

Lemma sub_match_ini : forall q t, sub_match (Some q) [] None t = prefix q t.
Proof. intros q t. unfold sub_match. destruct (prefix q t); reflexivity. Qed.

Lemma find_after_contains : forall q t,
  (match find_after q t with Some _ => true | None => false end) = contains q t.
Proof.
  intros q. induction t as [|c t IH]; simpl.
  - destruct (prefix q []); reflexivity.
  - destruct (prefix q (c :: t)); simpl; auto.
Qed.

Lemma sub_match_any : forall q t, sub_match None [q] None t = contains q t.
Proof.
  intros q t. unfold sub_match. simpl. rewrite <- find_after_contains.
  destruct (find_after q t); reflexivity.
Qed.

Lemma sub_match_fin : forall q t, sub_match None [] (Some q) t = suffix q t.
Proof. reflexivity. Qed.

(* what is left after a part is a tail of the value, and a tail keeps what it contains *)
Lemma prefix_app_r : forall q a b, prefix q a = true -> prefix q (a ++ b) = true.
Proof.
  induction q as [|x q IH]; intros a b H; simpl in *; auto.
  destruct a as [|y a]; try discriminate. simpl. apply andb_true_iff in H as [H1 H2].
  rewrite H1. simpl. auto.
Qed.
Lemma contains_tail : forall q pre r, contains q r = true -> contains q (pre ++ r) = true.
Proof.
  induction pre as [|c pre IH]; intros r H; simpl; auto. rewrite (IH r H). apply orb_true_r.
Qed.
Lemma suffix_tail : forall q pre r, suffix q r = true -> suffix q (pre ++ r) = true.
Proof. intros q pre r H. unfold suffix in *. rewrite rev_app_distr. apply prefix_app_r. exact H. Qed.

Lemma find_after_tail : forall q t r, find_after q t = Some r -> exists pre, t = pre ++ r.
Proof.
  intros q. induction t as [|c t IH]; intros r H; simpl in H; destruct (prefix q _).
  1, 3: inversion H; eexists; symmetry; apply firstn_skipn.
  - discriminate.
  - destruct (IH _ H) as [pre ->]. exists (c :: pre). reflexivity.
Qed.

Lemma anys_after_spec : forall anys t r pre, anys_after anys t = Some r ->
  forallb (fun q => contains q (pre ++ t)) anys = true /\ exists pre', t = pre' ++ r.
Proof.
  induction anys as [|q rest IH]; intros t r pre H; simpl in H.
  - inversion H. split; auto. exists []. reflexivity.
  - pose proof (find_after_contains q t) as C.
    destruct (find_after q t) as [t'|] eqn:F; try discriminate. symmetry in C.
    destruct (find_after_tail _ _ _ F) as [pre1 ->].
    destruct (IH _ _ (pre ++ pre1) H) as [Hall [pre2 ->]]. rewrite <- app_assoc in Hall. split.
    + simpl. rewrite contains_tail, Hall; auto.
    + exists (pre1 ++ pre2). apply app_assoc.
Qed.

Lemma after_ini : forall anys fin pre t1,
  match anys_after anys t1 with
  | None => false
  | Some t2 => match fin with Some q => suffix q t2 | None => true end
  end = true ->
  forallb (fun q => contains q (pre ++ t1)) anys = true /\
  (match fin with Some q => suffix q (pre ++ t1) | None => true end) = true.
Proof.
  intros anys fin pre t1 H. destruct (anys_after anys t1) as [t2|] eqn:A; try discriminate.
  destruct (anys_after_spec _ _ _ pre A) as [Hall [pre2 ->]]. split; auto.
  destruct fin as [q|]; auto. rewrite app_assoc. apply suffix_tail. exact H.
Qed.

(* the standard's substring assertion on ONE value implies each of the server's independent terms *)
Lemma sub_match_implies_terms : forall ini anys fin t,
  sub_match ini anys fin t = true ->
  (match ini with Some q => prefix q t | None => true end) = true /\
  forallb (fun q => contains q t) anys = true /\
  (match fin with Some q => suffix q t | None => true end) = true.
Proof.
  intros ini anys fin t H. unfold sub_match in H. destruct ini as [q|].
  - destruct (prefix q t) eqn:P; try discriminate. split; auto.
    rewrite <- (firstn_skipn (List.length q) t). apply after_ini, H.
  - split; auto. apply (after_ini anys fin []), H.
Qed.

Lemma clone_pv_str : forall sch p a raw v sy m,
  clone_pv sch p a raw = Ok v -> assoc a sch = Some (sy, m) -> is_str sy = true ->
  exists q, v = VS q /\ nval sy q = lower raw.
Proof.
  intros sch p a raw v sy m C As S. unfold clone_pv in C. rewrite As in C.
  destruct sy; try discriminate; inversion C; eexists; split; reflexivity.
Qed.

Lemma ldap_sem_sub : forall sch p e a ini anys fin,
  ldap_sem sch p e (LSub a ini anys fin)
  = match assoc (ldap_attr_map a) sch with
    | Some (sy, _) =>
        if is_str sy
        then tv_of (some_str sy (sub_match (option_map lower ini) (map lower anys) (option_map lower fin))
                             e (ldap_attr_map a))
        else UU
    | None => UU
    end.
Proof.
  intros sch p e a ini anys fin. simpl. unfold syn_of.
  destruct (assoc (ldap_attr_map a) sch) as [[sy m]|]; reflexivity.
Qed.

(* What the translation of a substring assertion means: every part is looked for on its own, in
   SOME value; the standard wants all of them, in order and disjoint, in ONE value. *)
Section SubTerms.
  Variables (sch : schema) (p : list entry) (e : entry) (a : str) (sy : syn) (m : bool).
  Hypothesis As : assoc a sch = Some (sy, m).
  Hypothesis St : is_str sy = true.

  Lemma sub_leaf : forall k raw v,
    In k [KCnt; KStw; KEnw] -> clone_pv sch p a raw = Ok v ->
    fmatch sch e (FcLeaf k a v) = some_str sy (strop k (lower raw)) e a.
  Proof.
    intros k raw v Hk C. destruct (clone_pv_str _ _ _ _ _ _ _ C As St) as [q [-> <-]].
    simpl. rewrite (leaf_holds_str _ _ _ _ _ _ _ As Hk), St. reflexivity.
  Qed.

  Lemma end_term : forall k o ts,
    In k [KCnt; KStw; KEnw] ->
    match o with
    | Some x => bind (clone_pv sch p a x) (fun v => Ok [FcLeaf k a v])
    | None => Ok []
    end = Ok ts ->
    forallb (fmatch sch e) ts = match o with Some x => some_str sy (strop k (lower x)) e a | None => true end.
  Proof.
    intros k [x|] ts Hk H.
    - destruct (clone_pv sch p a x) as [v|er] eqn:C; try discriminate.
      inversion H. cbn [forallb]. rewrite (sub_leaf _ _ _ Hk C). apply andb_true_r.
    - inversion H. reflexivity.
  Qed.

  Lemma any_terms : forall anys ts,
    mapm (fun x => bind (clone_pv sch p a x) (fun v => Ok (FcLeaf KCnt a v))) anys = Ok ts ->
    forallb (fmatch sch e) ts = forallb (fun q => some_str sy (contains (lower q)) e a) anys.
  Proof.
    induction anys as [|q rest IH]; intros ts H; simpl in H.
    - inversion H. reflexivity.
    - destruct (clone_pv sch p a q) as [v|er] eqn:C; try discriminate.
      destruct (mapm _ rest) as [ts'|er]; try discriminate.
      inversion H. cbn [forallb]. rewrite (IH ts' eq_refl). f_equal.
      apply (sub_leaf KCnt); simpl; auto.
  Qed.

  Lemma sub_terms_sem : forall ini anys fin ts,
    sub_terms sch p a ini anys fin = Ok ts ->
    forallb (fmatch sch e) ts
    = (match ini with Some x => some_str sy (prefix (lower x)) e a | None => true end)
      && (forallb (fun q => some_str sy (contains (lower q)) e a) anys
          && (match fin with Some x => some_str sy (suffix (lower x)) e a | None => true end)).
  Proof.
    intros ini anys fin ts H. unfold sub_terms in H.
    destruct (match ini with Some _ => _ | None => _ end) as [t1|er] eqn:E1; try discriminate.
    destruct (mapm _ anys) as [t2|er] eqn:E2; try discriminate.
    destruct (match fin with Some _ => _ | None => _ end) as [t3|er] eqn:E3; try discriminate.
    inversion H. rewrite !forallb_app.
    rewrite (end_term KStw ini t1), (any_terms anys t2), (end_term KEnw fin t3); simpl; auto.
  Qed.
End SubTerms.

Lemma ldap_substring_superset : forall sch p a ini anys fin depth lim g lim' e,
  from_ldap sch p depth lim (LSub a ini anys fin) = Ok (g, lim') ->
  ldap_sem sch p e (LSub a ini anys fin) = TT -> fmatch sch e g = true.
Proof.
  intros sch p a ini anys fin depth lim g lim' e Hf Hs.
  simpl in Hf. destruct (depth =? 0); try discriminate. destruct (lim =? 0); try discriminate.
  destruct (sub_terms sch p (ldap_attr_map a) ini anys fin) as [ts|er] eqn:S; try discriminate.
  inversion Hf; subst g lim'. clear Hf.
  rewrite ldap_sem_sub in Hs.
  destruct (assoc (ldap_attr_map a) sch) as [[sy m]|] eqn:As; try discriminate.
  destruct (is_str sy) eqn:St; try discriminate.
  destruct (some_str sy _ e _) eqn:Hm; try discriminate. clear Hs.
  (* the ONE value on which the standard's assertion holds serves every part *)
  apply existsb_exists in Hm as [[t|n] [Hin Ht]]; try discriminate.
  apply sub_match_implies_terms in Ht as [Hi [Ha Hfin]].
  cbn [fmatch]. rewrite (sub_terms_sem _ _ e _ _ _ As St _ _ _ _ S).
  apply andb_true_iff. split; [|apply andb_true_iff; split].
  - destruct ini as [x|]; auto. exact (some_str_intro _ _ _ _ _ Hin Hi).
  - apply forallb_forall. intros q Hq. apply (some_str_intro _ _ _ _ _ Hin).
    rewrite forallb_forall in Ha. apply Ha, in_map, Hq.
  - destruct fin as [x|]; auto. exact (some_str_intro _ _ _ _ _ Hin Hfin).
Qed.

Lemma thread_forall2 {A B} (f : N -> A -> res (B * N)) : forall l el gs el',
  thread f l el = Ok (gs, el') ->
  Forall2 (fun x g => exists e1 e2, f e1 x = Ok (g, e2)) l gs.
Proof.
  induction l as [|x r IH]; simpl; intros el gs el' H.
  - inversion H. constructor.
  - destruct (f el x) as [[g e1]|er] eqn:E1; try discriminate.
    destruct (thread f r e1) as [[gs' e2]|er] eqn:E2; try discriminate.
    inversion H; subst. constructor; eauto.
Qed.

Section Ldap.
  Variable sch : schema.
  Variable p : list entry.

  Definition ldap_ok (depth : N) (f : ldapf) : Prop :=
    forall lim g lim', ldap_known sch p f = false ->
      from_ldap sch p depth lim f = Ok (g, lim') -> fvalid sch g = true ->
      forall e, ldap_sem sch p e f = tv_of (fmatch sch e g).

  (* the And and the Or of the children, by one induction along the translated list *)
  Lemma children : forall nd e l el gs el',
    (forall x, ldap_ok nd x) -> thread (fun el x => from_ldap sch p nd el x) l el = Ok (gs, el') ->
    existsb (ldap_known sch p) l = false -> forallb (fvalid sch) gs = true ->
    ldap_sem sch p e (LAnd l) = tv_of (fmatch sch e (FcAnd gs)) /\
    ldap_sem sch p e (LOr l) = tv_of (fmatch sch e (FcOr gs)).
  Proof.
    intros nd e l el gs el' IH T. apply thread_forall2 in T.
    induction T as [|x g l gs [e1 [e2 Hx]] T IHT]; intros Hk Hv.
    - split; reflexivity.
    - simpl in Hk, Hv.
      apply orb_false_iff in Hk as [Hk1 Hk2]. apply andb_true_iff in Hv as [Hv1 Hv2].
      destruct (IHT Hk2 Hv2) as [IHa IHo]. simpl in *.
      rewrite (IH x _ _ _ Hk1 Hx Hv1 e), IHa, IHo, tv_and_of, tv_or_of. split; reflexivity.
  Qed.

  (* By induction on the depth budget: the translator spends one unit per level and refuses at 0,
     so every child is translated with less. *)
  Lemma ldap_partial : forall depth f, ldap_ok depth f.
  Proof.
    induction depth as [depth IH] using (well_founded_induction N.lt_wf_0).
    intros f lim g lim' Hk Hf Hv e. destruct f as [l|l|f|a v|a|a ini anys fin|a v|a v|a v|a v]; simpl in Hf;
      destruct (N.eqb_spec depth 0) as [|D]; try discriminate; destruct (lim =? 0); try discriminate;
      specialize (IH (depth - 1) ltac:(lia)).
    1, 2: (* And, Or *)
      destruct (thread _ l (lim - 1)) as [[gs e1]|er] eqn:T; try discriminate;
      inversion Hf; subst g lim'; simpl in Hv; apply andb_true_iff in Hv as [_ Hv];
      apply (children _ e _ _ _ _ IH T Hk Hv).
    - (* Not *)
      destruct (from_ldap sch p (depth - 1) (lim - 1) f) as [[g' e1]|er] eqn:F; try discriminate.
      inversion Hf; subst g lim'. simpl. rewrite (IH f _ _ _ Hk F Hv e). apply tv_not_of.
    - (* Eq *)
      simpl in Hk. simpl.
      destruct (clone_pv sch p (ldap_attr_map a) v) as [pv|er] eqn:C.
      + inversion Hf; subst g lim'. reflexivity.
      + rewrite Hk in Hf. discriminate.
    - (* Pres *)
      inversion Hf; subst g lim'. reflexivity.
    - (* Sub: at most one part, so ts is empty (refused by validate) or one leaf, and a leaf needs a
         known attribute *)
      destruct (sub_terms sch p (ldap_attr_map a) ini anys fin) as [ts|er] eqn:S; try discriminate.
      inversion Hf; subst g lim'. destruct ts as [|t ts]; [discriminate Hv|]. clear Hf Hv.
      simpl in Hk. apply orb_false_iff in Hk as [Hn Hu]. unfold syn_of in Hu.
      rewrite ldap_sem_sub.
      destruct (assoc (ldap_attr_map a) sch) as [[sy mu]|] eqn:As.
      + apply negb_false_iff in Hu. rewrite Hu. f_equal. cbn [fmatch].
        rewrite (sub_terms_sem _ _ e _ _ _ As Hu _ _ _ _ S).
        destruct ini as [x|], anys as [|q [|]], fin as [y|]; try discriminate Hn; simpl; rewrite ?andb_true_r.
        * apply some_str_ext, sub_match_ini.
        * reflexivity.
        * discriminate S.
        * apply some_str_ext, sub_match_any.
      + unfold sub_terms, clone_pv in S. rewrite As in S.
        destruct ini, anys, fin; discriminate S.
  Qed.
End Ldap.

Lemma ldap_known_class : forall sch p v, ldap_known sch p (LEq a_class v) = false.
Proof.
  intros sch p v. cbn [ldap_known].
  destruct (clone_pv sch p (ldap_attr_map a_class) v); [reflexivity | vm_compute; reflexivity].
Qed.

Lemma ldap_wrap_known : forall sch p f, ldap_known sch p (ldap_wrap f) = ldap_known sch p f.
Proof.
  intros sch p f. unfold ldap_wrap.
  generalize (ldap_known_class sch p). generalize (LEq a_class). intros c K.
  cbn [ldap_known existsb]. rewrite !K. apply orb_false_r.
Qed.

Lemma run_ldap_std : forall sch p lim f r,
  ldap_known sch p f = false -> run_ldap sch p lim f = Ok r -> r = std_ldap sch p f.
Proof.
  intros sch p lim f r Hk H. unfold run_ldap, compile_ldap in H.
  destruct (from_ldap sch p depth_max lim (ldap_wrap f)) as [[g el]|er] eqn:F; try discriminate.
  destruct (fvalid sch g) eqn:V; try discriminate. inversion H; subst r.
  apply search_std. intros e _. rewrite <- ldap_wrap_known in Hk.
  rewrite (ldap_partial sch p _ _ _ _ _ Hk F V e). symmetry. apply tv_true_of.
Qed.

Lemma scim_pv_ok : forall sch p a j pv,
  scim_pv sch p a j = Ok pv ->
  exists sy m, assoc a sch = Some (sy, m) /\
    ((is_str sy = true /\ exists q, pv = VS q) \/ (is_uuidlike sy = true /\ exists n, pv = VN n)).
Proof.
  intros sch p a j pv H. unfold scim_pv in H.
  destruct (assoc a sch) as [[sy m]|]; try discriminate.
  exists sy, m. split; auto.
  destruct sy, j; try discriminate; inversion H; eauto.
Qed.

Lemma str_not_uuidlike : forall sy, is_str sy = true -> is_uuidlike sy = false.
Proof. destruct sy; simpl; auto; discriminate. Qed.
Lemma uuidlike_ord : forall sy, is_uuidlike sy = true -> is_ord sy = true.
Proof. destruct sy; simpl; auto; discriminate. Qed.

Lemma leaf_holds_lt : forall sch e a n sy m,
  assoc a sch = Some (sy, m) -> is_ord sy = true ->
  leaf_holds sch e KLt a (VN n) = existsb (fun x => val_ltb x (VN n)) (vals e a).
Proof.
  intros sch e a n sy m As Ho. unfold leaf_holds. rewrite As, Ho.
  apply existsb_ext. intros [t|k]; reflexivity.
Qed.

Lemma single_valued : forall sch e a sy,
  entry_okb sch e = true -> assoc a sch = Some (sy, false) -> is_uuidlike sy = true ->
  (has e a = false /\ vals e a = []) \/ (has e a = true /\ exists k, vals e a = [VN k]).
Proof.
  intros sch e a sy H As U. unfold has, vals. destruct (assoc a e) as [vs|] eqn:Ae; auto. right.
  unfold entry_okb in H. rewrite forallb_forall in H.
  apply assoc_in in Ae. specialize (H _ Ae). simpl in H. rewrite As, U in H. simpl in H.
  destruct vs as [|[t|k] [|v2 r]]; try discriminate. eauto.
Qed.

Lemma scim_known_cmp : forall sch o a sub j,
  scim_known sch (SCmp o a sub j)
  = match assoc a sch with
    | Some (sy, multi) => is_ordop o && (negb (is_uuidlike sy) || (is_gtop o && multi))
    | None => false
    end.
Proof. reflexivity. Qed.
Lemma scim_known_or : forall sch l r, scim_known sch (SOr l r) = scim_known sch l || scim_known sch r.
Proof. reflexivity. Qed.
Lemma scim_known_and : forall sch l r, scim_known sch (SAnd l r) = scim_known sch l || scim_known sch r.
Proof. reflexivity. Qed.

Lemma scim_leaf_ok : forall sch p e o a j pv,
  scim_known sch (SCmp o a false j) = false -> o <> ONe ->
  scim_pv sch p a j = Ok pv -> entry_okb sch e = true ->
  fmatch sch e (scim_leaf o a pv) = scim_sem sch p e (SCmp o a false j).
Proof.
  intros sch p e o a j pv Hk Hne Hpv Hok.
  destruct (scim_pv_ok _ _ _ _ _ Hpv) as [sy [m [As Hcase]]].
  simpl. unfold syn_of. rewrite As, Hpv. rewrite scim_known_cmp, As in Hk.
  destruct Hcase as [[Hs [q ->]] | [Hu [n ->]]].
  - (* a string syntax: only eq / co / sw / ew are in scope *)
    rewrite (str_not_uuidlike _ Hs), andb_true_r in Hk.
    destruct o; try discriminate; try congruence; simpl.
    1: reflexivity.
    all: rewrite (leaf_holds_str _ _ _ _ _ _ _ As), Hs by (simpl; auto).
    all: apply existsb_ext; intros [t|k]; simpl; rewrite ?Hs; reflexivity.
  - (* uuid / reference: the assertion value is a number, which no string operator matches *)
    pose proof (uuidlike_ord _ Hu) as Ho. rewrite Hu in Hk. simpl in Hk.
    destruct o; try congruence; simpl; rewrite ?(leaf_holds_lt _ _ _ _ _ _ As Ho).
    (* goals, in the order of the constructors of sop (ne is gone by Hne): eq co sw ew gt lt ge le *)
    5, 7: (* gt, ge mean "every value": right where there is at most one *)
      simpl in Hk; subst m; unfold leaf_holds;
      destruct (single_valued _ _ _ _ Hok As Hu) as [[-> ->] | [-> [k ->]]]; simpl; auto;
      destruct (N.ltb_spec k n), (N.eqb_spec n k), (N.ltb_spec n k); simpl; try reflexivity; lia.
    2-4: (* co, sw, ew *) unfold leaf_holds; rewrite As; symmetry; apply existsb_false.
    + (* eq *) reflexivity.
    + (* lt *) reflexivity.
    + (* le *)
      rewrite orb_false_r. symmetry.
      apply (existsb_orb (fun x => val_ltb x (VN n)) (val_eqb (VN n))).
Qed.

(* Both trees at once.  Without the fix (fx = false) the filter has to be outside [scim_known]; with
   it the translator refuses every comparison inside, so that what it accepts is in scope. *)
Theorem scim_sound : forall fx sch p depth lim f g lim',
  negb fx && scim_known sch f = false -> from_scim_gen fx sch p depth lim f = Ok (g, lim') ->
  forall e, entry_okb sch e = true -> fmatch sch e g = scim_sem sch p e f.
Proof.
  intros fx sch p depth lim f. revert depth lim.
  induction f as [a sub|o a sub j|f IH|l IHl r IHr|l IHl r IHr|a];
    intros depth lim g lim' Hk Hf e Hok;
    simpl in Hf; destruct (depth =? 0); try discriminate; destruct (lim =? 0); try discriminate.
  - destruct sub; try discriminate. inversion Hf; subst. reflexivity.
  - destruct sub; [destruct o; discriminate|].
    destruct (scim_pv sch p a j) as [pv|er] eqn:Hpv; [|destruct o; discriminate].
    destruct (scim_known sch (SCmp o a false j)) eqn:K; [destruct fx, o; discriminate|].
    rewrite andb_false_r in Hf.
    assert (Hne : o <> ONe) by (intros ->; discriminate).
    assert (Hg : g = scim_leaf o a pv) by (destruct o; try congruence; inversion Hf; reflexivity).
    subst g. apply scim_leaf_ok; auto.
  - destruct (from_scim_gen fx sch p (depth - 1) (lim - 1) f) as [[g' e1]|er] eqn:F; try discriminate.
    inversion Hf; subst. simpl. rewrite (IH _ _ _ _ Hk F e Hok). reflexivity.
  - destruct (from_scim_gen fx sch p (depth - 1) (lim - 1) l) as [[gl e1]|er] eqn:F1; try discriminate.
    destruct (from_scim_gen fx sch p (depth - 1) e1 r) as [[gr e2]|er] eqn:F2; try discriminate.
    inversion Hf; subst. rewrite scim_known_or, andb_orb_distrib_r in Hk.
    apply orb_false_iff in Hk as [Hk1 Hk2]. simpl.
    rewrite (IHl _ _ _ _ Hk1 F1 e Hok), (IHr _ _ _ _ Hk2 F2 e Hok), orb_false_r. reflexivity.
  - destruct (from_scim_gen fx sch p (depth - 1) (lim - 1) l) as [[gl e1]|er] eqn:F1; try discriminate.
    destruct (from_scim_gen fx sch p (depth - 1) e1 r) as [[gr e2]|er] eqn:F2; try discriminate.
    inversion Hf; subst. rewrite scim_known_and, andb_orb_distrib_r in Hk.
    apply orb_false_iff in Hk as [Hk1 Hk2]. simpl.
    rewrite (IHl _ _ _ _ Hk1 F1 e Hok), (IHr _ _ _ _ Hk2 F2 e Hok), andb_true_r. reflexivity.
Qed.

Lemma run_scim_std : forall sch p lim f r,
  negb tree_fixed_scim && scim_known sch f = false -> forallb (entry_okb sch) p = true ->
  run_scim sch p lim f = Ok r -> r = std_scim sch p f.
Proof.
  intros sch p lim f r Hk Hp H. unfold run_scim, compile_scim, from_scim in H.
  destruct (from_scim_gen tree_fixed_scim sch p depth_max lim f) as [[g el]|er] eqn:F; try discriminate.
  destruct (fvalid sch g); try discriminate. inversion H; subst r.
  apply search_std. intros e He. rewrite forallb_forall in Hp.
  apply (scim_sound _ _ _ _ _ _ _ _ Hk F e (Hp e He)).
Qed.
