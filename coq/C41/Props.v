(* The full statements for LDAP and SCIM, their refutations for the translator as /repo holds it,
   and what holds outside the deviation classes. *)
From Coq Require Import List NArith Bool String.
Import ListNotations.
Require Import KV.Base.Filter KV.C41.Model KV.C41.Proofs.
Open Scope N_scope.

(* THE PROPERTY for LDAP, at full strength: for every schema, every population (it only serves to
   resolve names to uuids), every depth / element budget and EVERY filter tree that the translator
   accepts and validation lets through, every entry matches the translated filter iff the RFC 4511
   evaluation of the source filter is TRUE. *)
Definition C41_ldap_full_statement : Prop :=
  forall sch p depth lim f g lim',
    from_ldap sch p depth lim f = Ok (g, lim') -> fvalid sch g = true ->
    forall e, fmatch sch e g = tv_true (ldap_sem sch p e f).

(* It does NOT hold for the code as it is: the filter name = * b * a * (two any-parts) is translated to And[Cnt b; Cnt a], which
   the entry named "ab" satisfies although no "a" follows a "b" in it.  (Three more kinds of
   counterexample are in Witness.v; all four were replayed on the real server.) *)
Theorem C41_ldap_refuted : ~ C41_ldap_full_statement.
Proof.
  intros H.
  pose (sch := [(s "name", (SyIname, false))] : schema).
  pose (f := LSub (s "name") None [s "b"; s "a"] None).
  pose (g := FcAnd [FcLeaf KCnt (s "name") (VS (s "b")); FcLeaf KCnt (s "name") (VS (s "a"))]).
  assert (F : from_ldap sch [] 12 32 f = Ok (g, 31)) by (vm_compute; reflexivity).
  assert (V : fvalid sch g = true) by (vm_compute; reflexivity).
  specialize (H sch [] 12 32 f g 31 F V [(s "name", [VS (s "ab")])]).
  vm_compute in H. discriminate.
Qed.

(* What DOES hold, for all schemas, populations, budgets, entries and all filter trees (unbounded
   nesting of and / or / not over equality, presence, substring): outside the two deviation
   classes recognised by `ldap_known` — a substring assertion with two or more parts; a term the
   standard leaves Undefined (spn equality with an unparsable value, substring on a syntax without
   substring matching) — the source filter is never Undefined and the translated filter matches
   exactly when it is TRUE.  In particular NOT is negation and a multi-valued attribute matches
   when any value does. *)
Theorem C41_ldap_partial :
  forall sch p depth lim f g lim',
    ldap_known sch p f = false ->
    from_ldap sch p depth lim f = Ok (g, lim') -> fvalid sch g = true ->
    forall e, ldap_sem sch p e f <> UU /\ fmatch sch e g = tv_true (ldap_sem sch p e f).
Proof.
  intros sch p depth lim f g lim' Hk Hf Hv e.
  rewrite (ldap_partial sch p depth f lim g lim' Hk Hf Hv e). split.
  - apply tv_of_not_uu.
  - symmetry. apply tv_true_of.
Qed.

(* Search level: outside the deviation classes, whenever the server-side pipeline (wrap as
   do_search does, translate, validate, hide recycled / tombstones, match) answers at all, it
   answers EXACTLY the live entries on which the standard evaluation is TRUE. *)
Theorem C41_ldap_search_exact_partial :
  forall sch p lim f r,
    ldap_known sch p f = false -> run_ldap sch p lim f = Ok r -> r = std_ldap sch p f.
Proof. exact run_ldap_std. Qed.

(* The shape of the substring deviation, for EVERY substring assertion (any number of parts, any
   entry): an entry on which the standard evaluates the assertion to TRUE matches the translated
   filter too — for a single substring term the server's answer is a superset of the standard's. *)
Theorem C41_ldap_substring_superset :
  forall sch p a ini anys fin depth lim g lim' e,
    from_ldap sch p depth lim (LSub a ini anys fin) = Ok (g, lim') ->
    ldap_sem sch p e (LSub a ini anys fin) = TT -> fmatch sch e g = true.
Proof. exact ldap_substring_superset. Qed.

(* ge / le / approx / extensible are refused, never silently reinterpreted *)
Theorem C41_ldap_unsupported_rejected :
  forall sch p depth lim a v f,
    f = LGe a v \/ f = LLe a v \/ f = LApprox a v \/ f = LExt a v ->
    exists e, from_ldap sch p depth lim f = Err e.
Proof.
  intros sch p depth lim a v f [-> | [-> | [-> | ->]]]; simpl;
    destruct (depth =? 0); eauto; destruct (lim =? 0); eauto.
Qed.

(* THE PROPERTY for SCIM, at full strength (RFC 7644 3.4.2.2), for the translator of tree `fx`
   (false = as /repo holds it, true = with /verif/fixes/C41.patch). *)
Definition C41_scim_full_statement_gen (fx : bool) : Prop :=
  forall sch p depth lim f g lim',
    from_scim_gen fx sch p depth lim f = Ok (g, lim') -> fvalid sch g = true ->
    forall e, entry_okb sch e = true -> fmatch sch e g = scim_sem sch p e f.
(* ... for the tree /repo holds (KV.C41.Model.tree_fixed_scim) *)
Definition C41_scim_full_statement : Prop := C41_scim_full_statement_gen tree_fixed_scim.

(* Refuted for the translator as /repo holds it: `member gt X` is translated to pres AND NOT (lt OR eq), i.e.
   "EVERY value is greater"; a group whose members are {5, 20} does not match `member gt 10`.
   (String ordering is the second kind of counterexample, in Witness.v.) *)
Theorem C41_scim_prefix_refuted : ~ C41_scim_full_statement_gen false.
Proof.
  intros H.
  pose (sch := [(s "member", (SyRefer, true))] : schema).
  pose (u := s "00000000-0000-0000-0000-00000000000a").
  pose (f := SCmp OGt (s "member") false (JStr u)).
  pose (g := scim_leaf OGt (s "member") (VN 10)).
  assert (F : from_scim_gen false sch [] 12 32 f = Ok (g, 31)) by (vm_compute; reflexivity).
  assert (V : fvalid sch g = true) by (vm_compute; reflexivity).
  assert (E : entry_okb sch [(s "member", [VN 5; VN 20])] = true) by (vm_compute; reflexivity).
  specialize (H sch [] 12 32 f g 31 F V _ E).
  vm_compute in H. discriminate.
Qed.

(* For the tree /repo holds (tree_fixed_scim = false) the property is refuted. *)
Theorem C41_scim_refuted : ~ C41_scim_full_statement.
Proof. exact C41_scim_prefix_refuted. Qed.

(* With the fix (ordering operators refused where the server cannot give them the standard's
   meaning) the FULL statement holds: every accepted SCIM filter tree, every schema-respecting
   entry, no exception class. *)
Theorem C41_scim_fixed_full : C41_scim_full_statement_gen true.
Proof. intros sch p depth lim f g lim' Hf _. exact (scim_sound true _ _ _ _ _ _ _ eq_refl Hf). Qed.

(* What holds for BOTH trees and every filter tree: outside `scim_known` (an ordering operator on a
   syntax the server cannot order, or gt / ge on an attribute the schema allows to be multi-valued)
   and for every entry that respects the schema, translated filter = standard meaning. *)
Theorem C41_scim_partial :
  forall fx sch p depth lim f g lim',
    scim_known sch f = false -> from_scim_gen fx sch p depth lim f = Ok (g, lim') ->
    forall e, entry_okb sch e = true -> fmatch sch e g = scim_sem sch p e f.
Proof. intros fx sch p depth lim f g lim' Hk. apply scim_sound. rewrite Hk. apply andb_false_r. Qed.

(* Search level, for the tree /repo holds: outside the class `known` recognises, the pipeline
   answers exactly the standard's selection of live entries, or rejects. *)
Theorem C41_scim_search_exact_partial :
  forall sch p lim f r,
    negb tree_fixed_scim && scim_known sch f = false -> forallb (entry_okb sch) p = true ->
    run_scim sch p lim f = Ok r -> r = std_scim sch p f.
Proof. exact run_scim_std. Qed.

(* ne, sub-attribute paths and complex filters are refused *)
Theorem C41_scim_unsupported_rejected :
  forall fx sch p depth lim f,
    (exists a j, f = SCmp ONe a false j) \/ (exists a, f = SPres a true) \/
    (exists o a j, f = SCmp o a true j) \/ (exists a, f = SComplex a) ->
    exists e, from_scim_gen fx sch p depth lim f = Err e.
Proof.
  intros fx sch p depth lim f [[a [j ->]] | [[a ->] | [[o [a [j ->]]] | [a ->]]]]; simpl;
    destruct (depth =? 0); eauto; destruct (lim =? 0); eauto; destruct o; eauto.
Qed.

(* On a recorded case outside the deviation classes, agreement of the real server's answer with
   the model's forces the real answer to satisfy the property: rejected, or exactly the standard's
   selection.  So a run with zero disagreements transfers the two `_partial` theorems to every
   observed implementation case. *)
Theorem C41_agree_implies_property_ldap :
  forall sch p lim f impl,
    known (CLdap sch p lim f impl) = false ->
    agree (CLdap sch p lim f impl) = true -> pcheck (CLdap sch p lim f impl) = true.
Proof. intros sch p lim f impl Hk. apply agree_std. intros r. apply run_ldap_std, Hk. Qed.

Theorem C41_agree_implies_property_scim :
  forall sch p lim f impl,
    known (CScim sch p lim f impl) = false -> forallb (entry_okb sch) p = true ->
    agree (CScim sch p lim f impl) = true -> pcheck (CScim sch p lim f impl) = true.
Proof. intros sch p lim f impl Hk Hp. apply agree_std. intros r. apply run_scim_std; assumption. Qed.
