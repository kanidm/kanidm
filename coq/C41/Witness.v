(* Non-vacuity of the implication theorems, and the refutation witnesses (each replayed on
   the real server by harness/src/bin/c41.rs, corpus part). *)
From Coq Require Import List NArith Bool String.
Import ListNotations.
Require Import KV.Base.Filter KV.C41.Model.
Open Scope N_scope.

Definition wsch : schema :=
  [ (s "name", (SyIname, false)); (s "class", (SyIutf8, true)); (s "mail", (SyEmail, true));
    (s "spn", (SySpn, false)); (s "uuid", (SyUuid, false)); (s "member", (SyRefer, true));
    (s "displayname", (SyUtf8, false)); (s "gidnumber", (SyU32, false)) ].
Definition w_ab : entry :=
  [ (s "name", [VS (s "ab")]); (s "class", [VS (s "account"); VS (s "object"); VS (s "person")]);
    (s "mail", [VS (s "abc@x.example"); VS (s "def@y.example")]); (s "spn", [VS (s "ab@example.com")]);
    (s "uuid", [VN 300]); (s "displayname", [VS (s "Ab Ba")]) ].
Definition w_aba : entry :=
  [ (s "name", [VS (s "aba")]); (s "class", [VS (s "group"); VS (s "object")]);
    (s "spn", [VS (s "aba@example.com")]); (s "uuid", [VN 200]); (s "member", [VN 100; VN 300]) ].
Definition w_gone : entry :=
  [ (s "name", [VS (s "gone")]); (s "class", [VS (s "person"); VS (s "recycled")]); (s "uuid", [VN 400]) ].
Definition wpop := [w_ab; w_aba; w_gone].

(* hypotheses of C41_ldap_partial / C41_ldap_search_exact_partial are met by a non-trivial
   filter: nesting, NOT, an alias in mixed case, one-part substrings, a name resolved to a uuid;
   it selects one live entry and rejects another *)
Definition wf1 : ldapf :=
  LAnd [ LOr [ LSub (s "CN") (Some (s "AB")) [] None; LEq (s "member") (s "ab") ];
         LNot (LSub (s "objectClass") None [s "rou"] None);
         LPres (s "mail") ].
Example C41_witness_ldap_partial :
  ldap_known wsch wpop wf1 = false /\
  (exists g l, from_ldap wsch wpop 12 32 wf1 = Ok (g, l) /\ fvalid wsch g = true /\
               fmatch wsch w_ab g = true /\ fmatch wsch w_aba g = false) /\
  run_ldap wsch wpop 32 wf1 = Ok [300] /\ std_ldap wsch wpop wf1 = [300].
Proof.
  split; [vm_compute; reflexivity|]. split.
  - eexists. eexists. split; [vm_compute; reflexivity|]. vm_compute. repeat split; reflexivity.
  - vm_compute. split; reflexivity.
Qed.

(* hypotheses of C41_scim_partial / _search_exact_partial: ordering on the single-valued uuid,
   le on the multi-valued member, a string operator, NOT *)
Definition wf2 : scimf :=
  SOr (SAnd (SCmp OGt (s "uuid") false (JStr (s "00000000-0000-0000-0000-0000000000c8")))
            (SNot (SCmp OCo (s "name") false (JStr (s "ON")))))
      (SCmp OLe (s "member") false (JStr (s "00000000-0000-0000-0000-000000000064"))).
Example C41_witness_scim_partial :
  scim_known wsch wf2 = false /\ forallb (entry_okb wsch) wpop = true /\
  (exists g l, from_scim wsch wpop 12 32 wf2 = Ok (g, l) /\ fvalid wsch g = true) /\
  run_scim wsch wpop 32 wf2 = Ok [300; 200] /\ std_scim wsch wpop wf2 = [300; 200].
Proof.
  split; [vm_compute; reflexivity|]. split; [vm_compute; reflexivity|]. split.
  - eexists. eexists. split; vm_compute; reflexivity.
  - vm_compute. split; reflexivity.
Qed.

(* hypotheses of the agree => property theorems: a recorded case that agrees and is in scope *)
Example C41_witness_agree_ldap :
  let c := CLdap wsch wpop 32 wf1 (Ok [300]) in
  known c = false /\ agree c = true /\ pcheck c = true.
Proof. vm_compute. repeat split; reflexivity. Qed.
Example C41_witness_agree_scim :
  let c := CScim wsch wpop 32 wf2 (Ok [200; 300]) in
  known c = false /\ agree c = true /\ pcheck c = true.
Proof. vm_compute. repeat split; reflexivity. Qed.

(* rejection is real: element budgets, unsupported operators, bad values, empty groups *)
Example C41_witness_rejections :
  run_ldap wsch wpop 32 (LGe (s "gidnumber") (s "5")) = Err EFilterGeneration /\
  run_ldap wsch wpop 32 (LEq (s "uidNumber") (s "x")) = Err EInvalidAttribute /\
  run_ldap wsch wpop 32 (LEq (s "nosuch") (s "x")) = Err EInvalidAttrName /\
  run_ldap wsch wpop 32 (LPres (s "nosuch")) = Err ESchema /\
  run_ldap wsch wpop 32 (LAnd []) = Err ESchema /\
  run_ldap wsch wpop 32 (LSub (s "name") None [] None) = Err ESchema /\
  run_ldap wsch wpop 7 (LPres (s "name")) = Ok [300; 200] /\
  run_ldap wsch wpop 6 (LPres (s "name")) = Err EResourceLimit /\
  run_scim wsch wpop 32 (SCmp ONe (s "name") false (JStr (s "ab"))) = Err EFilterGeneration /\
  run_scim wsch wpop 32 (SCmp OEq (s "mail") false (JStr (s "x"))) = Err EInvalidAttribute /\
  run_scim wsch wpop 32 (SCmp OEq (s "name") false (JBool true)) = Err EInvalidAttribute /\
  run_scim wsch wpop 32 (SComplex (s "mail")) = Err EFilterGeneration /\
  run_scim wsch wpop 1 (SNot (SPres (s "name") false)) = Err EResourceLimit.
Proof. vm_compute. repeat split; reflexivity. Qed.

(* LDAP: order of the any-parts is not enforced — the filter name = * b * a * selects "ab" *)
Example C41_witness_refuted_substring_order :
  let f := LSub (s "name") None [s "b"; s "a"] None in
  ldap_known wsch wpop f = true /\
  run_ldap wsch wpop 32 f = Ok [300; 200] /\ std_ldap wsch wpop f = [200].
Proof. vm_compute. repeat split; reflexivity. Qed.

(* LDAP: parts may overlap — cn = ab * ba selects "aba" *)
Example C41_witness_refuted_substring_overlap :
  let f := LSub (s "cn") (Some (s "ab")) [] (Some (s "ba")) in
  ldap_known wsch wpop f = true /\
  run_ldap wsch wpop 32 f = Ok [200] /\ std_ldap wsch wpop f = [].
Proof. vm_compute. repeat split; reflexivity. Qed.

(* LDAP: the parts may be found in DIFFERENT values of a multi-valued attribute —
   mail = abc * y.example selects the entry holding abc@x.example and def@y.example *)
Example C41_witness_refuted_substring_values :
  let f := LSub (s "mail") (Some (s "abc")) [] (Some (s "y.example")) in
  ldap_known wsch wpop f = true /\
  run_ldap wsch wpop 32 f = Ok [300] /\ std_ldap wsch wpop f = [].
Proof. vm_compute. repeat split; reflexivity. Qed.

(* LDAP: Undefined becomes FALSE, so its negation selects everything — NOT (spn = notanspn) *)
Example C41_witness_refuted_undefined_not :
  let f := LNot (LEq (s "spn") (s "notanspn")) in
  ldap_known wsch wpop f = true /\
  run_ldap wsch wpop 32 f = Ok [300; 200] /\ std_ldap wsch wpop f = [].
Proof. vm_compute. repeat split; reflexivity. Qed.

(* SCIM: gt / ge on a multi-valued attribute mean "every value", not "any value" *)
Example C41_witness_refuted_scim_multi_gt :
  let f := SCmp OGt (s "member") false (JStr (s "00000000-0000-0000-0000-0000000000c8")) in
  scim_known wsch f = true /\
  run_scim wsch wpop 32 f = Ok [] /\ std_scim wsch wpop f = [200].
Proof. vm_compute. repeat split; reflexivity. Qed.

(* SCIM: strings are not ordered by the server: lt never matches, ge = present *)
Example C41_witness_refuted_scim_string_order :
  let f := SCmp OLt (s "name") false (JStr (s "abz")) in
  let g := SCmp OGe (s "name") false (JStr (s "abz")) in
  scim_known wsch f = true /\ scim_known wsch g = true /\
  run_scim wsch wpop 32 f = Ok [] /\ std_scim wsch wpop f = [300; 200] /\
  run_scim wsch wpop 32 g = Ok [300; 200] /\ std_scim wsch wpop g = [].
Proof. vm_compute. repeat split; reflexivity. Qed.

(* the presentation name pwdChangedTime is mapped to a name other than the one the table gives it, so it can
   never be selected; objectClass, for comparison, is mapped as the table says *)
Example C41_witness_refuted_attr_map :
  ldap_attr_map (s "pwdChangedTime") = s "pwdchangedtime" /\
  spec_attr_map (s "pwdChangedTime") = s "pwd_changed_time" /\
  ldap_attr_map (s "objectClass") = s "class" /\ spec_attr_map (s "objectClass") = s "class".
Proof. vm_compute. repeat split; reflexivity. Qed.

(* the translator with the fix: the two SCIM deviation classes are refused, everything else
   (here wf2: gt on the single-valued uuid, le on the multi-valued member) is still accepted, so
   C41_scim_fixed_full is not vacuous *)
Example C41_witness_scim_fixed :
  from_scim_gen true wsch wpop 12 32 (SCmp OGt (s "member") false (JStr (s "ab"))) = Err EFilterGeneration /\
  from_scim_gen true wsch wpop 12 32 (SCmp OGe (s "member") false (JStr (s "ab"))) = Err EFilterGeneration /\
  from_scim_gen true wsch wpop 12 32 (SCmp OLt (s "name") false (JStr (s "ab"))) = Err EFilterGeneration /\
  from_scim_gen true wsch wpop 12 32 (SCmp OLe (s "displayname") false (JStr (s "ab"))) = Err EFilterGeneration /\
  from_scim_gen true wsch wpop 12 32 wf2 = from_scim_gen false wsch wpop 12 32 wf2 /\
  (exists g l, from_scim_gen true wsch wpop 12 32 wf2 = Ok (g, l) /\ fvalid wsch g = true /\
               fmatch wsch w_ab g = true /\ fmatch wsch w_gone g = false /\
               fmatch wsch [(s "name", [VS (s "on")]); (s "uuid", [VN 500])] g = false).
Proof.
  repeat (split; [vm_compute; reflexivity|]).
  eexists. eexists. split; [vm_compute; reflexivity|]. vm_compute. repeat split; reflexivity.
Qed.

(* hypotheses of C41_ldap_substring_superset: a three-part assertion the standard evaluates to
   TRUE on "aba" (a, then b, then a, in order and disjoint) *)
Example C41_witness_substring_superset :
  let f := LSub (s "name") (Some (s "a")) [s "b"] (Some (s "A")) in
  (exists g l, from_ldap wsch wpop 12 32 f = Ok (g, l) /\ fmatch wsch w_aba g = true) /\
  ldap_sem wsch wpop w_aba f = TT /\ ldap_sem wsch wpop w_ab f = FF.
Proof.
  split.
  - eexists. eexists. split; vm_compute; reflexivity.
  - vm_compute. split; reflexivity.
Qed.
