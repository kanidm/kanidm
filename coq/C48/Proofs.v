(* Two threads run through moc, batch, run_phases, delete_one, mig16: an entry whose uuid no definition names
   comes out as it went in (moc_other ... mig16_user), and a definition asserted in a complete run ends up
   [present] (moc_present ... mig16_builtin).  The file ends with the miniature instance on which Props.v
   refutes the full statement. *)
From Coq Require Import List NArith Bool.
Import ListNotations.
Require Import KV.C48.Model.
Open Scope N_scope.


Lemma vmem_In : forall x l, vmem x l = true <-> In x l.
Proof.
  intros x l. unfold vmem. rewrite existsb_exists. split.
  - intros [y [Hy He]]. apply N.eqb_eq in He. subst. exact Hy.
  - intros H. exists x. split; [exact H | apply N.eqb_refl].
Qed.

Lemma In_vins : forall x y l, In x (vins y l) <-> In x (y :: l).
Proof.
  intros x y l. induction l as [|z r IH]; cbn [vins]; [reflexivity|].
  destruct (y <? z); [reflexivity|]. destruct (N.eqb_spec y z) as [->|].
  - cbn [In]. tauto.
  - cbn [In] in *. rewrite IH. tauto.
Qed.

Lemma In_vunion : forall x a b, In x (vunion a b) <-> In x a \/ In x b.
Proof.
  intros x a b. unfold vunion. induction b as [|y r IH]; cbn [fold_right].
  - cbn [In]. tauto.
  - rewrite In_vins. cbn [In]. rewrite IH. tauto.
Qed.

(* [get] tests [fst p =? a]; the equations say [a =? key], the way round the theorems' hypotheses have it *)
Lemma get_cons : forall a p m, get a (p :: m) = if a =? fst p then snd p else get a m.
Proof. intros a p m. unfold get. cbn [find]. rewrite (N.eqb_sym a). destruct (fst p =? a); reflexivity. Qed.

Lemma get_del : forall a k m, get a (del k m) = if a =? k then [] else get a m.
Proof.
  intros a k m. induction m as [|p r IH]; [destruct (a =? k); reflexivity|].
  unfold del in *. cbn [filter]. rewrite get_cons.
  destruct (N.eqb_spec (fst p) k) as [<-|Hk]; cbn [negb].
  - rewrite IH. destruct (a =? fst p); reflexivity.
  - rewrite get_cons, IH. destruct (N.eqb_spec a (fst p)) as [->|]; [|reflexivity].
    rewrite (proj2 (N.eqb_neq _ _) Hk). reflexivity.
Qed.

Lemma get_del_other : forall a k m, a <> k -> get a (del k m) = get a m.
Proof. intros a k m H. rewrite get_del, (proj2 (N.eqb_neq a k) H). reflexivity. Qed.

Lemma keys_del : forall k m, map fst (del k m) = filter (fun a => negb (a =? k)) (map fst m).
Proof.
  intros k m. induction m as [|p r IH]; [reflexivity|].
  unfold del in *. cbn [filter map]. destruct (negb (fst p =? k)); cbn [map]; rewrite IH; reflexivity.
Qed.

Lemma key_del_In : forall a k m, In a (map fst (del k m)) -> In a (map fst m) /\ a <> k.
Proof.
  intros a k m H. rewrite keys_del in H. apply filter_In in H. destruct H as [H E].
  split; [exact H|]. intros ->. rewrite N.eqb_refl in E. discriminate.
Qed.

Lemma NoDup_keys_del : forall k m, NoDup (map fst m) -> NoDup (map fst (del k m)).
Proof. intros k m H. rewrite keys_del. apply NoDup_filter. exact H. Qed.

(* [ains] inserts in front of the first larger key: an older binding of k would shadow the new one *)
Lemma get_ains : forall a k vs m, ~ In k (map fst m) ->
  get a (ains k vs m) = if a =? k then vs else get a m.
Proof.
  intros a k vs m. induction m as [|p r IH]; intros Hn; cbn [ains].
  - exact (get_cons a (k, vs) []).
  - destruct (k <? fst p); [exact (get_cons a (k, vs) (p :: r))|].
    rewrite !get_cons, IH by (intros Hi; apply Hn; right; exact Hi).
    destruct (N.eqb_spec a (fst p)) as [->|]; [|reflexivity].
    destruct (N.eqb_spec (fst p) k) as [E|]; [|reflexivity]. exfalso. apply Hn. left. exact E.
Qed.

Lemma get_set : forall a k vs m, get a (set k vs m) = if a =? k then vs else get a m.
Proof.
  intros a k vs m. unfold set. destruct vs as [|v r]; [apply get_del|].
  rewrite get_ains by (intros H; exact (proj2 (key_del_In k k m H) eq_refl)).
  rewrite get_del. destruct (a =? k); reflexivity.
Qed.

Lemma get_set_same : forall a vs m, get a (set a vs m) = vs.
Proof. intros a vs m. rewrite get_set, N.eqb_refl. reflexivity. Qed.

Lemma get_set_other : forall a k vs m, a <> k -> get a (set k vs m) = get a m.
Proof. intros a k vs m H. rewrite get_set, (proj2 (N.eqb_neq a k) H). reflexivity. Qed.

Lemma get_not_key : forall a m, ~ In a (map fst m) -> get a m = [].
Proof.
  intros a m. induction m as [|p r IH]; intros H; [reflexivity|].
  rewrite get_cons. destruct (N.eqb_spec a (fst p)) as [E|].
  - exfalso. apply H. left. symmetry. exact E.
  - apply IH. intros Hi. apply H. right. exact Hi.
Qed.

Lemma get_In_key : forall a m, NoDup (map fst m) -> forall vs, In (a, vs) m -> get a m = vs.
Proof.
  intros a m. induction m as [|p r IH]; intros Hnd vs Hin; [destruct Hin|].
  cbn [map] in Hnd. inversion Hnd as [|x l Hn Hd]; subst.
  rewrite get_cons. destruct Hin as [->|Hin].
  - cbn [fst snd]. rewrite N.eqb_refl. reflexivity.
  - destruct (N.eqb_spec a (fst p)) as [E|]; [|apply IH; assumption].
    exfalso. apply Hn. rewrite <- E. exact (in_map fst r (a, vs) Hin).
Qed.

Lemma assert_attr_other : forall c cur k vs a, a <> k -> get a (assert_attr c cur (k, vs)) = get a cur.
Proof.
  intros c cur k vs a Hne. unfold assert_attr.
  destruct (vmem k (single c) || purge_first k); apply get_set_other; exact Hne.
Qed.

Lemma assert_attr_same : forall c cur k vs, incl vs (get k (assert_attr c cur (k, vs))).
Proof.
  intros c cur k vs. unfold assert_attr.
  destruct (vmem k (single c) || purge_first k); rewrite get_set_same.
  - apply incl_refl.
  - intros x Hx. apply In_vunion. right. exact Hx.
Qed.

Lemma assert_mods_other : forall c want cur a, ~ In a (map fst want) ->
  get a (assert_mods c want cur) = get a cur.
Proof.
  intros c want. unfold assert_mods. induction want as [|[k vs] r IH]; intros cur a Hn; [reflexivity|].
  cbn [fold_left]. rewrite IH.
  - apply assert_attr_other. intros ->. apply Hn. left. reflexivity.
  - intros Hi. apply Hn. right. exact Hi.
Qed.

(* with distinct keys no later modification touches what an earlier one asserted *)
Lemma assert_mods_covers : forall c want cur k, NoDup (map fst want) ->
  incl (get k want) (get k (assert_mods c want cur)).
Proof.
  intros c want cur k. revert cur. induction want as [|[k0 vs0] r IH]; intros cur Hnd; [intros v []|].
  cbn [map fst] in Hnd. inversion Hnd as [|x l Hn Hd]; subst.
  rewrite get_cons. cbn [fst snd]. destruct (N.eqb_spec k k0) as [->|].
  - change (assert_mods c ((k0, vs0) :: r) cur) with (assert_mods c r (assert_attr c cur (k0, vs0))).
    rewrite assert_mods_other by exact Hn. apply assert_attr_same.
  - apply IH. exact Hd.
Qed.

Lemma In_ins_entry : forall x e d, In x (ins_entry e d) <-> In x (e :: d).
Proof.
  intros x e d. induction d as [|y r IH]; cbn [ins_entry]; [reflexivity|].
  destruct (eu e <? eu y); [reflexivity|]. cbn [In] in *. rewrite IH. tauto.
Qed.

Lemma In_map_at : forall u (F : entry -> entry) d x,
  (forall y, eu y = u -> eu (F y) = u) -> eu x <> u ->
  (In x (map (fun e => if (eu e =? u) && elive e then F e else e) d) <-> In x d).
Proof.
  intros u F d x HF Hne. rewrite in_map_iff. split.
  - intros [y [Hy Hin]]. destruct ((eu y =? u) && elive y) eqn:E; [|subst; exact Hin].
    apply andb_true_iff in E. destruct E as [E _]. apply N.eqb_eq in E. subst x. destruct (Hne (HF y E)).
  - intros Hin. exists x. split; [|exact Hin]. rewrite (proj2 (N.eqb_neq _ _) Hne). reflexivity.
Qed.

Lemma In_upd_other : forall x e' d, eu x <> eu e' -> (In x (upd e' d) <-> In x d).
Proof. intros x e' d. exact (In_map_at (eu e') (fun _ => e') d x (fun _ _ => eq_refl)). Qed.

Lemma set_version_other : forall c v d x, eu x <> u_dom c -> (In x (set_version c v d) <-> In x d).
Proof.
  intros c v d x.
  exact (In_map_at (u_dom c) (fun e => mkE (eu e) true (set A_VERSION [v] (eav e))) d x (fun _ E => E)).
Qed.

Lemma set_version_uuids : forall c v d x, In x (set_version c v d) -> exists y, In y d /\ eu y = eu x.
Proof.
  intros c v d x H. unfold set_version in H. apply in_map_iff in H. destruct H as [y [Hy Hin]].
  exists y. split; [exact Hin|]. destruct ((eu y =? u_dom c) && elive y); subst; reflexivity.
Qed.

Lemma find_live_some : forall u d e, find_live u d = Some e -> In e d /\ eu e = u /\ elive e = true.
Proof.
  intros u d e H. unfold find_live in H. apply find_some in H. destruct H as [Hin H].
  apply andb_true_iff in H. destruct H as [H1 H2]. apply N.eqb_eq in H1. tauto.
Qed.

Lemma find_live_none : forall u d, (forall x, In x d -> eu x <> u) -> find_live u d = None.
Proof.
  intros u d H. destruct (find_live u d) as [e|] eqn:E; [|reflexivity].
  apply find_live_some in E. destruct E as [Hin [E _]]. destruct (H e Hin E).
Qed.

Lemma moc_other : forall c d b d', moc c d b = Some d' ->
  forall x, eu x <> bu b -> (In x d' <-> In x d).
Proof.
  intros c d b d' H x Hne. unfold moc in H. destruct (find_live (bu b) d) as [e|].
  - destruct (uclash c (bu b) _ d); [discriminate|]. injection H as <-.
    apply In_upd_other. exact Hne.
  - destruct (exists_any (bu b) d || uclash c (bu b) _ d); [discriminate|]. injection H as <-.
    rewrite In_ins_entry. split; [|intros Hi; right; exact Hi]. intros [<-|Hi]; [destruct (Hne eq_refl) | exact Hi].
Qed.

Lemma moc_keeps_entry : forall c d b d' e, moc c d b = Some d' -> In e d -> eu e <> bu b -> In e d'.
Proof. intros c d b d' e H Hin Hne. apply (moc_other c d b d' H e Hne). exact Hin. Qed.

Lemma batch_other : forall c bs d d' ok, batch c d bs = (d', ok) ->
  forall x, ~ In (eu x) (map bu bs) -> (In x d' <-> In x d).
Proof.
  intros c bs. induction bs as [|b r IH]; intros d d' ok H x Hn; cbn [batch] in H.
  - inversion H; subst. tauto.
  - destruct (moc c d b) as [d1|] eqn:E.
    + rewrite (IH d1 d' ok H x).
      * apply (moc_other c d b d1 E). intros Heq. apply Hn. left. symmetry. exact Heq.
      * intros Hi. apply Hn. right. exact Hi.
    + inversion H; subst. tauto.
Qed.

Lemma phase_defs_bu : forall p defs u, In u (map bu (phase_defs p defs)) -> In u (map bu defs).
Proof.
  intros p defs u H. apply in_map_iff in H. destruct H as [b [Hb Hin]].
  unfold phase_defs in Hin. apply filter_In in Hin. apply in_map_iff. exists b. tauto.
Qed.

(* on the database alone: a release build goes on after a failed batch exactly as after a complete one *)
Lemma run_phases_other : forall c defs ps d d', fst (run_phases c defs ps d) = Some d' ->
  forall x, ~ In (eu x) (map bu defs) -> (In x d' <-> In x d).
Proof.
  intros c defs ps. induction ps as [|p r IH]; intros d d' H x Hn; cbn [run_phases] in H.
  - inversion H; subst. tauto.
  - destruct (batch c d (phase_defs p defs)) as [d1 ok1] eqn:E.
    rewrite <- (batch_other c _ d d1 ok1 E x) by (intros Hi; apply Hn; eapply phase_defs_bu; exact Hi).
    apply IH; [|exact Hn]. destruct ok1; [exact H|]. destruct (dbg c); [discriminate H | exact H].
Qed.

Lemma fold_left_inv : forall (A B : Type) (f : A -> B -> A) (P : A -> Prop) l a,
  (forall a b, In b l -> P a -> P (f a b)) -> P a -> P (fold_left f l a).
Proof.
  intros A B f P l. induction l as [|b r IH]; intros a Hs Ha; [exact Ha|].
  cbn [fold_left]. apply IH.
  - intros a' b' Hb. apply Hs. right. exact Hb.
  - apply Hs; [left; reflexivity | exact Ha].
Qed.

Lemma strip_noref : forall c u dels m, In u dels -> noref c dels m = true -> strip c u m = m.
Proof.
  intros c u dels m Hu. unfold strip, noref. induction m as [|p r IH]; intros H; [reflexivity|].
  cbn [forallb] in H. apply andb_true_iff in H. destruct H as [H1 H2].
  cbn [flat_map]. rewrite (IH H2). unfold strip1.
  destruct (vmem (fst p) (refa c)) eqn:E; cbn [negb orb andb] in *; [|reflexivity].
  rewrite forallb_forall in H1. specialize (H1 u Hu). apply negb_true_iff in H1. rewrite H1. reflexivity.
Qed.

Lemma delete_one_keeps : forall c dels d u x, In u dels -> In x d -> eu x <> u ->
  noref c dels (eav x) = true -> In x (delete_one c d u).
Proof.
  intros c dels d u x Hu Hin Hne Hnr. unfold delete_one. destruct (find_live u d); [|exact Hin].
  apply in_map_iff. exists x. split; [|exact Hin].
  rewrite (proj2 (N.eqb_neq _ _) Hne), (strip_noref c u dels (eav x) Hu Hnr).
  destruct x as [xu [|] xa]; reflexivity.
Qed.

Lemma deletes_keep : forall c dels d x, In x d -> ~ In (eu x) dels ->
  noref c dels (eav x) = true -> In x (fold_left (delete_one c) dels d).
Proof.
  intros c dels d x Hin Hn Hnr. apply fold_left_inv; [|exact Hin].
  intros d1 u Hu H1. apply (delete_one_keeps c dels); [exact Hu | exact H1 | | exact Hnr].
  intros E. apply Hn. rewrite E. exact Hu.
Qed.

Lemma get_strip_incl : forall c u a m v, In v (get a m) -> v <> u -> In v (get a (strip c u m)).
Proof.
  intros c u a m v. unfold strip. induction m as [|p r IH]; intros Hin Hne; [exact Hin|].
  rewrite get_cons in Hin. cbn [flat_map]. unfold strip1 at 1.
  destruct (vmem (fst p) (refa c) && vmem u (snd p)).
  - destruct (a =? fst p) eqn:E.
    + assert (Hv : In v (vrem u (snd p))).
      { unfold vrem. apply filter_In. split; [exact Hin|]. apply negb_true_iff. apply N.eqb_neq. congruence. }
      destruct (vrem u (snd p)) as [|w ws] eqn:Er; [destruct Hv|].
      cbn [app]. rewrite get_cons. cbn [fst snd]. rewrite E. exact Hv.
    + destruct (vrem u (snd p)) as [|w ws]; cbn [app].
      * apply IH; assumption.
      * rewrite get_cons. cbn [fst]. rewrite E. apply IH; assumption.
  - cbn [app]. rewrite get_cons. destruct (a =? fst p); [exact Hin | apply IH; assumption].
Qed.

Lemma delete_one_entry : forall c d u e, In e d -> eu e <> u -> elive e = true ->
  exists e', In e' (delete_one c d u) /\ eu e' = eu e /\ elive e' = true /\
             (forall a v, In v (get a (eav e)) -> v <> u -> In v (get a (eav e'))).
Proof.
  intros c d u e Hin Hne Hl. unfold delete_one. destruct (find_live u d).
  - exists (mkE (eu e) true (strip c u (eav e))). split; [|split; [reflexivity | split; [reflexivity|]]].
    + apply in_map_iff. exists e. split; [|exact Hin].
      rewrite (proj2 (N.eqb_neq _ _) Hne), Hl. reflexivity.
    + intros a v Hva Hvu. cbn [eav]. apply get_strip_incl; assumption.
  - exists e. tauto.
Qed.

(* on an existing entry the migration asserts every attribute of the definition but the two it ignores
   there; on an entry it creates, every attribute, and member_create_once lands in member *)
Definition asserted (b : bdef) (m : avs) : Prop :=
  forall a, a <> A_MCO -> a <> A_CTM -> incl (get a (bav b)) (get a m).
Definition created (b : bdef) (m : avs) : Prop :=
  (forall a, a <> A_MCO -> incl (get a (bav b)) (get a m)) /\
  incl (get A_MCO (bav b)) (get A_MEMBER m).

(* no entry of that uuid at all, live or recycled ([builtin_present] calls fresh a uuid without a LIVE entry:
   over a recycled entry of the uuid [moc] refuses to create, [exists_any], and the run is not complete) *)
Definition fresh (d : db) (u : uuid) : Prop := forall x, In x d -> eu x <> u.

Definition present (d0 d' : db) (b : bdef) : Prop :=
  exists e', In e' d' /\ eu e' = bu b /\ elive e' = true /\ asserted b (eav e') /\
             (fresh d0 (bu b) -> created b (eav e')).

Lemma present_later : forall d0 d1 d2 b,
  (forall e, In e d1 -> eu e = bu b -> In e d2) -> present d0 d1 b -> present d0 d2 b.
Proof.
  intros d0 d1 d2 b Hk [e [H1 [H2 H]]]. exists e. split; [exact (Hk e H1 H2) | exact (conj H2 H)].
Qed.

Lemma present_fresh : forall d0 d0' d' b,
  (fresh d0' (bu b) -> fresh d0 (bu b)) -> present d0 d' b -> present d0' d' b.
Proof.
  intros d0 d0' d' b Hf [e [H1 [H2 [H3 [H4 H5]]]]]. exists e.
  repeat (split; [assumption|]). intros F. exact (H5 (Hf F)).
Qed.

Lemma create_avs_keeps : forall c m a, a <> A_MCO -> incl (get a m) (get a (create_avs c m)).
Proof.
  intros c m a Ha v Hv. unfold create_avs. cbv zeta.
  set (b2 := match get A_MCO m with [] => _ | _ :: _ => _ end).
  assert (H2 : In v (get a b2)).
  { unfold b2. destruct (get A_MCO m) as [|w ws].
    - rewrite get_del_other by exact Ha. exact Hv.
    - rewrite get_set. destruct (N.eqb_spec a A_MEMBER) as [->|]; [apply In_vunion; left|];
        rewrite get_del_other by exact Ha; exact Hv. }
  rewrite get_set. destruct (N.eqb_spec a A_CLASS) as [->|]; [apply In_vins; right|]; exact H2.
Qed.

Lemma create_avs_mco : forall c m, incl (get A_MCO m) (get A_MEMBER (create_avs c m)).
Proof.
  intros c m v Hv. unfold create_avs. rewrite get_set_other by discriminate.
  destruct (get A_MCO m) as [|w ws]; [destruct Hv|].
  rewrite get_set_same. apply In_vunion. right. exact Hv.
Qed.

Lemma assert_asserted : forall c b cur, NoDup (map fst (bav b)) ->
  asserted b (assert_mods c (del A_CTM (del A_MCO (bav b))) cur).
Proof.
  intros c b cur Hnd a H1 H2.
  rewrite <- (get_del_other a A_MCO (bav b) H1), <- (get_del_other a A_CTM _ H2).
  apply assert_mods_covers. apply NoDup_keys_del, NoDup_keys_del. exact Hnd.
Qed.

Lemma moc_present : forall c d b d', moc c d b = Some d' -> NoDup (map fst (bav b)) -> present d d' b.
Proof.
  intros c d b d' H Hnd. unfold moc in H. destruct (find_live (bu b) d) as [e|] eqn:Ef.
  - destruct (uclash c (bu b) _ d); [discriminate|]. injection H as <-.
    apply find_live_some in Ef. destruct Ef as [Hin [Hu Hl]].
    exists (mkE (bu b) true (assert_mods c (del A_CTM (del A_MCO (bav b))) (eav e))).
    split; [|split; [reflexivity | split; [reflexivity | split]]].
    + unfold upd. apply in_map_iff. exists e. split; [|exact Hin]. cbn [eu].
      rewrite Hu, N.eqb_refl, Hl. reflexivity.
    + apply assert_asserted. exact Hnd.
    + intros F. destruct (F e Hin Hu).
  - destruct (exists_any (bu b) d || uclash c (bu b) _ d); [discriminate|]. injection H as <-.
    exists (mkE (bu b) true (create_avs c (bav b))).
    split; [apply In_ins_entry; left; reflexivity|]. split; [reflexivity|]. split; [reflexivity|].
    assert (Hc : created b (create_avs c (bav b))).
    { split; [intros a Ha; apply create_avs_keeps; exact Ha | apply create_avs_mco]. }
    split; [|intros _; exact Hc]. intros a Ha _. exact (proj1 Hc a Ha).
Qed.

Lemma batch_present : forall c bs d d', batch c d bs = (d', true) -> NoDup (map bu bs) ->
  (forall b, In b bs -> NoDup (map fst (bav b))) ->
  forall b, In b bs -> present d d' b.
Proof.
  intros c bs. induction bs as [|b0 r IH]; intros d d' H Hnd Hwf b Hin; [destruct Hin|].
  cbn [batch] in H. destruct (moc c d b0) as [d1|] eqn:E; [|discriminate].
  cbn [map] in Hnd. inversion Hnd as [|x l Hn Hd]; subst.
  destruct Hin as [->|Hin].
  - (* asserted now, and the rest of the batch is about other uuids *)
    apply (present_later d d1); [|exact (moc_present c d b d1 E (Hwf b (or_introl eq_refl)))].
    intros e He Hu. apply (batch_other c r d1 d' true H e); [rewrite Hu; exact Hn | exact He].
  - (* asserted later; b0 is another uuid, so it has not made bu b any less fresh *)
    apply (present_fresh d1); [|exact (IH d1 d' H Hd (fun q Hq => Hwf q (or_intror Hq)) b Hin)].
    intros F y Hy Ey. apply (F y); [|exact Ey]. apply (moc_other c d b0 d1 E y); [|exact Hy].
    rewrite Ey. intros Eq. apply Hn. rewrite <- Eq. apply in_map. exact Hin.
Qed.

Lemma delete_one_present : forall c d0 d u b, present d0 d b -> bu b <> u ->
  (forall a, ~ In u (get a (bav b))) -> present d0 (delete_one c d u) b.
Proof.
  intros c d0 d u b [e1 [H1 [H2 [H3 [H4 H5]]]]] Hne W.
  destruct (delete_one_entry c d u e1 H1) as [e2 [G1 [G2 [G3 G4]]]]; [rewrite H2; exact Hne | exact H3 |].
  assert (K : forall a a', incl (get a (bav b)) (get a' (eav e1)) -> incl (get a (bav b)) (get a' (eav e2))).
  { intros a a' Hi v Hv. apply G4; [exact (Hi v Hv)|]. intros ->. exact (W a Hv). }
  exists e2. split; [exact G1|]. split; [congruence|]. split; [exact G3|]. split.
  - intros a Ha1 Ha2. exact (K a a (H4 a Ha1 Ha2)).
  - intros F. destruct (H5 F) as [F1 F2]. split; [intros a Ha; exact (K a a (F1 a Ha)) | exact (K _ _ F2)].
Qed.

Lemma batch_app : forall c l1 l2 d, batch c d (l1 ++ l2) =
  let '(d1, ok) := batch c d l1 in if ok then batch c d1 l2 else (d1, false).
Proof.
  intros c l1. induction l1 as [|b r IH]; intros l2 d; cbn [batch app].
  - destruct (batch c d l2); reflexivity.
  - destruct (moc c d b) as [d1|]; [apply IH | reflexivity].
Qed.

Lemma run_phases_batch : forall c defs ps d d', run_phases c defs ps d = (Some d', true) ->
  batch c d (flat_map (fun p => phase_defs p defs) ps) = (d', true).
Proof.
  intros c defs ps. induction ps as [|p r IH]; intros d d' H; cbn [run_phases flat_map] in *.
  - inversion H; subst. reflexivity.
  - rewrite batch_app. destruct (batch c d (phase_defs p defs)) as [d1 ok1]. destruct ok1.
    + apply IH. exact H.
    + destruct (dbg c); [discriminate|]. destruct (run_phases c defs r d1). cbn [fst] in H. inversion H.
Qed.

Lemma in_all_seq : forall defs b, In b defs -> In (bphase b) PHASES -> In b (all_seq defs).
Proof.
  intros defs b Hin Hp. unfold all_seq. apply in_flat_map. exists (bphase b). split; [exact Hp|].
  unfold phase_defs. apply filter_In. split; [exact Hin | apply N.eqb_refl].
Qed.

Lemma all_seq_in : forall defs b, In b (all_seq defs) -> In b defs.
Proof.
  intros defs b H. unfold all_seq in H. apply in_flat_map in H. destruct H as [p [_ H]].
  unfold phase_defs in H. apply filter_In in H. tauto.
Qed.

Definition defs_wf (defs : list bdef) (dels : list uuid) : Prop :=
  NoDup (map bu (all_seq defs)) /\
  (forall b, In b defs -> NoDup (map fst (bav b))) /\
  (forall b a u, In b defs -> In u dels -> ~ In u (get a (bav b))).

Lemma mig16_builtin : forall c defs dels d d', mig16 c defs dels d = (OOk, d', true) ->
  defs_wf defs dels ->
  forall b, In b defs -> In (bphase b) PHASES -> ~ In (bu b) dels -> present d d' b.
Proof.
  intros c defs dels d d' H [W1 [W2 W3]] b Hin Hp Hnd. unfold mig16 in H.
  destruct (run_phases c defs PHASES d) as [[d1|] ok1] eqn:E; [|inversion H].
  inversion H; subst. clear H.
  apply fold_left_inv.
  { intros d2 u Hu Hd2. apply delete_one_present; [exact Hd2 | | intros a; exact (W3 b a u Hin Hu)].
    intros Eu. apply Hnd. rewrite Eu. exact Hu. }
  apply run_phases_batch in E.
  exact (batch_present c (all_seq defs) d d1 E W1 (fun q Hq => W2 q (all_seq_in defs q Hq)) b
           (in_all_seq defs b Hin Hp)).
Qed.

Lemma mig16_user : forall c defs dels d o d' ok e, mig16 c defs dels d = (o, d', ok) ->
  In e d -> ~ In (eu e) (map bu defs) -> ~ In (eu e) dels -> noref c dels (eav e) = true -> In e d'.
Proof.
  intros c defs dels d o d' ok e H Hin U1 U2 U3. unfold mig16 in H.
  destruct (run_phases c defs PHASES d) as [[d1|] ok1] eqn:E.
  - inversion H; subst. apply deletes_keep; [|exact U2 | exact U3].
    apply (run_phases_other c defs PHASES d d1); [rewrite E; reflexivity | exact U1 | exact Hin].
  - inversion H; subst. exact Hin.
Qed.

Lemma reload_version_inv : forall c defs dels p n d o d' ok,
  reload_version c defs dels p n d = (o, d', ok) -> d' = d \/ mig16 c defs dels d = (o, d', ok).
Proof.
  intros c defs dels p n d o d' ok H. unfold reload_version in H.
  destruct (p =? n), (p <? min_remig c), (p <? DL_1_11), (DL_1_13 <=? n), ((p <=? DL_1_11) && (DL_1_12 <=? n));
    try (left; congruence).
  right. exact H.
Qed.

(* everything runs in one write transaction: the database changes only if the outcome is OOk *)
Lemma init_helper_inv : forall c defs dels cur tgt vtgt d o d' ok,
  init_helper c defs dels cur tgt vtgt d = (o, d', ok) ->
  d' = d \/
  o = OOk /\ exists d0, (d0 = d \/ d0 = set_version c vtgt d) /\
                        (d' = d0 \/ mig16 c defs dels d0 = (OOk, d', ok)).
Proof.
  intros c defs dels cur tgt vtgt d o d' ok H. unfold init_helper in H. set (G := d' = d \/ _).
  assert (K : forall p n d0, d0 = d \/ d0 = set_version c vtgt d ->
              match reload_version c defs dels p n d0 with
              | (OOk, d2, ok) => (OOk, d2, ok)
              | (o, _, _) => (o, d, false)
              end = (o, d', ok) -> G).
  { intros p n d0 Hd0 H0. destruct (reload_version c defs dels p n d0) as [[o2 d2] ok2] eqn:E.
    destruct o2; try (left; congruence). inversion H0; subst.
    right. split; [reflexivity|]. exists d0. split; [exact Hd0|].
    exact (reload_version_inv c defs dels p n d0 OOk d' ok E). }
  destruct (cur <? tgt).
  - destruct (cur <? from_min c); [left; congruence|].
    destruct (negb (tgt =? cur + 1)); [left; congruence|].
    exact (K _ _ _ (or_intror eq_refl) H).
  - destruct (tgt <? cur); [left; congruence|].
    destruct (devel c && (prev_tgt c <=? cur)); [|left; congruence].
    exact (K _ _ _ (or_introl eq_refl) H).
Qed.

Definition cfg_ok (c : cfg) : Prop := from_min c <= DL_1_11 /\ min_remig c <= DL_1_11.

(* once the two configurable tests are decided every other test is between constants *)
Lemma upgrade_is_mig16 : forall c defs dels vtgt d, cfg_ok c ->
  init_helper c defs dels DL_1_11 DL_1_12 vtgt d =
  match mig16 c defs dels (set_version c vtgt d) with
  | (OOk, d2, ok) => (OOk, d2, ok)
  | (o, _, _) => (o, d, false)
  end.
Proof.
  intros c defs dels vtgt d [H1 H2]. apply N.ltb_ge in H1, H2.
  unfold init_helper, reload_version. rewrite H1, H2. reflexivity.
Qed.

Lemma get_version_set : forall v m, get A_VERSION (set A_VERSION [v] m) = [v].
Proof. intros v m. apply get_set_same. Qed.

Lemma list_eqb_eq : forall A (f : A -> A -> bool), (forall x y, f x y = true -> x = y) ->
  forall l1 l2, list_eqb f l1 l2 = true -> l1 = l2.
Proof.
  intros A f Hf l1. induction l1 as [|a r IH]; intros [|b s] H; cbn [list_eqb] in H; try discriminate; [reflexivity|].
  apply andb_true_iff in H. destruct H as [H1 H2]. rewrite (Hf a b H1), (IH s H2). reflexivity.
Qed.

Lemma avs_eqb_eq : forall x y, avs_eqb x y = true -> x = y.
Proof.
  apply list_eqb_eq. intros [a vs] [b ws] H. cbn [fst snd] in H.
  apply andb_true_iff in H. destruct H as [H1 H2]. apply N.eqb_eq in H1.
  apply (list_eqb_eq N N.eqb) in H2; [subst; reflexivity|]. intros p q. apply N.eqb_eq.
Qed.

Lemma entry_eqb_eq : forall x y, entry_eqb x y = true -> x = y.
Proof.
  intros [a b c] [a' b' c'] H. unfold entry_eqb in H. cbn [eu elive eav] in H.
  apply andb_true_iff in H. destruct H as [H H3]. apply andb_true_iff in H. destruct H as [H1 H2].
  apply N.eqb_eq in H1. apply Bool.eqb_prop in H2. apply avs_eqb_eq in H3. subst. reflexivity.
Qed.

Lemma agree_hist : forall c defs dels cur tgt vtgt users before oc after vb va,
  agree (CHist c defs dels cur tgt vtgt users before oc after vb va) = true ->
  exists o ok, init_helper c defs dels cur tgt vtgt (map forget before) = (o, map forget after, ok) /\
               ocode o = oc.
Proof.
  intros c defs dels cur tgt vtgt users before oc after vb va H. cbn [agree] in H.
  destruct (init_helper c defs dels cur tgt vtgt (map forget before)) as [[o d'] ok].
  apply andb_true_iff in H. destruct H as [Ho H]. apply N.eqb_eq in Ho.
  apply (list_eqb_eq entry entry_eqb entry_eqb_eq) in H. subst d'.
  exists o, ok. split; [reflexivity | exact Ho].
Qed.

(* the defect, a name collision, on a miniature instance: the domain entry, one definition that already
   exists (uuid 20), one that is new at the target level (uuid 30, name value 77); the database holds a
   USER group (uuid 1000) whose name is 77.
   w_cfg: single-valued = name (1), version (5); unique = name; reference = member (2); builtin = class
   value 9; domain entry = uuid 10; from_min 15, min_remig 14, prev_tgt 15; development taint set *)
Definition w_cfg (debug : bool) : cfg := mkCfg [1; 5] [1] [2] debug 9 10 15 14 15 true.
Definition w_defs : list bdef :=
  [ mkB 4 10 [(0, [50]); (1, [70])];
    mkB 4 30 [(0, [51]); (1, [77])];
    mkB 6 20 [(0, [52]); (1, [71]); (2, [10]); (3, [30])] ].
Definition w_db_collide : db :=
  [ mkE 10 true [(0, [9; 50]); (1, [70]); (5, [15])];
    mkE 20 true [(0, [9; 52]); (1, [71]); (2, [1000])];
    mkE 1000 true [(0, [53]); (1, [77])] ].
Definition w_db_fine : db :=
  [ mkE 10 true [(0, [9; 50]); (1, [70]); (5, [15])];
    mkE 20 true [(0, [9; 52]); (1, [71]); (2, [1000])];
    mkE 1000 true [(0, [53]); (1, [78])] ].

Lemma w_cfg_ok : forall b, cfg_ok (w_cfg b).
Proof. intros b. split; vm_compute; discriminate. Qed.

Lemma w_defs_phases : forall b, In b w_defs -> In (bphase b) PHASES.
Proof. intros b [<-|[<-|[<-|[]]]]; vm_compute; tauto. Qed.

Lemma w_defs_wf : defs_wf w_defs [].
Proof.
  split; [|split].
  - vm_compute. repeat constructor; cbn; intuition discriminate.
  - intros b [<-|[<-|[<-|[]]]]; cbn; repeat constructor; cbn; intuition discriminate.
  - intros b a u _ [].
Qed.

Fixpoint nodupb (l : list N) : bool :=
  match l with [] => true | x :: r => negb (vmem x r) && nodupb r end.
Definition db_wfb (c : cfg) (d : db) : bool :=
  nodupb (map eu d) && forallb (fun x => negb (elive x) || negb (uclash c (eu x) (eav x) d)) d.
