(* Property C48: upgrading a database from the previous supported domain level to the current one,
   with arbitrary user content, succeeds, passes the consistency check, keeps every user-created
   entry with its user-set values, and leaves every built-in entry of the current level present
   with every value of its definition. *)
From Coq Require Import List NArith Bool.
Import ListNotations.
Require Import KV.C48.Model KV.C48.Proofs.
Open Scope N_scope.

(* USER DATA (full, every outcome, every level pair, debug and release builds).
   Whatever initialise_helper does — upgrade, development re-migration, refusal, panic — an entry
   that is not a built-in definition, is not on the delete list, does not reference a deleted uuid
   and is not the domain entry is in the resulting database exactly as it was: same liveness, same
   value for every attribute the model covers. *)
Theorem C48_user_preserved :
  forall c defs dels cur tgt vtgt d o d' ok e,
  init_helper c defs dels cur tgt vtgt d = (o, d', ok) ->
  In e d ->
  ~ In (eu e) (map bu defs) -> ~ In (eu e) dels -> noref c dels (eav e) = true -> eu e <> u_dom c ->
  In e d'.
Proof.
  intros c defs dels cur tgt vtgt d o d' ok e H Hin U1 U2 U3 Hdom.
  destruct (init_helper_inv c defs dels cur tgt vtgt d o d' ok H) as [->|[_ [d0 [Hd0 M]]]]; [exact Hin|].
  assert (Hin0 : In e d0).
  { destruct Hd0 as [->| ->]; [exact Hin | apply set_version_other; assumption]. }
  destruct M as [->|M]; [exact Hin0 | exact (mig16_user c defs dels d0 OOk d' ok e M Hin0 U1 U2 U3)].
Qed.

(* ALL OR NOTHING (full).  Any outcome other than success (refused skip, refused downgrade, error,
   debug-build panic) leaves the whole database as it was. *)
Theorem C48_failed_upgrade_changes_nothing :
  forall c defs dels cur tgt vtgt d o d' ok,
  init_helper c defs dels cur tgt vtgt d = (o, d', ok) -> o <> OOk -> d' = d.
Proof.
  intros c defs dels cur tgt vtgt d o d' ok H Hne.
  destruct (init_helper_inv c defs dels cur tgt vtgt d o d' ok H) as [E|[E _]]; [exact E | destruct (Hne E)].
Qed.

(* BUILT-INS (partial: conditional on [ok = true], i.e. on no built-in create/assert having been
   refused by the write path; that this is the case for collision-free content is NOT proved, only
   executed).  After a 1.11 -> 1.12 upgrade in which every batch completed, every definition of
   phases 3..7 that is not on the delete list has a LIVE entry that carries every value of the
   definition — except that on an entry that existed before, member_create_once and
   credential_type_minimum are not asserted (their documented meaning); on an entry the migration
   created they are (member_create_once as member).  Premises besides: cfg_ok (the two configurable
   level bounds admit the upgrade) and defs_wf (distinct uuids, distinct attribute keys per
   definition, no deleted uuid among a definition's values).
   The conclusion is [present d d' b] of Proofs.v, written out. *)
Theorem C48_builtin_present_if_complete_partial :
  forall c defs dels vtgt d d', cfg_ok c ->
  init_helper c defs dels DL_1_11 DL_1_12 vtgt d = (OOk, d', true) ->
  defs_wf defs dels ->
  forall b, In b defs -> In (bphase b) PHASES -> ~ In (bu b) dels ->
  exists e', In e' d' /\ eu e' = bu b /\ elive e' = true /\
    (forall a, a <> A_MCO -> a <> A_CTM -> incl (get a (bav b)) (get a (eav e'))) /\
    ((forall x, In x d -> eu x <> bu b) ->
       (forall a, a <> A_MCO -> incl (get a (bav b)) (get a (eav e'))) /\
       incl (get A_MCO (bav b)) (get A_MEMBER (eav e'))).
Proof.
  intros c defs dels vtgt d d' Hc H W b Hin Hp Hnd. change (present d d' b).
  rewrite (upgrade_is_mig16 c defs dels vtgt d Hc) in H.
  destruct (mig16 c defs dels (set_version c vtgt d)) as [[o d2] ok] eqn:E.
  destruct o; inversion H; subst.
  apply (present_fresh (set_version c vtgt d)); [|exact (mig16_builtin c defs dels _ d' E W b Hin Hp Hnd)].
  intros F x Hx. destruct (set_version_uuids c vtgt d x Hx) as [y [Hy1 Hy2]].
  rewrite <- Hy2. exact (F y Hy1).
Qed.

(* THE SUCCESS PART OF THE FULL STATEMENT.  The property is the conjunction of (a) user data kept =
   C48_user_preserved, (b) every definition present with its values = the conclusion of
   C48_builtin_present_if_complete_partial, (c) the consistency check passes (derived attributes:
   outside this model, checked on the implementation's output only) and (d) THE UPGRADE SUCCEEDS AND
   ASSERTS EVERY DEFINITION for every database that is itself consistent with respect to uuid and
   attribute uniqueness.  Only (d) is stated below, at full strength: it is the premise (b) needs. *)
Definition C48_full_statement : Prop :=
  forall c defs dels vtgt d, cfg_ok c -> defs_wf defs dels ->
  (forall b, In b defs -> In (bphase b) PHASES) ->
  db_wfb c d = true ->
  exists d', init_helper c defs dels DL_1_11 DL_1_12 vtgt d = (OOk, d', true).

(* It is FALSE for the code as it is: a user entry may hold the name of a built-in entry that is new
   at the target level (`account_signup_feature` on the real server).  Debug builds panic ... *)
Theorem C48_refuted : ~ C48_full_statement.
Proof.
  intros F. destruct (F (w_cfg true) w_defs [] 16 w_db_collide (w_cfg_ok true) w_defs_wf w_defs_phases eq_refl) as [d' H].
  vm_compute in H. discriminate H.
Qed.

(* ... and release builds swallow the error: the upgrade reports success and COMMITS a database at
   the new level in which the new built-in entry does not exist (and the rest of its batch was
   skipped). *)
Theorem C48_refuted_release :
  exists d', init_helper (w_cfg false) w_defs [] DL_1_11 DL_1_12 16 w_db_collide = (OOk, d', false) /\
             find_live 30 d' = None /\
             (exists e, find_live 10 d' = Some e /\ get A_VERSION (eav e) = [16]).
Proof. eexists. split; [vm_compute; reflexivity|]. split; [reflexivity|]. eexists. split; reflexivity. Qed.

(* Soundness of the run-time tie for the user-data part: whenever the implementation's dumps agree
   with the model, every dumped entry outside the definitions is found unchanged (liveness and the
   values of every attribute) in the implementation's own "after" dump. *)
Theorem C48_agree_transfers_user_preserved :
  forall c defs dels cur tgt vtgt users before oc after vb va,
  agree (CHist c defs dels cur tgt vtgt users before oc after vb va) = true ->
  forall x, In x before ->
  ~ In (du x) (map bu defs) -> ~ In (du x) dels -> noref c dels (eav (forget x)) = true -> du x <> u_dom c ->
  In (forget x) (map forget after).
Proof.
  intros c defs dels cur tgt vtgt users before oc after vb va H x Hin U1 U2 U3 Hdom.
  destruct (agree_hist c defs dels cur tgt vtgt users before oc after vb va H) as [o [ok [E _]]].
  exact (C48_user_preserved c defs dels cur tgt vtgt (map forget before) o (map forget after) ok (forget x) E
           (in_map forget before x Hin) U1 U2 U3 Hdom).
Qed.
