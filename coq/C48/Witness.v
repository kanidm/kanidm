(* Non-vacuity: concrete instances meeting the hypotheses of every implication theorem, and the
   refutation witnesses. *)
From Coq Require Import List NArith Bool.
Import ListNotations.
Require Import KV.C48.Model KV.C48.Proofs.
Open Scope N_scope.

(* a database with a user group (uuid 1000, member of built-in 20) upgrades: the new built-in 30 is
   created (tagged builtin = 9), the existing built-in 20 gets its default member 10 back and keeps
   the user's member 1000, member_create_once is NOT re-applied to it, the version is raised *)
Example C48_witness_upgrade_ok :
  init_helper (w_cfg true) w_defs [] DL_1_11 DL_1_12 16 w_db_fine =
  (OOk,
   [ mkE 10 true [(0, [9; 50]); (1, [70]); (5, [16])];
     mkE 20 true [(0, [9; 52]); (1, [71]); (2, [10; 1000])];
     mkE 30 true [(0, [9; 51]); (1, [77])];
     mkE 1000 true [(0, [53]); (1, [78])] ], true).
Proof. vm_compute. reflexivity. Qed.

(* hypotheses of C48_user_preserved / C48_builtin_present_if_complete_partial are met *)
Example C48_witness_hyps :
  cfg_ok (w_cfg true) /\ defs_wf w_defs [] /\ db_wfb (w_cfg true) w_db_fine = true /\
  (let e := mkE 1000 true [(0, [53]); (1, [78])] in
   In e w_db_fine /\ ~ In (eu e) (map bu w_defs) /\ noref (w_cfg true) [] (eav e) = true /\ eu e <> u_dom (w_cfg true)).
Proof.
  split; [apply w_cfg_ok|]. split; [apply w_defs_wf|]. split; [reflexivity|].
  cbn. split; [tauto|]. split; [intuition discriminate|]. split; [reflexivity | discriminate].
Qed.

(* the refutation instance is a well-formed database; in a debug build the outcome is OPanic (the
   premise o <> OOk of C48_failed_upgrade_changes_nothing) and the database comes back unchanged *)
Example C48_witness_refuted_debug :
  db_wfb (w_cfg true) w_db_collide = true /\
  init_helper (w_cfg true) w_defs [] DL_1_11 DL_1_12 16 w_db_collide = (OPanic, w_db_collide, false).
Proof. split; vm_compute; reflexivity. Qed.

(* the correspondence predicates on hand-made observations of the two instances *)
Definition mkd (e : entry) (refs dm mo : list N) : dentry :=
  mkD (eu e) (elive e) (map (fun p => (fst p, 7, snd p)) (eav e)) refs dm mo [].

Definition w_before (nm : N) : list dentry :=
  [ mkd (mkE 10 true [(0, [9; 50]); (1, [70]); (5, [15])]) [] [] [];
    mkd (mkE 20 true [(0, [9; 52]); (1, [71]); (2, [1000])]) [1000] [] [];
    mkd (mkE 1000 true [(0, [53]); (1, [nm])]) [] [20] [20] ].
Definition w_after : list dentry :=
  [ mkd (mkE 10 true [(0, [9; 50]); (1, [70]); (5, [16])]) [] [20] [20];
    mkd (mkE 20 true [(0, [9; 52]); (1, [71]); (2, [10; 1000])]) [10; 1000] [] [];
    mkd (mkE 30 true [(0, [9; 51]); (1, [77])]) [] [] [];
    mkd (mkE 1000 true [(0, [53]); (1, [78])]) [] [20] [20] ].

Example C48_witness_agree :
  let k := CHist (w_cfg true) w_defs [] 15 16 16 [1000] (w_before 78) 0 w_after 0 0 in
  agree k = true /\ pcheck k = true /\ known k = false.
Proof. vm_compute. repeat split. Qed.

Example C48_witness_known_class :
  let k := CHist (w_cfg true) w_defs [] 15 16 16 [1000] (w_before 77) 1 (w_before 77) 0 0 in
  agree k = true /\ pcheck k = false /\ known k = true.
Proof. vm_compute. repeat split. Qed.
