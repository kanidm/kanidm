From Coq Require Import List NArith Bool.
Import ListNotations.
Require Import KV.C19.Model KV.C19.Proofs.
Open Scope N_scope.

Definition eA := mkE 1 (1, 0) 1 (1, 0) 1 (1, 0) None (0, 0) 0 (1, 0) false.          (* uuid 1, name 1, made on replica 0 *)
Definition eB := mkE 2 (1, 1) 1 (1, 1) 1 (1, 1) (Some 1) (1, 1) 0 (1, 1) false.      (* uuid 2, SAME name, made on replica 1 *)
Definition eC := mkE 3 (2, 0) 2 (2, 0) 2 (2, 0) (Some 2) (2, 0) 0 (2, 0) false.      (* uuid 3, name 2, gidnumber 2 *)
Definition eD := mkE 4 (3, 0) 1 (3, 0) 1 (3, 0) None (0, 0) 1 (4, 0) false.          (* recycled holder of name 1 *)

(* a non-trivial database satisfying the invariant: a live and a recycled entry share a name *)
Example C19_witness_uniq : Uniq [eA; eC; eD].
Proof. apply uniqb_Uniq. vm_compute. reflexivity. Qed.

(* C19_inv_local is not vacuous and its three branches all occur: duplicate name inside one request, duplicate
   gidnumber against the database, uuid of a recycled entry of the database, accepted request; a rename hitting
   two entries at once; a rename onto the name of a live holder is refused, onto a name only held by a recycled
   entry accepted; a delete *)
Example C19_witness_local :
  fst (do_create (9, 0) [(5, 3, None); (6, 3, None)] [eA; eC; eD]) = R_UNIQUE /\
  fst (do_create (9, 0) [(5, 3, Some 2)] [eA; eC; eD]) = R_UNIQUE /\
  fst (do_create (9, 0) [(4, 3, None)] [eA; eC; eD]) = R_BASE /\
  fst (do_create (9, 0) [(5, 3, None); (6, 4, Some 1)] [eA; eC; eD]) = R_OK /\
  fst (do_mod (9, 0) [1; 3] 0 4 [eA; eC; eD]) = R_UNIQUE /\
  fst (do_mod (9, 0) [3] 0 1 [eA; eC; eD]) = R_UNIQUE /\
  fst (do_mod (9, 0) [3] 0 1 [eC; eD]) = R_OK /\
  fst (do_delete (9, 0) [1] [eA; eC; eD]) = R_OK.
Proof. vm_compute. repeat split; reflexivity. Qed.

(* hypotheses of C19_repl_inv / C19_conflict_exact: a Uniq consumer, an acceptable supplied set, and a real
   clash in the merged database (so the conflict branch is exercised) *)
Example C19_witness_repl :
  uniqb [eA; eC] = true /\ consume_ok 1000 [eB; eC] [eA; eC] = true /\
  existsb (clash1 (merged 0 (5, 0) 1000 [eB; eC] [eA; eC])) (merged 0 (5, 0) 1000 [eB; eC] [eA; eC]) = true /\
  map (fun e => (uuid e, cls e)) (consume 0 (5, 0) 1000 [eB; eC] [eA; eC]) = [(1, 2); (3, 0); (2, 2)].
Proof. vm_compute. repeat split; reflexivity. Qed.

(* hypotheses of C19_symmetric_partial: replica 0 pulling from 1 and replica 1 pulling from 0 obtain merged
   databases with the same entries (in different order) *)
Example C19_witness_symmetric :
  let mA := merged 0 (5, 0) 1000 [eB; eC] [eA; eC] in
  let mB := merged 1 (6, 1) 2000 [eA; eC] [eB; eC] in
  (forall x, In x mA <-> In x mB) /\ uniqb [eB; eC] = true /\ consume_ok 2000 [eA; eC] [eB; eC] = true.
Proof.
  vm_compute. split; [|split; reflexivity].
  intros x. split; intros [H|[H|[H|[]]]]; subst; auto.
Qed.

(* a two-replica schedule with a refused batch, a refused two-target rename, concurrent creates of one name
   at the same timestamp on both replicas, a uuid created twice, and three replications: it is accepted by
   the model, both name holders end as conflicts on both replicas, the later uuid-1 entry survives only as
   a conflict copy (2001), and the replicas hold the same entries *)
Definition w_ops : list op :=
  [OCreate 0 1 [(1, 1, None)]; OCreate 1 1 [(2, 1, Some 1)];
   OCreate 0 2 [(3, 2, None); (4, 2, None)];
   OCreate 1 3 [(1, 3, None)];
   OMod 1 4 [1; 2] 0 4;
   ORepl 0 1 5 1000; ORepl 1 0 6 2000; ORepl 0 1 7 3000].

Example C19_witness_schedule :
  exists s, run (init 2) w_ops = Some s /\
    map (fun e => (uuid e, cls e)) (getr s 0) = [(1, 2); (2, 2); (2001, 2)] /\
    same_set (getr s 0) (getr s 1) = true /\ forallb uniqb s = true.
Proof. eexists. vm_compute. repeat split; reflexivity. Qed.

(* an observation list on which `agree` and `pcheck` hold (accepted create, refused duplicate, replication
   producing a conflict pair) *)
Definition cA := mkE 1 (1, 0) 1 (1, 0) 1 (1, 0) None (0, 0) 2 (3, 0) true.
Definition cB := mkE 2 (1, 1) 1 (1, 1) 1 (1, 1) (Some 1) (1, 1) 2 (3, 0) true.
Definition w_case : case :=
  CHist 2
    [Obs (OCreate 0 1 [(1, 1, None)]) 0 [eA] [(1, [(0, 1); (1, 1)])];
     Obs (OCreate 1 1 [(2, 1, Some 1)]) 0 [eB] [(2, [(0, 1); (1, 1); (2, 1)])];
     Obs (OCreate 0 2 [(5, 1, None)]) 2 [eA] [(1, [(0, 1); (1, 1)])];
     Obs (ORepl 0 1 3 3000) 0 [cA; cB] [];
     Obs (ORepl 1 0 4 4000) 0 [cA; cB] []]
    [[(100000, [(0, 1000); (1, 1001)])]; [(100000, [(0, 1000); (1, 1001)])]]
    [[cA; cB]; [cA; cB]].

Example C19_witness_agree : agree w_case = true /\ pcheck w_case = true.
Proof. vm_compute. split; reflexivity. Qed.

(* the predicates are not trivially true: a dump with two live holders of one name is rejected, and a model
   disagreement is detected *)
Example C19_witness_pcheck_rejects :
  guniqb [(1, [(0, 1); (1, 1)]); (2, [(0, 1); (1, 1); (2, 1)])] = false /\
  guniqb [(1, [(0, 1)]); (1, [(0, 2)])] = false /\
  agree (CHist 1 [Obs (OCreate 0 1 [(1, 1, None)]) 0 [eA; eB] [(1, [(0, 1); (1, 1)])]] [[]] [[eA]]) = false.
Proof. vm_compute. repeat split; reflexivity. Qed.

(* transcribed behaviour worth a witness (observed on the real servers): the spn is re-set by every modify and
   merged as an attribute of its own, so a rename on replica 0 followed by a LATER gidnumber change on
   replica 1 leaves both replicas with name 4 but the spn of name 2; name 2 then stays unusable (the
   create is refused on the spn) — uniqueness holds, C22 (spn = name@domain) does not *)
Definition w_spn_ops : list op :=
  [OCreate 0 1 [(1, 2, Some 1)]; ORepl 1 0 2 2000;
   OMod 0 3 [1] 0 4; OMod 1 4 [1] 1 2;
   ORepl 0 1 5 5000; ORepl 1 0 6 6000].
Example C19_witness_stale_spn :
  exists s, run (init 2) w_spn_ops = Some s /\
    map (fun e => (name e, spn e, gid e, cls e)) (getr s 0) = [(4, 2, Some 2, 0)] /\
    same_set (getr s 0) (getr s 1) = true /\
    fst (do_create (7, 0) [(2, 2, None)] (getr s 0)) = R_UNIQUE.
Proof. eexists. vm_compute. repeat split; reflexivity. Qed.

(* validate_repl branch: deleted on replica 0 (later) and conflicted on replica 1 (earlier): the merged entry
   keeps the class change id of the delete but ends in the conflict state on both replicas *)
Definition w_fix_ops : list op :=
  [OCreate 0 1 [(1, 1, None)]; OCreate 1 1 [(2, 1, None)]; ORepl 1 0 2 2000;
   ODelete 0 3 [1]; ORepl 0 1 4 4000; ORepl 1 0 5 5000].
Example C19_witness_validate_repl :
  exists s, run (init 2) w_fix_ops = Some s /\
    map (fun e => (uuid e, cls e, cls_c e, src e)) (getr s 0) = [(1, 2, (3, 0), true); (2, 2, (2, 1), true)] /\
    same_set (getr s 0) (getr s 1) = true.
Proof. eexists. vm_compute. repeat split; reflexivity. Qed.
