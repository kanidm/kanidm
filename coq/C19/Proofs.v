(* Uniq is the invariant.  Local writes: every live entry of the new database is an entry of the old one or
   a candidate that passed enforce_unique (enforced_Uniq).  Replication: the plugin's marks are exactly the
   declarative clash1 on the merged database (marks_exact), and turning every clash1 entry into a conflict
   leaves no two live entries that share a value (clash1_Uniq).  The run-time tie goes through
   same_set_Uniq: a dump with the entries of a Uniq database is Uniq. *)
From Coq Require Import List NArith Bool Lia FinFun.
Import ListNotations.
Require Import KV.C19.Model.
Open Scope N_scope.

Definition Uniq (d : db) : Prop :=
  NoDup (map uuid d) /\
  forall e f, In e d -> In f d -> live e = true -> live f = true -> share e f = true -> uuid e = uuid f.

Lemma mem_In : forall x l, mem x l = true <-> In x l.
Proof.
  intros x l. unfold mem. rewrite existsb_exists. split.
  - intros [y [Hy He]]. apply N.eqb_eq in He. subst. exact Hy.
  - intros H. exists x. split; [exact H | apply N.eqb_refl].
Qed.

Lemma mem_false : forall x l, mem x l = false <-> ~ In x l.
Proof. intros x l. rewrite <- mem_In. symmetry. apply not_true_iff_false. Qed.

Lemma dupN_NoDup : forall l, dupN l = false <-> NoDup l.
Proof.
  induction l as [|x r IH]; cbn [dupN].
  - split; [constructor | reflexivity].
  - rewrite orb_false_iff, IH, mem_false, NoDup_cons_iff. reflexivity.
Qed.

Lemma share_sym : forall e f, share e f = share f e.
Proof.
  intros e f. unfold share. rewrite (N.eqb_sym (name e) (name f)), (N.eqb_sym (spn e) (spn f)).
  destruct (gid e), (gid f); try reflexivity. rewrite (N.eqb_sym n n0). reflexivity.
Qed.

Lemma NoDup_app_intro : forall (A : Type) (l l' : list A),
  NoDup l -> NoDup l' -> (forall x, In x l -> ~ In x l') -> NoDup (l ++ l').
Proof.
  intros A l l' Hl Hl' Hd. induction Hl as [|x l Hx Hl IH]; cbn.
  - exact Hl'.
  - constructor.
    + rewrite in_app_iff. intros [H|H]; [contradiction|]. apply (Hd x); [left; reflexivity | exact H].
    + apply IH. intros y Hy. apply Hd. right. exact Hy.
Qed.

Lemma NoDup_map_filter : forall (A B : Type) (f : A -> B) (p : A -> bool) (l : list A),
  NoDup (map f l) -> NoDup (map f (filter p l)).
Proof.
  intros A B f p l. induction l as [|a r IH]; cbn; [trivial|].
  rewrite NoDup_cons_iff. intros [Hn Hr]. destruct (p a); cbn; [|auto].
  constructor; [|auto]. intros Hin. apply Hn. apply in_map_iff in Hin. destruct Hin as [y [Hy Hin]].
  apply filter_In in Hin. rewrite <- Hy. apply in_map, Hin.
Qed.

Lemma uuid_inj_in : forall (l : list ent) x y,
  NoDup (map uuid l) -> In x l -> In y l -> uuid x = uuid y -> x = y.
Proof.
  induction l as [|a r IH]; intros x y Hn Hx Hy He; [contradiction|].
  cbn in Hn. apply NoDup_cons_iff in Hn. destruct Hn as [Hna Hnr].
  destruct Hx as [Hx|Hx], Hy as [Hy|Hy]; subst.
  - reflexivity.
  - destruct Hna. rewrite He. apply in_map. exact Hy.
  - destruct Hna. rewrite <- He. apply in_map. exact Hx.
  - apply IH; assumption.
Qed.

Lemma map_uuid_pres : forall (g : ent -> ent) (d : db),
  (forall e, uuid (g e) = uuid e) -> map uuid (map g d) = map uuid d.
Proof. intros g d H. rewrite map_map. apply map_ext. exact H. Qed.

Lemma Uniq_nil : Uniq [].
Proof. split; [constructor | intros e f []]. Qed.

Lemma Uniq_incl : forall d d',
  Uniq d -> NoDup (map uuid d') -> (forall e, In e d' -> live e = true -> In e d) -> Uniq d'.
Proof.
  intros d d' [_ Hp] Hn Hin. split; [exact Hn|].
  intros e f He Hf Le Lf. apply Hp; auto.
Qed.

(* The shape shared by the model's pairwise scans: no member is R-related to a later one.  R is a section
   variable so that [upairs] and [gpairs] are, by conversion, [apart] of their relation. *)
Section Apart.
  Variables (A : Type) (R : A -> A -> bool).

  Fixpoint apart (l : list A) : bool :=
    match l with [] => true | a :: r => forallb (fun b => negb (R a b)) r && apart r end.

  Lemma apart_sound : forall l,
    (forall a b, R a b = true -> R b a = true) -> apart l = true ->
    forall a b, In a l -> In b l -> R a b = true -> a = b.
  Proof.
    intros l Hsym. induction l as [|x r IH]; intros H a b Ha Hb Hab; [contradiction|].
    cbn [apart] in H. apply andb_true_iff in H. destruct H as [Hx Hr].
    assert (Hx' : forall y, In y r -> R x y <> true).
    { intros y Hy E. rewrite forallb_forall in Hx. specialize (Hx y Hy). rewrite E in Hx. discriminate. }
    destruct Ha as [Ha|Ha], Hb as [Hb|Hb]; subst.
    - reflexivity.
    - destruct (Hx' b Hb Hab).
    - destruct (Hx' a Ha (Hsym _ _ Hab)).
    - apply IH; assumption.
  Qed.

  Lemma apart_complete : forall (K : Type) (key : A -> K) l,
    NoDup (map key l) -> (forall a b, In a l -> In b l -> R a b = true -> key a = key b) -> apart l = true.
  Proof.
    intros K key. induction l as [|x r IH]; intros Hn Hp; [reflexivity|].
    cbn [map] in Hn. apply NoDup_cons_iff in Hn. destruct Hn as [Hx Hn].
    cbn [apart]. apply andb_true_iff. split.
    - apply forallb_forall. intros b Hb. destruct (R x b) eqn:E; [|reflexivity].
      destruct Hx. rewrite (Hp x b); [apply in_map; exact Hb | left; reflexivity | right; exact Hb | exact E].
    - apply IH; [exact Hn|]. intros a b Ha Hb. apply Hp; right; assumption.
  Qed.
End Apart.

Lemma forallb_negb : forall (A : Type) (p : A -> bool) l,
  forallb (fun x => negb (p x)) l = negb (existsb p l).
Proof. induction l as [|a r IH]; cbn; [reflexivity|]. rewrite IH, negb_orb. reflexivity. Qed.

Lemma dup_in_apart : forall l, dup_in l = negb (apart _ share l).
Proof.
  induction l as [|a r IH]; cbn [dup_in apart]; [reflexivity|].
  rewrite forallb_negb, IH, negb_andb, negb_involutive. reflexivity.
Qed.

Lemma uniqb_Uniq : forall d, uniqb d = true <-> Uniq d.
Proof.
  intros d. unfold uniqb. split.
  - intros H. apply andb_prop in H. destruct H as [Hn H]. apply negb_true_iff, dupN_NoDup in Hn.
    split; [exact Hn|]. intros e f He Hf Le Lf Hs. f_equal.
    refine (apart_sound _ (fun a b => live a && live b && share a b) d _ H e f He Hf _).
    + intros a b E. rewrite share_sym, (andb_comm (live b)). exact E.
    + rewrite Le, Lf. exact Hs.
  - intros [Hn Hp]. apply andb_true_intro. split; [apply negb_true_iff, dupN_NoDup; exact Hn|].
    apply (apart_complete _ (fun a b => live a && live b && share a b) _ uuid); [exact Hn|].
    intros a b Ha Hb E. apply andb_prop in E. destruct E as [E Hs].
    apply andb_prop in E. destruct E as [La Lb]. auto.
Qed.

Lemma gshare_sym : forall p q, gshare p q = true -> gshare q p = true.
Proof.
  unfold gshare. intros p q H. apply existsb_exists in H. destruct H as [v [Hv H]].
  apply existsb_exists in H. destruct H as [w [Hw E]].
  apply existsb_exists. exists w. split; [exact Hw|]. apply existsb_exists. exists v. split; [exact Hv|].
  unfold pair_eqb in *. rewrite (N.eqb_sym (fst w)), (N.eqb_sym (snd w)). exact E.
Qed.

Lemma guniqb_sound : forall l, guniqb l = true ->
  NoDup (map fst l) /\
  forall a b, In a l -> In b l -> gshare a b = true -> a = b.
Proof.
  intros l H. unfold guniqb in H. apply andb_true_iff in H. destruct H as [A B].
  apply negb_true_iff, dupN_NoDup in A. split; [exact A|].
  exact (apart_sound _ gshare l gshare_sym B).
Qed.

Lemma dup_in_false : forall l e f,
  dup_in l = false -> In e l -> In f l -> share e f = true -> e = f.
Proof.
  intros l e f H. rewrite dup_in_apart in H. apply negb_false_iff in H.
  apply (apart_sound _ share l); [|exact H]. intros a b E. rewrite share_sym. exact E.
Qed.

Lemma db_clash_false : forall d cands c x,
  db_clash d cands = false -> In c cands -> In x d -> live x = true -> share c x = true ->
  uuid x = uuid c.
Proof.
  intros d cands c x H Hc Hx Hl Hs.
  destruct (N.eqb_spec (uuid x) (uuid c)) as [E|E]; [exact E|].
  apply not_true_iff_false in H. destruct H. unfold db_clash.
  apply existsb_exists. exists c. split; [exact Hc|].
  apply existsb_exists. exists x. split; [exact Hx|].
  rewrite Hl, Hs. apply N.eqb_neq in E. rewrite E. reflexivity.
Qed.

Lemma enforce_unique_true : forall d cands,
  enforce_unique d cands = true ->
  dup_in (filter live cands) = false /\ db_clash d (filter live cands) = false.
Proof.
  intros d cands H. apply andb_prop in H. destruct H as [A B].
  apply negb_true_iff in A, B. auto.
Qed.

Lemma enforced_Uniq : forall d cands d',
  Uniq d -> enforce_unique d cands = true -> NoDup (map uuid d') ->
  (forall e, In e d' -> live e = true -> In e d \/ In e cands) -> Uniq d'.
Proof.
  intros d cands d' [_ Hp] Hu Hn Hfrom.
  apply enforce_unique_true in Hu. destruct Hu as [Hdup Hclash].
  assert (Hcl : forall e, In e d' -> live e = true -> In e d \/ In e (filter live cands)).
  { intros e He Le. destruct (Hfrom e He Le); [|right; apply filter_In]; auto. }
  split; [exact Hn|]. intros e f He Hf Le Lf Hs.
  destruct (Hcl e He Le) as [De|Ce], (Hcl f Hf Lf) as [Df|Cf].
  - apply Hp; assumption.
  - rewrite share_sym in Hs. apply (db_clash_false _ _ _ _ Hclash); assumption.
  - symmetry. apply (db_clash_false _ _ _ _ Hclash); assumption.
  - f_equal. apply (dup_in_false _ _ _ Hdup); assumption.
Qed.

Lemma new_ent_live : forall c x, live (new_ent c x) = true.
Proof. intros c [[u n] g]. reflexivity. Qed.

Lemma do_create_uniq : forall c new d, Uniq d -> Uniq (snd (do_create c new d)).
Proof.
  intros c new d U. unfold do_create. set (cands := map (new_ent c) new).
  destruct (dupN (map uuid cands)) eqn:E1; [exact U|].
  destruct (existsb (fun e => mem (uuid e) (map uuid d)) cands) eqn:E2; [exact U|].
  destruct (enforce_unique d cands) eqn:E3; cbn [negb snd]; [|exact U].
  apply (enforced_Uniq d cands); [exact U | exact E3 | | intros e He _; apply in_app_or, He].
  rewrite map_app. apply NoDup_app_intro; [apply U | apply dupN_NoDup; exact E1 |].
  intros u Hu Hu'. apply in_map_iff in Hu'. destruct Hu' as [e [<- He]].
  apply not_true_iff_false in E2. apply E2.
  apply existsb_exists. exists e. split; [exact He | apply mem_In; exact Hu].
Qed.

Lemma set_fld_uuid : forall c fld v e, uuid (set_fld c fld v e) = uuid e.
Proof. intros. unfold set_fld. destruct (fld =? 0); reflexivity. Qed.
Lemma set_fld_live : forall c fld v e, live (set_fld c fld v e) = live e.
Proof. intros. unfold set_fld. destruct (fld =? 0); reflexivity. Qed.

Lemma do_mod_uniq : forall c us fld v d, Uniq d -> Uniq (snd (do_mod c us fld v d)).
Proof.
  intros c us fld v d U. unfold do_mod.
  destruct (filter (sel us) d) as [|p0 pr] eqn:Epre; [exact U|]. rewrite <- Epre.
  set (cands := map (set_fld c fld v) (filter (sel us) d)).
  destruct (enforce_unique d cands) eqn:E3; cbn [negb snd]; [|exact U].
  destruct (negb (fld =? 0) && _); cbn [snd]; [exact U|].
  apply (enforced_Uniq d cands); [exact U | exact E3 | |].
  - rewrite map_uuid_pres; [apply U|]. intros e. destruct (sel us e); [apply set_fld_uuid | reflexivity].
  - intros e' He' _. apply in_map_iff in He'. destruct He' as [e [<- He]].
    destruct (sel us e) eqn:S; [right; apply in_map, filter_In; auto | left; exact He].
Qed.

Lemma do_delete_uniq : forall c us d, Uniq d -> Uniq (snd (do_delete c us d)).
Proof.
  intros c us d U. unfold do_delete.
  destruct (filter (sel us) d) as [|p0 pr]; cbn [snd]; [exact U|].
  apply (Uniq_incl d); [exact U | |].
  - rewrite map_uuid_pres; [apply U|]. intros e. destruct (sel us e); reflexivity.
  - intros e' He' Le. apply in_map_iff in He'. destruct He' as [e [<- He]].
    destruct (sel us e); [discriminate Le | exact He].
Qed.

Lemma find_uuid_some : forall u l e, find u l = Some e -> In e l /\ uuid e = u.
Proof.
  induction l as [|a r IH]; cbn; intros e H; [discriminate|].
  destruct (N.eqb_spec (uuid a) u) as [E|E].
  - inversion H; subst. split; [left; reflexivity | reflexivity].
  - destruct (IH e H) as [A B]. split; [right; exact A | exact B].
Qed.

Lemma find_uuid_none : forall u l, ~ In u (map uuid l) -> find u l = None.
Proof.
  induction l as [|a r IH]; cbn; intros H; [reflexivity|].
  destruct (N.eqb_spec (uuid a) u) as [E|E]; [destruct H; left; exact E|].
  apply IH. intros Hin. apply H. right. exact Hin.
Qed.

Lemma resolve_uuid : forall i d, uuid i = uuid d -> uuid (resolve i d) = uuid d.
Proof.
  intros i d H. unfold resolve. destruct (add_conflict i d); [|reflexivity].
  destruct (cid_ltb (at_ d) (at_ i)); [reflexivity | exact H].
Qed.

Lemma fixup_uuid : forall e, uuid (fixup e) = uuid e.
Proof. intros e. unfold fixup. destruct (src e && negb (cls e =? 2)); reflexivity. Qed.

Lemma upd_uuid : forall inc d, uuid (upd inc d) = uuid d.
Proof.
  intros inc d. unfold upd. destruct (find (uuid d) inc) as [i|] eqn:E; [|reflexivity].
  apply find_uuid_some in E. rewrite fixup_uuid. apply resolve_uuid, E.
Qed.

Lemma upd_id : forall inc d, ~ In (uuid d) (map uuid inc) -> upd inc d = d.
Proof. intros inc d H. unfold upd. rewrite (find_uuid_none _ _ H). reflexivity. Qed.

Section Merged.
  Variables (me : N) (c : cid) (base : N) (inc : list ent) (d : db).

  Lemma news_uuid : forall u,
    In u (map uuid (news inc d)) -> In u (map uuid inc) /\ ~ In u (map uuid d).
  Proof.
    intros u H. unfold news in H. rewrite (map_uuid_pres fixup _ fixup_uuid) in H.
    apply in_map_iff in H. destruct H as [i [<- H]]. apply filter_In in H. destruct H as [A B].
    split; [apply in_map; exact A | apply mem_false, negb_true_iff; exact B].
  Qed.

  Lemma news_nodup : NoDup (map uuid inc) -> NoDup (map uuid (news inc d)).
  Proof.
    intros H. unfold news. rewrite (map_uuid_pres fixup _ fixup_uuid).
    apply NoDup_map_filter. exact H.
  Qed.

  Lemma created_map :
    created me c base inc d =
    map (cnf_copy c base)
        (filter (fun x => match find (uuid x) inc with Some i => creates me i x | None => false end) d).
  Proof.
    unfold created. induction d as [|x r IH]; cbn; [reflexivity|].
    rewrite IH. destruct (find (uuid x) inc) as [i|]; [destruct (creates me i x)|]; reflexivity.
  Qed.

  Lemma created_in : forall e,
    In e (created me c base inc d) -> exists x, In x d /\ e = cnf_copy c base x.
  Proof.
    intros e H. rewrite created_map in H. apply in_map_iff in H.
    destruct H as [x [<- H]]. apply filter_In in H. exists x. split; [apply H | reflexivity].
  Qed.

  Lemma created_ge : forall u, In u (map uuid (created me c base inc d)) -> base <= u.
  Proof.
    intros u H. apply in_map_iff in H. destruct H as [e [<- H]].
    apply created_in in H. destruct H as [x [_ ->]]. cbn. lia.
  Qed.

  Lemma created_nodup :
    NoDup (map uuid d) -> NoDup (map uuid (created me c base inc d)).
  Proof.
    intros H. rewrite created_map, map_map. cbn [cnf_copy uuid].
    rewrite <- (map_map uuid (N.add base)). apply Injective_map_NoDup.
    - intros x y E. apply N.add_cancel_l in E. exact E.
    - apply NoDup_map_filter. exact H.
  Qed.

  Lemma consume_ok_spec :
    consume_ok base inc d = true ->
    NoDup (map uuid inc) /\
    (forall u, In u (map uuid inc) -> u < base) /\ (forall u, In u (map uuid d) -> u < base).
  Proof.
    intros H. unfold consume_ok in H. apply andb_true_iff in H. destruct H as [A B].
    apply negb_true_iff, dupN_NoDup in A. rewrite forallb_forall in B.
    split; [exact A|].
    split; intros u Hu; apply in_map_iff in Hu; destruct Hu as [e [<- He]];
      apply N.ltb_lt, B, in_app_iff; auto.
  Qed.

  Lemma merged_nodup :
    NoDup (map uuid d) -> consume_ok base inc d = true ->
    NoDup (map uuid (merged me c base inc d)).
  Proof.
    intros Hn Hok. apply consume_ok_spec in Hok. destruct Hok as [Hi [Hbi Hbd]].
    unfold merged. rewrite !map_app, (map_uuid_pres (upd inc) d (upd_uuid inc)).
    (* the three parts draw their uuids from disjoint sets: those of d; those of inc that are not in d;
       those at or above base *)
    apply NoDup_app_intro; [exact Hn | apply NoDup_app_intro |].
    - apply news_nodup. exact Hi.
    - apply created_nodup. exact Hn.
    - intros u Hu Hu'. apply news_uuid in Hu. apply created_ge in Hu'.
      specialize (Hbi u (proj1 Hu)). lia.
    - intros u Hu Hu'. apply in_app_iff in Hu'. destruct Hu' as [Hu'|Hu'].
      + apply news_uuid in Hu'. exact (proj2 Hu' Hu).
      + apply created_ge in Hu'. specialize (Hbd u Hu). lia.
  Qed.

  Lemma merged_untouched : forall e,
    In e (merged me c base inc d) -> live e = true -> ~ In (uuid e) (map uuid inc) -> In e d.
  Proof.
    intros e He Hl Hn. unfold merged in He.
    apply in_app_or in He. destruct He as [He|He]; [|apply in_app_or in He; destruct He as [He|He]].
    - apply in_map_iff in He. destruct He as [x [<- Hx]].
      rewrite upd_uuid in Hn. rewrite upd_id; assumption.
    - apply (in_map uuid), news_uuid in He. destruct Hn. apply He.
    - apply created_in in He. destruct He as [x [_ ->]]. discriminate Hl.
  Qed.
End Merged.

Lemma hits_spec : forall d1 e f,
  In f (hits d1 e) <-> In f d1 /\ live f = true /\ uuid f <> uuid e /\ share e f = true.
Proof.
  intros d1 e f. unfold hits. split.
  - intros H. apply filter_In in H. destruct H as [H B].
    apply andb_prop in B. destruct B as [B Hs]. apply andb_prop in B. destruct B as [Lf Hn].
    apply negb_true_iff, N.eqb_neq in Hn. auto.
  - intros [H [Lf [Hn Hs]]]. apply filter_In. split; [exact H|].
    apply N.eqb_neq in Hn. rewrite Lf, Hn, Hs. reflexivity.
Qed.

Lemma hits_sym : forall d1 e f,
  In f (hits d1 e) -> In e d1 -> live e = true -> In e (hits d1 f).
Proof.
  intros d1 e f H He Le. apply hits_spec in H. destruct H as [_ [_ [Hn Hs]]].
  apply hits_spec. rewrite share_sym. auto.
Qed.

Lemma marks_spec : forall cu d1 u,
  In u (marks cu d1) <->
  exists e f, In e d1 /\ live e = true /\ In (uuid e) cu /\ In f (hits d1 e) /\ (u = uuid e \/ u = uuid f).
Proof.
  intros cu d1 u. unfold marks. split.
  - intros H. apply in_flat_map in H. destruct H as [e [He Hu]]. apply filter_In in He. destruct He as [He Hc].
    apply andb_true_iff in Hc. destruct Hc as [Le Hc]. apply mem_In in Hc.
    destruct (hits d1 e) as [|h hs] eqn:Eh; [contradiction|]. rewrite <- Eh in Hu.
    destruct Hu as [Hu|Hu].
    + exists e, h. rewrite Eh. cbn. auto 7.
    + apply in_map_iff in Hu. destruct Hu as [f [Hu Hf]]. exists e, f. auto 7.
  - intros [e [f [He [Le [Hc [Hf Hu]]]]]]. apply in_flat_map. exists e. split.
    + apply filter_In. split; [exact He|]. apply mem_In in Hc. rewrite Le, Hc. reflexivity.
    + destruct (hits d1 e) as [|h hs]; [contradiction|].
      destruct Hu as [->| ->]; [left; reflexivity | right; apply in_map; exact Hf].
Qed.

Definition clash1 (d1 : db) (e : ent) : bool :=
  live e && existsb (fun f => live f && negb (uuid f =? uuid e) && share e f) d1.

Lemma clash1_spec : forall d1 e, clash1 d1 e = true <-> live e = true /\ exists f, In f (hits d1 e).
Proof.
  intros d1 e. unfold clash1, hits. split.
  - intros H. apply andb_prop in H. destruct H as [Le H]. apply existsb_exists in H.
    destruct H as [f H]. split; [exact Le|]. exists f. apply filter_In. exact H.
  - intros [Le [f H]]. apply filter_In in H. rewrite Le. apply existsb_exists. exists f. exact H.
Qed.

(* The plugin only scans from the supplied uuids, yet marks every clashing live entry: a clash between two
   entries that were both not supplied would be a clash between two untouched entries of d. *)
Lemma marks_exact : forall me c base inc d,
  Uniq d -> consume_ok base inc d = true ->
  let d1 := merged me c base inc d in
  forall x, In x d1 ->
    (live x && mem (uuid x) (marks (map uuid inc) d1)) = clash1 d1 x.
Proof.
  intros me c base inc d U Hok d1 x Hx.
  assert (Hn1 : NoDup (map uuid d1)) by (apply merged_nodup; [apply U | exact Hok]).
  apply eq_true_iff_eq. split; intros H.
  - apply andb_prop in H. destruct H as [Lx H]. apply mem_In, marks_spec in H.
    destruct H as [e [f [He [Le [_ [Hf Hu]]]]]]. apply clash1_spec. split; [exact Lx|].
    (* x is e or f, since uuids are distinct in d1, and each of the two is hit by the other *)
    pose proof (hits_sym _ _ _ Hf He Le) as Hf'. pose proof (proj1 (proj1 (hits_spec _ _ _) Hf)) as If.
    destruct Hu as [Hu|Hu]; apply (uuid_inj_in d1) in Hu; try assumption; subst x;
      [exists f; exact Hf | exists e; exact Hf'].
  - apply clash1_spec in H. destruct H as [Lx [f Hf]]. rewrite Lx. apply mem_In, marks_spec.
    pose proof (hits_sym _ _ _ Hf Hx Lx) as Hx'. pose proof Hf as Hf'. apply hits_spec in Hf'.
    destruct Hf' as [If [Lf [Hne Hs]]].
    destruct (in_dec N.eq_dec (uuid x) (map uuid inc)) as [Cx|Cx]; [exists x, f; auto 7|].
    destruct (in_dec N.eq_dec (uuid f) (map uuid inc)) as [Cf|Cf]; [exists f, x; auto 7|].
    destruct Hne. symmetry.
    apply (proj2 U); try assumption; apply (merged_untouched me c base inc); assumption.
Qed.

Lemma consume_declarative : forall me c base inc d,
  Uniq d -> consume_ok base inc d = true ->
  let d1 := merged me c base inc d in
  consume me c base inc d = map (fun x => if clash1 d1 x then to_conflict c x else x) d1.
Proof.
  intros me c base inc d U Hok d1. unfold consume, apply_marks.
  apply map_ext_in. intros x Hx. pose proof (marks_exact me c base inc d U Hok x Hx) as E.
  cbv zeta in E. fold d1 in E |- *. rewrite E. reflexivity.
Qed.

Lemma clash1_Uniq : forall c d1,
  NoDup (map uuid d1) -> Uniq (map (fun x => if clash1 d1 x then to_conflict c x else x) d1).
Proof.
  intros c d1 Hn. split.
  - rewrite map_uuid_pres; [exact Hn|]. intros x. destruct (clash1 d1 x); reflexivity.
  - intros e' f' He Hf Le Lf Hs.
    apply in_map_iff in He. destruct He as [e [<- He]]. apply in_map_iff in Hf. destruct Hf as [f [<- Hf]].
    destruct (clash1 d1 e) eqn:Ce; [discriminate Le|]. destruct (clash1 d1 f); [discriminate Lf|].
    destruct (N.eq_dec (uuid e) (uuid f)) as [E|E]; [exact E|].
    apply not_true_iff_false in Ce. destruct Ce. apply clash1_spec. split; [exact Le|].
    exists f. apply hits_spec. auto.
Qed.

Lemma consume_uniq : forall me c base inc d,
  Uniq d -> consume_ok base inc d = true -> Uniq (consume me c base inc d).
Proof.
  intros me c base inc d U Hok. rewrite (consume_declarative _ _ _ _ _ U Hok).
  apply clash1_Uniq, merged_nodup; [apply U | exact Hok].
Qed.

Lemma clash1_ext : forall a b e, (forall x, In x a <-> In x b) -> clash1 a e = clash1 b e.
Proof.
  intros a b e H. unfold clash1. f_equal. apply eq_true_iff_eq.
  split; intros E; apply existsb_exists in E; destruct E as [f [Hf Hb]];
    apply existsb_exists; exists f; (split; [apply H; exact Hf | exact Hb]).
Qed.

Lemma getr_uniq : forall s r, Forall Uniq s -> Uniq (getr s r).
Proof.
  intros s r H. unfold getr.
  destruct (nth_in_or_default (N.to_nat r) s []) as [Hin | ->]; [|exact Uniq_nil].
  rewrite Forall_forall in H. apply H, Hin.
Qed.

Lemma setr_uniq : forall s r x, Forall Uniq s -> Uniq x -> Forall Uniq (setr s r x).
Proof.
  intros s r x H Hx. unfold setr. generalize (N.to_nat r). intros n. revert s H.
  induction n as [|n IH]; intros [|a t] H; cbn; try exact H.
  - constructor; [exact Hx | exact (Forall_inv_tail H)].
  - constructor; [exact (Forall_inv H) | apply IH, (Forall_inv_tail H)].
Qed.

Lemma step_uniq : forall s o r k s1, Forall Uniq s -> step s o = Some (r, k, s1) -> Forall Uniq s1.
Proof.
  intros s o r k s1 H Hs.
  (* in each case the new state is [setr s r d] for some d satisfying Uniq *)
  destruct o as [r0 ct new | r0 ct us fld v | r0 ct us | to from ct base]; cbn [step] in Hs.
  1: pose proof (do_create_uniq (ct, r0) new _ (getr_uniq s r0 H)) as U; destruct (do_create _ _ _).
  2: pose proof (do_mod_uniq (ct, r0) us fld v _ (getr_uniq s r0 H)) as U; destruct (do_mod _ _ _ _ _).
  3: pose proof (do_delete_uniq (ct, r0) us _ (getr_uniq s r0 H)) as U; destruct (do_delete _ _ _).
  4: destruct (consume_ok _ _ _) eqn:Eok; [|discriminate];
     pose proof (consume_uniq to (ct, to) base _ _ (getr_uniq s to H) Eok) as U.
  all: injection Hs as _ _ <-; apply setr_uniq; assumption.
Qed.

Lemma run_uniq : forall ops s s', Forall Uniq s -> run s ops = Some s' -> Forall Uniq s'.
Proof.
  induction ops as [|o r IH]; intros s s' H Hr; cbn [run] in Hr.
  - inversion Hr; subst. exact H.
  - destruct (step s o) as [[[rep k] s1]|] eqn:Es; [|discriminate].
    apply (IH s1); [|exact Hr]. eapply step_uniq; eauto.
Qed.

Lemma init_uniq : forall n, Forall Uniq (init n).
Proof. intros n. unfold init. induction (N.to_nat n); cbn; constructor; auto. apply Uniq_nil. Qed.

Lemma pair_eqb_eq : forall a b, pair_eqb a b = true -> a = b.
Proof.
  intros [a1 a2] [b1 b2] H. unfold pair_eqb in H. cbn [fst snd] in H.
  apply andb_true_iff in H. destruct H as [A B]. apply N.eqb_eq in A. apply N.eqb_eq in B. subst. reflexivity.
Qed.

(* cid_eqb is pair_eqb at type cid *)
Lemma cid_eqb_eq : forall a b : cid, cid_eqb a b = true -> a = b.
Proof. exact pair_eqb_eq. Qed.

Lemma opt_eqb_eq : forall a b, opt_eqb a b = true -> a = b.
Proof.
  intros [x|] [y|] H; cbn in H; try discriminate; [|reflexivity].
  apply N.eqb_eq in H. subst. reflexivity.
Qed.

Lemma ent_eqb_eq : forall a b, ent_eqb a b = true -> a = b.
Proof.
  intros [u1 a1 n1 nc1 s1 sc1 g1 gc1 k1 kc1 r1] [u2 a2 n2 nc2 s2 sc2 g2 gc2 k2 kc2 r2] H.
  unfold ent_eqb in H. cbn [uuid at_ name name_c spn spn_c gid gid_c cls cls_c src] in H.
  repeat (apply andb_prop in H; destruct H as [H ?E]).
  apply N.eqb_eq in H, E7, E5, E1. apply cid_eqb_eq in E8, E6, E4, E2, E0.
  apply opt_eqb_eq in E3. apply eqb_prop in E. subst. reflexivity.
Qed.

Lemma list_eqb_eq : forall (A : Type) (eq : A -> A -> bool),
  (forall x y, eq x y = true -> x = y) -> forall a b, list_eqb eq a b = true -> a = b.
Proof.
  intros A eq Heq. induction a as [|x r IH]; intros [|y t] H; cbn in H; try discriminate; [reflexivity|].
  apply andb_true_iff in H. destruct H as [H1 H2]. f_equal; [apply Heq; exact H1 | apply IH; exact H2].
Qed.

Lemma gent_eqb_eq : forall a b, gent_eqb a b = true -> a = b.
Proof.
  intros [a1 a2] [b1 b2] H. unfold gent_eqb in H. cbn [fst snd] in H.
  apply andb_true_iff in H. destruct H as [A B]. apply N.eqb_eq in A.
  apply (list_eqb_eq _ pair_eqb pair_eqb_eq) in B. subst. reflexivity.
Qed.

Lemma same_set_Uniq : forall snap m, same_set snap m = true -> Uniq m -> Uniq snap.
Proof.
  intros snap m H U. unfold same_set in H. apply andb_true_iff in H. destruct H as [Hl Hi].
  apply N.eqb_eq, Nat2N.inj in Hl.
  assert (Hinc : incl m snap).
  { intros e He. rewrite forallb_forall in Hi. apply Hi, existsb_exists in He.
    destruct He as [x [Hx E]]. apply ent_eqb_eq in E. subst x. exact Hx. }
  (* m has no repetition and is as long as snap, so the inclusion goes both ways *)
  pose proof (proj1 U) as Hn. apply (Uniq_incl m _ U).
  - apply (NoDup_incl_NoDup Hn); [rewrite !map_length, Hl; apply le_n | apply incl_map, Hinc].
  - intros e He _. revert e He.
    apply (NoDup_length_incl (NoDup_map_inv _ _ Hn)); [rewrite Hl; apply le_n | exact Hinc].
Qed.

Lemma gshare_gen : forall a b, gshare (gen_of a) (gen_of b) = share a b.
Proof.
  intros a b. unfold gshare, gen_of, share, pair_eqb.
  destruct (gid a) as [ga|], (gid b) as [gb|]; cbn; rewrite !orb_false_r; [apply orb_assoc | reflexivity..].
Qed.

Lemma uniq_guniqb : forall d, Uniq d -> guniqb (gen_db d) = true.
Proof.
  intros d [Hn Hp]. unfold guniqb, gen_db.
  assert (Hl : NoDup (map fst (map gen_of (filter live d)))).
  { rewrite map_map. exact (NoDup_map_filter _ _ uuid live d Hn). }
  apply andb_true_iff. split; [apply negb_true_iff, dupN_NoDup; exact Hl|].
  apply (apart_complete _ gshare _ fst); [exact Hl|]. intros a' b' Ha Hb E.
  apply in_map_iff in Ha. destruct Ha as [a [<- Ha]]. apply in_map_iff in Hb. destruct Hb as [b [<- Hb]].
  apply filter_In in Ha. apply filter_In in Hb. rewrite gshare_gen in E.
  apply Hp; try apply Ha; try apply Hb. exact E.
Qed.

Lemma steps_agree_guniq : forall l s s',
  Forall Uniq s -> steps_agree s l = Some s' ->
  forallb (fun x => match x with Obs _ _ _ gen => guniqb gen end) l = true /\ Forall Uniq s'.
Proof.
  induction l as [|[o code snap gen] r IH]; intros s s' H Ha; cbn [steps_agree] in Ha.
  - inversion Ha; subst. split; [reflexivity | exact H].
  - destruct (step s o) as [[[rep k] s1]|] eqn:Es; [|discriminate].
    destruct (_ && list_eqb _ _ _) eqn:Ec; [|discriminate].
    apply andb_true_iff in Ec. destruct Ec as [Ec Eg]. apply andb_true_iff in Ec. destruct Ec as [_ Ess].
    assert (U1 : Forall Uniq s1) by (eapply step_uniq; eauto).
    destruct (IH s1 s' U1 Ha) as [A B]. split; [|exact B].
    cbn [forallb]. rewrite A, andb_true_r.
    apply (list_eqb_eq _ gent_eqb gent_eqb_eq) in Eg. subst gen.
    apply uniq_guniqb. exact (same_set_Uniq _ _ Ess (getr_uniq s1 rep U1)).
Qed.

Lemma finals_agree_uniq : forall s f, Forall Uniq s -> finals_agree s f = true -> Forall Uniq f.
Proof.
  induction s as [|d s IH]; intros [|o f] H Hf; cbn in Hf; try discriminate; [constructor|].
  apply andb_prop in Hf. destruct Hf as [Hs Hf]. constructor.
  - exact (same_set_Uniq _ _ Hs (Forall_inv H)).
  - exact (IH _ (Forall_inv_tail H) Hf).
Qed.

Lemma agree_uniq : forall nrep steps full final,
  agree (CHist nrep steps full final) = true ->
  pcheck_steps (CHist nrep steps full final) = true /\ Forall Uniq final.
Proof.
  intros nrep steps full final H. unfold agree in H.
  destruct (steps_agree (init nrep) steps) as [s|] eqn:E; [|discriminate].
  destruct (steps_agree_guniq steps (init nrep) s (init_uniq nrep) E) as [A U].
  split; [exact A | exact (finals_agree_uniq s final U H)].
Qed.
