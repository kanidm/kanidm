(* C19: uuids and the values of schema-unique attributes stay unique among the live entries of every
   replica, under local writes and under incremental replication, and a clash found after a merge sends
   both holders to the conflict state.
   Uniq d (KV.C19.Proofs): no two entries of the database share a uuid, and two LIVE entries holding a
   common value of a schema-unique attribute (name/spn, gidnumber) are one and the same entry. *)
From Coq Require Import List NArith Bool.
Import ListNotations.
Require Import KV.C19.Model KV.C19.Proofs.
Open Scope N_scope.

(* One request, any shape: a create of any number of entries (duplicates inside the request included),
   a rename / gidnumber change hitting any number of entries through its filter, a delete — accepted or
   refused, the database satisfies Uniq afterwards whenever it did before. *)
Theorem C19_inv_local : forall c d, Uniq d ->
  (forall new, Uniq (snd (do_create c new d))) /\
  (forall us fld v, Uniq (snd (do_mod c us fld v d))) /\
  (forall us, Uniq (snd (do_delete c us d))).
Proof.
  intros c d U. split; [|split].
  - intros new. apply do_create_uniq; exact U.
  - intros us fld v. apply do_mod_uniq; exact U.
  - intros us. apply do_delete_uniq; exact U.
Qed.

(* Incremental replication: WHATEVER set of entries the supplier sends (any states, any change ids; only
   "no uuid twice" and "freshly drawn uuids do not collide" are required), the consumer's database
   satisfies Uniq after the apply (uuid clash resolution, per-attribute merge, conflict plugin). *)
Theorem C19_repl_inv : forall me c base inc d,
  Uniq d -> consume_ok base inc d = true -> Uniq (consume me c base inc d).
Proof. exact consume_uniq. Qed.

(* Any number of replicas, any schedule of local requests and replications (separate transactions,
   concurrent writers on different replicas, any clock readings): every replica satisfies Uniq after
   every transaction of every schedule the model accepts. *)
Theorem C19_reachable : forall nrep ops s, run (init nrep) ops = Some s -> Forall Uniq s.
Proof. intros nrep ops s H. exact (run_uniq ops (init nrep) s (init_uniq nrep) H). Qed.

(* The same from any system of replicas that all satisfy Uniq. *)
Theorem C19_inv_schedule : forall ops s s', Forall Uniq s -> run s ops = Some s' -> Forall Uniq s'.
Proof. exact run_uniq. Qed.

(* Who becomes a conflict: after the merge, exactly the live entries that hold a unique value also held
   by ANOTHER live entry are moved to the conflict state (both sides of every clash, nobody else), and
   nothing else changes — the consumer's result is this declarative rule applied to the merged database. *)
Theorem C19_conflict_exact : forall me c base inc d,
  Uniq d -> consume_ok base inc d = true ->
  let d1 := merged me c base inc d in
  consume me c base inc d = map (fun x => if clash1 d1 x then to_conflict c x else x) d1.
Proof. exact consume_declarative. Qed.

(* "Identically on every replica", decision level: the set of entries a consumer conflicts is a function
   of the merged database as a SET of entries — not of which side was consumer, of the candidate list, of
   scan order or of server ids.  Two replicas whose merged databases hold the same entries conflict the
   same entries.  (That the merges produce the same entries is C08's order-independence; it is a premise
   here.  It fails where a merge mints a conflict copy, e.g. one uuid created on both replicas: the copy
   carries the minting consumer's change id and a fresh uuid, and the other replica holds it only after a
   later replication; so the theorem is silent on uuid clashes.)
   PARTIAL with respect to the property's last clause: see C19_convergence_statement. *)
Theorem C19_symmetric_partial : forall meA cA baseA incA dA meB cB baseB incB dB,
  Uniq dA -> consume_ok baseA incA dA = true ->
  Uniq dB -> consume_ok baseB incB dB = true ->
  let mA := merged meA cA baseA incA dA in
  let mB := merged meB cB baseB incB dB in
  (forall x, In x mA <-> In x mB) ->
  forall x, In x mA ->
    (live x && mem (uuid x) (marks (map uuid incA) mA)) = (live x && mem (uuid x) (marks (map uuid incB) mB)).
Proof.
  intros meA cA baseA incA dA meB cB baseB incB dB UA OA UB OB mA mB Hset x Hx.
  unfold mA, mB. rewrite (marks_exact meA cA baseA incA dA UA OA x Hx).
  rewrite (marks_exact meB cB baseB incB dB UB OB x (proj1 (Hset x) Hx)).
  apply clash1_ext. exact Hset.
Qed.

(* The full last clause of the property — at quiescence all replicas hold the same entries, conflict state
   included — is NOT proved for the model (it needs the convergence of the whole replication engine, C08).
   It is stated here and checked at run time on the implementation's own dumps by `pcheck` (all_same). *)
Definition quiescent (s : sys) : Prop :=
  forall i j ct base, consume_ok base (getr s j) (getr s i) = true ->
    forall x, In x (consume i (ct, i) base (getr s j) (getr s i)) <-> In x (getr s i).
Definition C19_convergence_statement : Prop :=
  forall nrep ops s, run (init nrep) ops = Some s -> quiescent s ->
    forall i j x, i < nrep -> j < nrep -> (In x (getr s i) <-> In x (getr s j)).

(* Soundness of the run-time tie (PARTIAL: covers the per-transaction dumps and the final tracked entries;
   the whole-database dumps, which include built-in entries the model does not track, the equality of
   replicas at quiescence and the "both sides of a clash" scan are checked on the observations only):
   whenever the implementation's observations agree with the model, the property's executable predicate
   holds on them. *)
Theorem C19_agree_implies_property_partial : forall c, agree c = true ->
  pcheck_steps c = true /\
  match c with CHist _ _ _ final => forallb uniqb final = true end.
Proof.
  intros [nrep steps full final] H. destruct (agree_uniq _ _ _ _ H) as [A U].
  split; [exact A|]. apply forallb_forall. intros d Hd.
  apply uniqb_Uniq. exact (proj1 (Forall_forall _ _) U d Hd).
Qed.

(* What the three uniqueness conjuncts of pcheck mean on the implementation's dumps; its other two
   conjuncts, all_same and both_sides, are read as they stand. *)
Theorem C19_pcheck_sound : forall c, pcheck c = true ->
  match c with CHist _ steps full final =>
    (forall o k snap gen, In (Obs o k snap gen) steps ->
       NoDup (map fst gen) /\ forall a b, In a gen -> In b gen -> gshare a b = true -> a = b) /\
    (forall g, In g full ->
       NoDup (map fst g) /\ forall a b, In a g -> In b g -> gshare a b = true -> a = b) /\
    Forall Uniq final
  end.
Proof.
  intros [nrep steps full final] H. unfold pcheck, pcheck_steps in H.
  apply andb_prop in H as [H _]. apply andb_prop in H as [H _].
  apply andb_prop in H as [H Hu]. apply andb_prop in H as [Hs Hf].
  rewrite forallb_forall in Hs, Hf, Hu. split; [|split].
  - intros o k snap gen Hin. apply guniqb_sound. exact (Hs _ Hin).
  - intros g Hg. apply guniqb_sound, Hf, Hg.
  - apply Forall_forall. intros d Hd. apply uniqb_Uniq, Hu, Hd.
Qed.
