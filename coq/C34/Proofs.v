(* KV.C34.Proofs — a merge leaves under each key id the better of the two bindings, which is Revoked
   as soon as one of them is; hence what one replica keeps through any op: a key that is revoked or
   absent (dead), a key that is present and not revoked (alive). The signer scan returns the newest
   started slot, which is the newest Valid key while the active map and the key map agree (Ainv,
   Binv / BinvX). *)
From Coq Require Import List NArith Bool Lia PeanoNat.
Import ListNotations.
Require Import KV.C34.Model.
Open Scope N_scope.

Arguments N.add : simpl never.
Arguments N.sub : simpl never.
Arguments N.ltb : simpl never.
Arguments N.leb : simpl never.
Arguments N.eqb : simpl never.
Arguments N.div : simpl never.

Lemma or_swap : forall P Q R : Prop, P \/ Q \/ R <-> Q \/ P \/ R.
Proof. tauto. Qed.

Section Assoc.
Context {A : Type}.
Implicit Types (l : list (N * A)) (k : N) (v : A).

Lemma find_In : forall l k v, find k l = Some v -> In (k, v) l.
Proof.
  induction l as [|[k' v'] t IH]; cbn [find]; intros k v H; [discriminate|].
  destruct (N.eqb_spec k k') as [->|Hne].
  - inversion H; subst. now left.
  - right. now apply IH.
Qed.

Lemma find_none : forall l k, find k l = None <-> forall v, ~ In (k, v) l.
Proof.
  induction l as [|[k' v'] t IH]; cbn [find In]; intros k; [split; [intros _ v []|reflexivity]|].
  destruct (N.eqb_spec k k') as [->|Hne].
  - split; [discriminate|]. intros H. exfalso. apply (H v'). now left.
  - rewrite IH. split; intros H v; [intros [E|Hin]; [congruence|now apply (H v)]|intros Hin; apply (H v); now right].
Qed.

Definition uniq l := NoDup (map fst l).

Lemma uniq_In_find : forall l k v, uniq l -> In (k, v) l -> find k l = Some v.
Proof.
  induction l as [|[k' v'] t IH]; cbn [find]; intros k v Hu Hin; [destruct Hin|].
  unfold uniq in Hu. cbn in Hu. inversion Hu as [|? ? Hni Hu']; subst.
  destruct Hin as [Hin|Hin].
  - inversion Hin; subst. now rewrite N.eqb_refl.
  - destruct (N.eqb_spec k k') as [->|Hne].
    + exfalso. apply Hni. now apply (in_map fst) in Hin.
    + now apply IH.
Qed.

Lemma In_place : forall l k v p, In p (place k v l) <-> In p ((k, v) :: l).
Proof.
  induction l as [|[k' v'] t IH]; cbn [place]; intros k v p; [reflexivity|].
  destruct (k <? k'); [reflexivity|]. cbn [In]. rewrite IH. apply or_swap.
Qed.

Lemma In_ins : forall l k v k0 x,
  In (k0, x) (ins k v l) <-> (k0 = k /\ x = v) \/ (k0 <> k /\ In (k0, x) l).
Proof.
  intros l k v k0 x. unfold ins. rewrite In_place. cbn [In]. rewrite filter_In. cbn [fst].
  rewrite negb_true_iff, N.eqb_neq. intuition congruence.
Qed.

Lemma In_ins_same : forall l k v x, In (k, x) (ins k v l) <-> x = v.
Proof. intros. rewrite In_ins. split; [intros [[_ E]|[Hne _]]; [exact E|now contradiction Hne]|auto]. Qed.

Lemma In_ins_other : forall l k v k0 x, k0 <> k -> (In (k0, x) (ins k v l) <-> In (k0, x) l).
Proof. intros l k v k0 x Hne. rewrite In_ins. split; [intros [[E _]|[_ H]]; [contradiction|exact H]|auto]. Qed.

Lemma keys_place : forall l k v x, In x (map fst (place k v l)) <-> In x (k :: map fst l).
Proof.
  induction l as [|[k' v'] t IH]; cbn [place]; intros k v x; [reflexivity|].
  destruct (k <? k'); [reflexivity|]. cbn [map fst In]. rewrite IH. apply or_swap.
Qed.

Lemma uniq_place : forall l k v, uniq l -> ~ In k (map fst l) -> uniq (place k v l).
Proof.
  unfold uniq. induction l as [|[k' v'] t IH]; cbn [place]; intros k v Hu Hni.
  - cbn. constructor; [intros []|constructor].
  - destruct (k <? k'); [now constructor|].
    cbn in Hu, Hni |- *. inversion Hu as [|? ? Hn Hu']; subst. constructor.
    + rewrite keys_place. intros [->|H]; [apply Hni; now left|contradiction].
    + apply IH; [assumption|]. intros H. apply Hni. now right.
Qed.

Lemma keys_filter : forall (f : N * A -> bool) l k,
  In k (map fst (filter f l)) <-> exists v, In (k, v) l /\ f (k, v) = true.
Proof.
  intros f l k. rewrite in_map_iff. split.
  - intros [[k2 v] [E H]]. cbn in E. subst. apply filter_In in H. eauto.
  - intros [v H]. exists (k, v). split; [reflexivity|now apply filter_In].
Qed.

Lemma uniq_filter : forall (f : N * A -> bool) l, uniq l -> uniq (filter f l).
Proof.
  unfold uniq. intros f. induction l as [|[k v] t IH]; cbn; intros Hu; [constructor|].
  inversion Hu as [|? ? Hn Hu']; subst.
  destruct (f (k, v)); cbn; [constructor|]; auto.
  intros H. apply Hn. apply keys_filter in H. destruct H as [v2 [H _]]. now apply (in_map fst) in H.
Qed.

Lemma uniq_ins : forall l k v, uniq l -> uniq (ins k v l).
Proof.
  intros l k v Hu. unfold ins. apply uniq_place; [now apply uniq_filter|].
  intros H. apply keys_filter in H. destruct H as [v2 [_ H]]. cbn in H. now rewrite N.eqb_refl in H.
Qed.

Lemma find_ins_same : forall l k v, uniq l -> find k (ins k v l) = Some v.
Proof.
  intros l k v Hu. apply uniq_In_find; [now apply uniq_ins|]. now apply In_ins_same.
Qed.

Lemma find_ins_other : forall l k v k0, uniq l -> k0 <> k -> find k0 (ins k v l) = find k0 l.
Proof.
  intros l k v k0 Hu Hne. destruct (find k0 l) as [x|] eqn:Hf.
  - apply uniq_In_find; [now apply uniq_ins|]. apply In_ins_other; [assumption|now apply find_In].
  - apply find_none. intros x Hin. apply In_ins_other in Hin; [|assumption].
    now apply (proj1 (find_none _ _) Hf x).
Qed.
End Assoc.

Lemma In_cons : forall (x y : N) l, In x (y :: l) <-> x = y \/ In x l.
Proof. intros. cbn [In]. split; intros [H|H]; auto. Qed.

Lemma mem_In : forall l x, mem x l = true <-> In x l.
Proof.
  induction l as [|y t IH]; intros x; [split; [discriminate|intros []]|].
  cbn [mem]. now rewrite In_cons, orb_true_iff, IH, N.eqb_eq.
Qed.

Lemma In_add : forall l x y, In x (add y l) <-> x = y \/ In x l.
Proof.
  intros l x y. rewrite <- In_cons.
  induction l as [|z t IH]; cbn [add]; [reflexivity|]. destruct (y <? z); [reflexivity|].
  destruct (N.eqb_spec y z) as [->|Hne]; cbn [In] in *; [split; [now right|intros [E|H]; [now left|exact H]]|].
  rewrite IH. apply or_swap.
Qed.

Lemma uniq_merge1 : forall acc e, uniq acc -> uniq (merge1 acc e).
Proof.
  intros acc [k2 v2] Hu. unfold merge1.
  destruct (find k2 acc) as [vs|]; [destruct (better v2 vs)|]; auto using uniq_ins.
Qed.

Lemma uniq_merge : forall b a, uniq a -> uniq (merge a b).
Proof.
  unfold merge. induction b as [|e t IH]; cbn [fold_left]; intros a Hu; [assumption|].
  apply IH. now apply uniq_merge1.
Qed.

(* what a merge leaves under one key id: the better of the two bindings *)
Definition join (va vb : option key) : option key :=
  match va, vb with
  | Some x, Some y => Some (if better y x then y else x)
  | None, v | v, None => v
  end.

Lemma find_merge1 : forall acc k2 v2 k, uniq acc ->
  find k (merge1 acc (k2, v2)) = if k =? k2 then join (find k2 acc) (Some v2) else find k acc.
Proof.
  intros acc k2 v2 k Hu. unfold merge1.
  destruct (N.eqb_spec k k2) as [->|Hne]; destruct (find k2 acc) as [vs|] eqn:Hf; cbn [join];
    try destruct (better v2 vs); auto using find_ins_same, find_ins_other.
Qed.

Lemma find_merge : forall k b a, uniq a -> uniq b -> find k (merge a b) = join (find k a) (find k b).
Proof.
  intros k. unfold merge. induction b as [|[k2 v2] t IH]; cbn [fold_left find]; intros a Ha Hb.
  - now destruct (find k a).
  - inversion Hb as [|? ? Hni Ht]; subst.
    rewrite IH, find_merge1 by auto using uniq_merge1.
    destruct (N.eqb_spec k k2) as [->|Hne]; [|reflexivity].
    assert (Hn : find k2 t = None) by (apply find_none; intros v Hin; apply Hni; now apply (in_map fst) in Hin).
    rewrite Hn. now destruct (find k2 a).
Qed.

Lemma In_merge : forall a b k z, uniq a -> uniq b ->
  (In (k, z) (merge a b) <-> join (find k a) (find k b) = Some z).
Proof.
  intros a b k z Ha Hb. rewrite <- find_merge by assumption.
  split; [apply uniq_In_find; now apply uniq_merge|apply find_In].
Qed.

Lemma join_cases : forall va vb z, join va vb = Some z -> va = Some z \/ vb = Some z.
Proof. intros [x|] [y|]; cbn; try destruct (better y x); auto. Qed.

Lemma join_some : forall va vb x, va = Some x \/ vb = Some x -> exists z, join va vb = Some z.
Proof. intros [x'|] [y|] x [H|H]; cbn; try discriminate; eauto. Qed.

Lemma better_revoked : forall vo vs,
  k_st vo = Revoked \/ k_st vs = Revoked -> k_st (if better vo vs then vo else vs) = Revoked.
Proof.
  intros vo vs H. unfold better.
  destruct (k_st vo) eqn:Ho, (k_st vs) eqn:Hs; cbn; try (destruct H; discriminate); try assumption.
  now destruct (cid_ltb (k_cid vo) (k_cid vs)).
Qed.

Lemma join_revoked : forall va vb x z,
  join va vb = Some z -> va = Some x \/ vb = Some x -> k_st x = Revoked -> k_st z = Revoked.
Proof.
  intros [p|] [q|] x z; cbn; intros Hz [E|E] Hx; inversion Hz; inversion E; subst; auto;
    apply better_revoked; auto.
Qed.

Definition allQ (Q : key -> Prop) (l : stored) (k : N) : Prop := forall x, In (k, x) l -> Q x.
(* in particular a key id that l does not hold is dead in l *)
Definition dead := allQ (fun x => k_st x = Revoked).

Lemma allQ_ext : forall (Q : key -> Prop) l l' k,
  (forall x, In (k, x) l' <-> In (k, x) l) -> allQ Q l k -> allQ Q l' k.
Proof. intros Q l l' k H Ha x Hx. now apply Ha, H. Qed.

Lemma allQ_merge : forall (Q : key -> Prop) a b k,
  uniq a -> uniq b -> allQ Q a k -> allQ Q b k -> allQ Q (merge a b) k.
Proof.
  intros Q a b k Ua Ub Ha Hb z Hz. apply In_merge, join_cases in Hz; [|assumption..].
  destruct Hz as [H|H]; apply find_In in H; auto.
Qed.

Lemma merge_present : forall a b k x,
  uniq a -> uniq b -> In (k, x) a \/ In (k, x) b -> exists z, In (k, z) (merge a b).
Proof.
  intros a b k x Ua Ub H.
  destruct (join_some (find k a) (find k b) x) as [z Hz].
  - destruct H as [H|H]; [left|right]; now apply uniq_In_find.
  - exists z. now apply In_merge.
Qed.

Lemma merge_dead : forall a b k x,
  uniq a -> uniq b -> In (k, x) a \/ In (k, x) b -> k_st x = Revoked -> dead (merge a b) k.
Proof.
  intros a b k x Ua Ub H Hx z Hz. apply In_merge in Hz; [|assumption..].
  apply (join_revoked _ _ x z Hz); [|assumption].
  destruct H as [H|H]; [left|right]; now apply uniq_In_find.
Qed.

Lemma allQ_ins_other : forall (Q : key -> Prop) l k k2 v, k <> k2 -> allQ Q l k -> allQ Q (ins k2 v l) k.
Proof. intros Q l k k2 v Hne. apply allQ_ext. intros x. now apply In_ins_other. Qed.

Lemma allQ_ins_same : forall (Q : key -> Prop) l k v, Q v -> allQ Q (ins k v l) k.
Proof.
  intros Q l k v Hq x Hin. apply In_ins_same in Hin. now subst.
Qed.

Lemma In_ins_present : forall (l : stored) k k2 v x, In (k, x) l -> exists y, In (k, y) (ins k2 v l).
Proof.
  intros l k k2 v x H.
  destruct (N.eq_dec k k2) as [->|Hne]; [exists v; now apply In_ins_same|exists x; now apply In_ins_other].
Qed.

Lemma In_trim : forall t l e, In e (trim t l) -> In e l.
Proof. intros t l e H. unfold trim in H. apply filter_In in H. apply H. Qed.

Lemma uniq_trim : forall t l, uniq l -> uniq (trim t l).
Proof. intros. unfold trim. now apply uniq_filter. Qed.

Lemma In_trim_keep : forall t l k x,
  In (k, x) l -> is_revoked (k_st x) = false -> In (k, x) (trim t l).
Proof.
  intros t l k x H Hr. unfold trim. apply filter_In. split; [assumption|]. cbn [snd]. now rewrite Hr.
Qed.

Lemma allQ_trim : forall (Q : key -> Prop) t l k, allQ Q l k -> allQ Q (trim t l) k.
Proof. intros Q t l k H x Hin. apply H. eapply In_trim; eauto. Qed.

Lemma uniq_repl_merge : forall a b t, uniq a -> uniq (repl_merge a b t).
Proof. intros. now apply uniq_trim, uniq_merge. Qed.

Lemma allQ_repl_merge : forall (Q : key -> Prop) a b t k,
  uniq a -> uniq b -> allQ Q a k -> allQ Q b k -> allQ Q (repl_merge a b t) k.
Proof. intros. now apply allQ_trim, allQ_merge. Qed.

Lemma repl_merge_dead : forall a b t k x,
  uniq a -> uniq b -> In (k, x) a \/ In (k, x) b -> k_st x = Revoked -> dead (repl_merge a b t) k.
Proof. intros. eapply allQ_trim, merge_dead; eauto. Qed.

Lemma is_valid_true : forall s, is_valid s = true <-> s = Valid.
Proof. intros []; cbn; split; congruence. Qed.

Lemma retain_cases : forall e kid,
  retain e kid = e \/
  exists x, In (kid, x) e /\ k_st x = Valid /\
            retain e kid = ins kid (mkkey (k_us x) (k_vf x) Retained (k_cid x)) e.
Proof.
  intros e kid. unfold retain. destruct (find kid e) as [x|] eqn:Hf; [|now left].
  destruct (is_valid (k_st x)) eqn:Hv; [|now left].
  right. exists x. apply find_In in Hf. apply is_valid_true in Hv. auto.
Qed.

Lemma uniq_retain : forall e kid, uniq e -> uniq (retain e kid).
Proof.
  intros e kid Hu. destruct (retain_cases e kid) as [->|[x [_ [_ ->]]]]; [assumption|now apply uniq_ins].
Qed.

Lemma retain_present : forall e kid k x, In (k, x) e -> exists y, In (k, y) (retain e kid).
Proof.
  intros e kid k x H. destruct (retain_cases e kid) as [->|[x' [_ [_ ->]]]]; [eauto|].
  eapply In_ins_present; eauto.
Qed.

Lemma allQ_retain : forall (Q : key -> Prop) e kid k,
  (forall x, k_st x = Valid -> Q x -> Q (mkkey (k_us x) (k_vf x) Retained (k_cid x))) ->
  allQ Q e k -> allQ Q (retain e kid) k.
Proof.
  intros Q e kid k HQ H. destruct (retain_cases e kid) as [->|[x [Hx [Hv ->]]]]; [assumption|].
  destruct (N.eq_dec k kid) as [->|Hne]; [|now apply allQ_ins_other].
  apply allQ_ins_same. auto.
Qed.

Lemma all_new_active : forall fx o u vf kid c,
  o_all (new_active fx o u vf kid c) = ins kid (mkkey u vf Valid c) (o_all o).
Proof. reflexivity. Qed.

Lemma all_assert : forall fx o u t kid c,
  o_all (assert_active fx o u t kid c) = o_all o \/
  o_all (assert_active fx o u t kid c) = ins kid (mkkey u (secs_of t) Valid c) (o_all o).
Proof. intros. unfold assert_active. destruct (signer o u (secs_of t)); cbn; auto. Qed.

Lemma assert_keeps : forall fx o u t kid c k x,
  kid <> k -> (In (k, x) (o_all (assert_active fx o u t kid c)) <-> In (k, x) (o_all o)).
Proof.
  intros fx o u t kid c k x Hne. destruct (all_assert fx o u t kid c) as [->| ->]; [reflexivity|].
  now apply In_ins_other, not_eq_sym.
Qed.

Definition rot_kid (news : list (N * N)) (u : N) : N :=
  match find u news with Some k => k | None => 0 end.

(* a rotation is a series of [new_active] with the supplied kids *)
Lemma rotate_inv : forall (P : obj -> Prop) fx t c news,
  (forall o u, P o -> P (new_active fx o u (secs_of t) (rot_kid news u) c)) ->
  forall o, P o -> P (rotate fx o t c news).
Proof.
  intros P fx t c news Hstep o. unfold rotate. generalize (o_pres o) as us. intros us. revert o.
  induction us as [|u us IH]; cbn [fold_left]; intros o HP; [assumption|]. apply IH, Hstep, HP.
Qed.

Lemma uniq_rotate : forall fx o t c news, uniq (o_all o) -> uniq (o_all (rotate fx o t c news)).
Proof.
  intros fx o t c news. apply (rotate_inv (fun o => uniq (o_all o))). intros o' u Hu.
  rewrite all_new_active. now apply uniq_ins.
Qed.

Lemma rotate_keeps : forall fx o t c news k x,
  (forall u, rot_kid news u <> k) ->
  (In (k, x) (o_all (rotate fx o t c news)) <-> In (k, x) (o_all o)).
Proof.
  intros fx o t c news k x Hne. apply rotate_inv; [|reflexivity].
  intros o' u <-. rewrite all_new_active. apply In_ins_other, not_eq_sym, Hne.
Qed.

Lemma revoke1_ok : forall fx o kid c o',
  revoke1 fx o kid c = (o', true) ->
  exists x, find kid (o_all o) = Some x /\
    o' = mkobj (o_pres o) (act_rem fx (k_us x, k_vf x, kid) (o_act o))
               (ins kid (mkkey (k_us x) (k_vf x) Revoked c) (o_all o)).
Proof.
  intros fx o kid c o' H. unfold revoke1 in H. destruct (find kid (o_all o)) as [x|]; [|discriminate].
  destruct (norerevoke (k_us x) && is_revoked (k_st x)); inversion H. eauto.
Qed.

(* a revocation is a series of successful [revoke1] *)
Lemma revoke_all_inv : forall (P : obj -> Prop) fx c kids,
  (forall o kid o', In kid kids -> revoke1 fx o kid c = (o', true) -> P o -> P o') ->
  forall o o', revoke_all fx o kids c = Some o' -> P o -> P o'.
Proof.
  intros P fx c. induction kids as [|kid t IH]; cbn [revoke_all]; intros Hstep o o' H HP.
  - inversion H; subst. exact HP.
  - destruct (revoke1 fx o kid c) as [o1 ok] eqn:Hr. destruct ok; [|discriminate].
    apply (IH (fun o k o' Hin => Hstep o k o' (or_intror Hin)) _ _ H).
    apply (Hstep o kid); auto. now left.
Qed.

Lemma uniq_revoke_all : forall fx c kids o o',
  revoke_all fx o kids c = Some o' -> uniq (o_all o) -> uniq (o_all o').
Proof.
  intros fx c kids. apply (revoke_all_inv (fun o => uniq (o_all o))). intros o kid o' _ Hr Hu.
  apply revoke1_ok in Hr. destruct Hr as [x [_ ->]]. now apply uniq_ins.
Qed.

Lemma revoke_all_keeps : forall fx c kids o o' k x,
  revoke_all fx o kids c = Some o' -> ~ In k kids -> (In (k, x) (o_all o') <-> In (k, x) (o_all o)).
Proof.
  intros fx c kids o o' k x H Hk.
  apply (revoke_all_inv (fun o1 => In (k, x) (o_all o1) <-> In (k, x) (o_all o)) _ _ _) in H; [assumption| |reflexivity].
  intros o1 kid o2 Hin Hr <-. apply revoke1_ok in Hr. destruct Hr as [y [_ ->]]. cbn [o_all].
  apply In_ins_other. intros ->. contradiction.
Qed.

Lemma revoke1_dead : forall fx o kid c o' k,
  revoke1 fx o kid c = (o', true) -> k = kid \/ dead (o_all o) k -> dead (o_all o') k.
Proof.
  intros fx o kid c o' k Hr H. apply revoke1_ok in Hr. destruct Hr as [x [_ ->]]. cbn [o_all].
  destruct (N.eq_dec k kid) as [->|Hne]; [now apply allQ_ins_same|].
  apply allQ_ins_other; [assumption|]. now destruct H.
Qed.

Lemma dead_revoke_all : forall fx c kids o o' k,
  revoke_all fx o kids c = Some o' -> dead (o_all o) k -> dead (o_all o') k.
Proof.
  intros fx c kids o o' k. apply (revoke_all_inv (fun o => dead (o_all o) k)).
  intros o1 kid o2 _ Hr Hd. eapply revoke1_dead; eauto.
Qed.

Lemma revoke1_kills : forall fx o kid c o' k,
  revoke1 fx o kid c = (o', true) ->
  k = kid \/ (dead (o_all o) k /\ exists x, In (k, x) (o_all o)) ->
  dead (o_all o') k /\ exists x, In (k, x) (o_all o').
Proof.
  intros fx o kid c o' k Hr H. split; [eapply revoke1_dead; [eassumption|]; destruct H as [H|[H _]]; auto|].
  apply revoke1_ok in Hr. destruct Hr as [y [_ ->]]. cbn [o_all].
  destruct H as [->|[_ [x Hx]]]; [|eapply In_ins_present; eauto]. eexists. now apply In_ins_same.
Qed.

Lemma revoke_all_kills : forall fx c kids o o' k,
  revoke_all fx o kids c = Some o' ->
  In k kids \/ (dead (o_all o) k /\ exists x, In (k, x) (o_all o)) ->
  dead (o_all o') k /\ exists x, In (k, x) (o_all o').
Proof.
  intros fx c. induction kids as [|kid t IH]; cbn [revoke_all]; intros o o' k H Hk.
  - inversion H; subst. now destruct Hk.
  - destruct (revoke1 fx o kid c) as [o1 ok] eqn:Hr. destruct ok; [|discriminate].
    apply (IH _ _ _ H). destruct Hk as [[<-|Hk]|Hk]; [right|now left|right]; eapply revoke1_kills; eauto.
Qed.

Lemma load_all : forall fx e, o_all (load fx e) = e.
Proof. reflexivity. Qed.

Lemma nth_setn_other : forall {A} (l : list A) n n' x d, n' <> n -> nth n' (setn n x l) d = nth n' l d.
Proof.
  induction l as [|h t IH]; intros n n' x d Hne; [now destruct n|].
  destruct n, n'; cbn [setn nth]; try congruence. apply IH. congruence.
Qed.

(* an index out of range reads the default and writes nothing *)
Lemma nth_setn_same : forall {A} (l : list A) n x d,
  nth n (setn n x l) d = x \/ (nth n l d = d /\ setn n x l = l).
Proof.
  induction l as [|h t IH]; intros n x d; [right; now destruct n|].
  destruct n as [|n]; cbn [setn nth]; [now left|].
  destruct (IH n x d) as [H|[H1 H2]]; [now left|right]. now rewrite H2.
Qed.

Lemma getr_setr_same : forall cl r x,
  getr (setr cl r x) r = x \/ (getr cl r = rep0 /\ setr cl r x = cl).
Proof. intros. apply nth_setn_same. Qed.

Lemma getr_setr_here : forall (P : rep -> Prop) cl r x, P x -> P rep0 -> P (getr (setr cl r x) r).
Proof. intros P cl r x Hx H0. destruct (getr_setr_same cl r x) as [->|[E ->]]; [assumption|now rewrite E]. Qed.

Lemma getr_setr : forall (P : rep -> Prop) cl r x r0,
  P (getr cl r0) -> (r0 = r -> P x) -> P (getr (setr cl r x) r0).
Proof.
  intros P cl r x r0 Hold Hnew. destruct (N.eq_dec r0 r) as [->|Hne].
  - destruct (getr_setr_same cl r x) as [->|[_ ->]]; auto.
  - unfold getr, setr. rewrite nth_setn_other; [assumption|]. intros E. now apply Hne, N2Nat.inj.
Qed.

Lemma getr_repeat : forall n r, getr (repeat rep0 n) r = rep0.
Proof.
  intros n r. unfold getr. destruct (nth_in_or_default (N.to_nat r) (repeat rep0 n) rep0) as [H|H]; [|exact H].
  now apply repeat_spec in H.
Qed.

(* What an op makes of the replica it acts on: assert, rotate and a successful revoke work on the
   live object and leave the entry alone; commit, abort, replicate and retain produce an entry,
   from which the object is loaded anew. *)
Inductive obj_upd (fx : bool) (ob : obj) : op -> obj -> Prop :=
| UAssert r u t c kid : obj_upd fx ob (OAssert r u t c kid) (assert_active fx ob u t kid c)
| URotate r t c news : obj_upd fx ob (ORotate r t c news) (rotate fx ob t c news)
| URevoke r kids c ob' : revoke_all fx ob kids c = Some ob' -> obj_upd fx ob (ORevoke r kids c) ob'.

Inductive ent_upd (cl : cluster) : op -> stored -> Prop :=
| UCommit r : ent_upd cl (OCommit r) (merge (r_ent (getr cl r)) (o_all (r_obj (getr cl r))))
| UAbort r : ent_upd cl (OAbort r) (r_ent (getr cl r))
| URepl src dst flip t : ent_upd cl (ORepl src dst flip t)
    (if flip then repl_merge (r_ent (getr cl src)) (r_ent (getr cl dst)) t
     else repl_merge (r_ent (getr cl dst)) (r_ent (getr cl src)) t)
| URetain r kid : ent_upd cl (ORetain r kid) (retain (r_ent (getr cl r)) kid).

Lemma step_getr : forall (P : rep -> Prop) fx cl o r0,
  P (getr cl r0) ->
  (forall ob', obj_upd fx (r_obj (getr cl r0)) o ob' -> op_rep o = r0 -> P (mkrep (r_ent (getr cl r0)) ob')) ->
  (forall e, ent_upd cl o e -> op_rep o = r0 -> P (mkrep e (load fx e))) ->
  P (getr (fst (step fx cl o)) r0).
Proof.
  intros P fx cl o r0 Hold Hobj Hent.
  destruct o; cbn [step fst]; try exact Hold;
    try (destruct (revoke_all fx (r_obj (getr cl r)) kids c) as [ob'|] eqn:Hrv; cbn [fst]; [|exact Hold]);
    (apply getr_setr; [exact Hold|intros ->]);
    (apply Hobj + apply Hent); (reflexivity + now constructor).
Qed.

Definition Urep (x : rep) : Prop := uniq (r_ent x) /\ uniq (o_all (r_obj x)).
Definition Ucl (cl : cluster) : Prop := forall r, Urep (getr cl r).

Lemma Urep0 : Urep rep0.
Proof. split; constructor. Qed.

Lemma Ucl_repeat : forall n, Ucl (repeat rep0 n).
Proof. intros n r. rewrite getr_repeat. apply Urep0. Qed.

Lemma uniq_ent_upd : forall cl o e, Ucl cl -> ent_upd cl o e -> uniq e.
Proof.
  intros cl o e HU He. destruct He; try destruct flip;
    auto using uniq_merge, uniq_repl_merge, uniq_retain, (fun r => proj1 (HU r)).
Qed.

Lemma uniq_obj_upd : forall fx ob o ob', uniq (o_all ob) -> obj_upd fx ob o ob' -> uniq (o_all ob').
Proof.
  intros fx ob o ob' Hu Hx. destruct Hx as [r u t c kid|r t c news|r kids c ob' Hrv].
  - destruct (all_assert fx ob u t kid c) as [->| ->]; [assumption|now apply uniq_ins].
  - now apply uniq_rotate.
  - eapply uniq_revoke_all; eauto.
Qed.

Lemma step_U : forall fx cl o, Ucl cl -> Ucl (fst (step fx cl o)).
Proof.
  intros fx cl o HU r0. apply step_getr; [apply HU| |].
  - intros ob' Hx _. split; [apply HU|]. eapply uniq_obj_upd; [apply HU|eassumption].
  - intros e He _. split; eapply uniq_ent_upd; eauto.
Qed.

Lemma run_U : forall fx ops cl, Ucl cl -> Ucl (run fx cl ops).
Proof.
  intros fx. induction ops as [|o t IH]; cbn [run]; intros cl HU; [assumption|].
  apply IH. now apply step_U.
Qed.

Definition deadR (x : rep) (k : N) : Prop := dead (r_ent x) k /\ dead (o_all (r_obj x)) k.

Lemma deadR0 : forall k, deadR rep0 k.
Proof. intros k. split; intros x []. Qed.

Lemma dead_reload : forall fx e k, dead e k -> deadR (mkrep e (load fx e)) k.
Proof. now split. Qed.

(* the op cannot bring k back un-revoked at r0: a key generated at r0 does not get the id k, and
   every entry merged into r0 holds k revoked or not at all *)
Definition safe_op (cl : cluster) (r0 k : N) (o : op) : Prop :=
  match o with
  | OAssert r _ _ _ kid => r = r0 -> kid <> k
  | ORotate r _ _ news => r = r0 -> forall u, rot_kid news u <> k
  | ORepl src dst _ _ => dst = r0 -> dead (r_ent (getr cl src)) k
  | _ => True
  end.

Lemma step_dead : forall fx cl r0 k o,
  Ucl cl -> deadR (getr cl r0) k -> safe_op cl r0 k o ->
  deadR (getr (fst (step fx cl o)) r0) k.
Proof.
  intros fx cl r0 k o HU Hd Hs. apply step_getr; [exact Hd| |].
  - intros ob' Hx E. split; [apply Hd|]. destruct Hd as [_ Hd]. cbn [r_obj].
    destruct Hx as [r u t c kid|r t c news|r kids c ob' Hrv]; cbn [safe_op op_rep] in Hs, E.
    + eapply allQ_ext; [|eassumption]. intros x. apply assert_keeps. auto.
    + eapply allQ_ext; [|eassumption]. intros x. apply rotate_keeps. auto.
    + eapply dead_revoke_all; eauto.
  - intros e He E. apply dead_reload. destruct Hd as [Hd Hd'].
    destruct He as [r|r|src dst flip t|r kid]; cbn [safe_op op_rep] in Hs, E; subst.
    + apply allQ_merge; auto; apply HU.
    + exact Hd.
    + specialize (Hs eq_refl). destruct flip; apply allQ_repl_merge; auto; apply HU.
    + apply allQ_retain; [congruence|exact Hd].
Qed.

Fixpoint safe_hist (fx : bool) (cl : cluster) (r0 k : N) (ops : list op) : Prop :=
  match ops with
  | [] => True
  | o :: t => safe_op cl r0 k o /\ safe_hist fx (fst (step fx cl o)) r0 k t
  end.

Lemma run_dead : forall fx ops cl r0 k,
  Ucl cl -> deadR (getr cl r0) k -> safe_hist fx cl r0 k ops ->
  deadR (getr (run fx cl ops) r0) k.
Proof.
  intros fx. induction ops as [|o t IH]; cbn [run safe_hist]; intros cl r0 k HU Hd Hs; [assumption|].
  destruct Hs as [Hs Ht]. apply IH; [now apply step_U|now apply step_dead|assumption].
Qed.

Lemma dead_verify : forall o u k good, dead (o_all o) k -> verify o u k good <> VOk.
Proof.
  intros o u k good Hd. unfold verify. destruct (negb (mem u (o_pres o))); [discriminate|].
  destruct (find k (o_all o)) as [x|] eqn:Hf; [|discriminate].
  apply find_In in Hf. apply Hd in Hf. rewrite Hf. cbn. destruct (negb (k_us x =? u)); discriminate.
Qed.

Lemma revoke_dead_now : forall fx cl r kids c cl' k,
  step fx cl (ORevoke r kids c) = (cl', OutRev true) -> In k kids ->
  dead (o_all (r_obj (getr cl' r))) k /\ exists x, In (k, x) (o_all (r_obj (getr cl' r))).
Proof.
  intros fx cl r kids c cl' k Hs Hk. cbn [step] in Hs.
  destruct (revoke_all fx (r_obj (getr cl r)) kids c) as [o'|] eqn:Hrv; inversion Hs; subst; clear Hs.
  destruct (getr_setr_same cl r (mkrep (r_ent (getr cl r)) o')) as [->|[E _]].
  - eapply revoke_all_kills; eauto.
  - (* out of range: the replica is the empty one, where no revoke succeeds *)
    rewrite E in Hrv. destruct kids; [destruct Hk|discriminate Hrv].
Qed.

Lemma commit_dead : forall fx cl r k,
  Ucl cl -> dead (o_all (r_obj (getr cl r))) k -> (exists x, In (k, x) (o_all (r_obj (getr cl r)))) ->
  deadR (getr (fst (step fx cl (OCommit r))) r) k.
Proof.
  intros fx cl r k HU Hd [x Hx]. cbn [step fst]. apply getr_setr_here; [|apply deadR0].
  apply dead_reload. eapply merge_dead; eauto; apply HU.
Qed.

Lemma repl_spreads : forall fx cl src dst flip t k,
  Ucl cl -> dead (r_ent (getr cl src)) k -> (exists x, In (k, x) (r_ent (getr cl src))) ->
  deadR (getr (fst (step fx cl (ORepl src dst flip t))) dst) k.
Proof.
  intros fx cl src dst flip t k HU Hd [x Hx]. cbn [step fst]. apply getr_setr_here; [|apply deadR0].
  apply dead_reload. destruct flip; eapply repl_merge_dead; eauto; apply HU.
Qed.

Definition okkey (u : N) (x : key) : Prop := is_revoked (k_st x) = false /\ k_us x = u.
Definition alive (u : N) (l : stored) (k : N) : Prop := (exists x, In (k, x) l) /\ allQ (okkey u) l k.
Definition aliveR (u : N) (x : rep) (k : N) : Prop :=
  alive u (r_ent x) k /\ alive u (o_all (r_obj x)) k.

(* the op cannot take k away or revoke it at r0: a key generated at r0 does not get the id k, a revoke at r0
   does not name k, and every entry merged into r0 holds k not revoked and of usage u, or not at all *)
Definition keep_op (cl : cluster) (r0 u k : N) (o : op) : Prop :=
  match o with
  | OAssert r _ _ _ kid => r = r0 -> kid <> k
  | ORotate r _ _ news => r = r0 -> forall u', rot_kid news u' <> k
  | ORevoke r kids _ => r = r0 -> ~ In k kids
  | ORepl src dst _ _ => dst = r0 -> allQ (okkey u) (r_ent (getr cl src)) k
  | _ => True
  end.

Lemma alive_ext : forall u l l' k, (forall x, In (k, x) l' <-> In (k, x) l) -> alive u l k -> alive u l' k.
Proof.
  intros u l l' k H [[x Hx] Hq]. split; [exists x; now apply H|]. eapply allQ_ext; eauto.
Qed.

Lemma alive_merge : forall u a b k x,
  uniq a -> uniq b -> allQ (okkey u) a k -> allQ (okkey u) b k ->
  In (k, x) a \/ In (k, x) b -> alive u (merge a b) k.
Proof. intros. split; [eapply merge_present; eauto|now apply allQ_merge]. Qed.

Lemma alive_trim : forall u t l k, alive u l k -> alive u (trim t l) k.
Proof.
  intros u t l k [[x Hx] Hq]. split; [|now apply allQ_trim].
  exists x. apply In_trim_keep; [assumption|]. apply (Hq _ Hx).
Qed.

Lemma alive_retain : forall u e kid k, alive u e k -> alive u (retain e kid) k.
Proof.
  intros u e kid k [[x Hx] Hq]. split; [eapply retain_present; eauto|].
  apply allQ_retain; [|assumption]. intros y _ [_ Hu]. now split.
Qed.

Lemma step_alive : forall fx cl r0 u k o,
  Ucl cl -> aliveR u (getr cl r0) k -> keep_op cl r0 u k o ->
  aliveR u (getr (fst (step fx cl o)) r0) k.
Proof.
  intros fx cl r0 u k o HU Ha Hs. apply step_getr; [exact Ha| |].
  - (* an object op that [keep_op] admits leaves the bindings of k as they are *)
    intros ob' Hx E. split; [apply Ha|]. cbn [r_obj]. eapply alive_ext; [|apply Ha]. intros x.
    destruct Hx as [r u0 t c kid|r t c news|r kids c ob' Hrv]; cbn [keep_op op_rep] in Hs, E;
      specialize (Hs E).
    + now apply assert_keeps.
    + now apply rotate_keeps.
    + eapply revoke_all_keeps; eassumption.
  - intros e He E. cut (alive u e k); [now split|]. destruct Ha as [[[x Hx] Hq] [_ Hq']].
    destruct He as [r|r|src dst flip t|r kid]; cbn [keep_op op_rep] in Hs, E; subst.
    + eapply alive_merge; eauto; apply HU.
    + now split; [exists x|].
    + specialize (Hs eq_refl). destruct flip; eapply alive_trim, alive_merge; eauto; apply HU.
    + apply alive_retain. now split; [exists x|].
Qed.

Fixpoint keep_hist (fx : bool) (cl : cluster) (r0 u k : N) (ops : list op) : Prop :=
  match ops with
  | [] => True
  | o :: t => keep_op cl r0 u k o /\ keep_hist fx (fst (step fx cl o)) r0 u k t
  end.

Lemma run_alive : forall fx ops cl r0 u k,
  Ucl cl -> aliveR u (getr cl r0) k -> keep_hist fx cl r0 u k ops ->
  aliveR u (getr (run fx cl ops) r0) k.
Proof.
  intros fx. induction ops as [|o t IH]; cbn [run keep_hist]; intros cl r0 u k HU Ha Hs; [assumption|].
  destruct Hs as [Hs Ht]. apply IH; [now apply step_U|now apply step_alive|assumption].
Qed.

Lemma alive_verify : forall o u k,
  uniq (o_all o) -> alive u (o_all o) k -> mem u (o_pres o) = true -> verify o u k true = VOk.
Proof.
  intros o u k Hu [[x Hx] Hq] Hm. unfold verify. rewrite Hm. cbn [negb].
  rewrite (uniq_In_find _ _ _ Hu Hx). destruct (Hq _ Hx) as [Hr Hus].
  rewrite Hus, N.eqb_refl, Hr. reflexivity.
Qed.

(* one step of [signer_from] *)
Definition pick (best : option slot) (u s : N) (sl : slot) : option slot :=
  let '(u', vf, _) := sl in
  if (u' =? u) && (vf <=? s) then
    match best with None => Some sl | Some b => if slot_lt b sl then Some sl else best end
  else best.

Lemma signer_from_cons : forall best u s sl t,
  signer_from best u s (sl :: t) = signer_from (pick best u s sl) u s t.
Proof. intros best u s [[u' vf] k] t. reflexivity. Qed.

(* slots compare by valid_from; having no slot ranks below every slot *)
Definition rank (b : option slot) : N := match b with Some x => N.succ (snd (fst x)) | None => 0 end.

Lemma slot_lt_le : forall u vf k u' vf' k',
  if slot_lt (u, vf, k) (u', vf', k') then vf <= vf' else vf' <= vf.
Proof.
  intros. cbn [slot_lt]. destruct (N.ltb_spec vf vf'); cbn [orb]; [lia|].
  destruct (N.eqb_spec vf vf'); cbn [andb]; [|lia]. destruct (k <? k'); lia.
Qed.

Lemma pick_spec : forall best u s u1 vf k,
  pick best u s (u1, vf, k) = best /\ (u1 = u -> vf <= s -> rank (Some (u1, vf, k)) <= rank best) \/
  pick best u s (u1, vf, k) = Some (u1, vf, k) /\ u1 = u /\ vf <= s /\ rank best <= rank (Some (u1, vf, k)).
Proof.
  intros best u s u1 vf k. cbn [pick].
  destruct (N.eqb_spec u1 u) as [->|Hne]; cbn [andb]; [|now left].
  destruct (N.leb_spec vf s) as [Hle|Hgt]; [|left; split; [reflexivity|lia]].
  destruct best as [[[ub vfb] kb]|]; cbn [rank fst snd]; [|right; repeat split; auto; lia].
  pose proof (slot_lt_le ub vfb kb u vf k) as H.
  destruct (slot_lt (ub, vfb, kb) (u, vf, k)); [right|left]; repeat split; auto; lia.
Qed.

Lemma pick_ge : forall best u s sl, rank best <= rank (pick best u s sl).
Proof.
  intros best u s [[u1 vf] k].
  destruct (pick_spec best u s u1 vf k) as [[-> _]|[-> [_ [_ H]]]]; [lia|exact H].
Qed.

Lemma signer_from_ge : forall u s a best, rank best <= rank (signer_from best u s a).
Proof.
  intros u s. induction a as [|sl t IH]; intros best; [cbn [signer_from]; lia|].
  rewrite signer_from_cons. pose proof (pick_ge best u s sl). pose proof (IH (pick best u s sl)). lia.
Qed.

Lemma signer_from_max : forall u s vf k a best,
  In (u, vf, k) a -> vf <= s -> rank (Some (u, vf, k)) <= rank (signer_from best u s a).
Proof.
  intros u s vf k. induction a as [|sl t IH]; intros best Hin Hle; [destruct Hin|].
  rewrite signer_from_cons. destruct Hin as [->|Hin]; [|now apply IH].
  destruct (pick_spec best u s u vf k) as [[-> H]|[-> _]]; [|apply signer_from_ge].
  pose proof (signer_from_ge u s t best). specialize (H eq_refl Hle). lia.
Qed.

Lemma signer_from_src : forall u s a best,
  signer_from best u s a = best \/
  exists vf k, In (u, vf, k) a /\ vf <= s /\ signer_from best u s a = Some (u, vf, k).
Proof.
  intros u s. induction a as [|[[u1 vf1] k1] t IH]; intros best; [now left|]. rewrite signer_from_cons.
  destruct (IH (pick best u s (u1, vf1, k1))) as [->|[vf [k [Hin [Hle ->]]]]].
  - destruct (pick_spec best u s u1 vf1 k1) as [[-> _]|[-> [-> [Hle _]]]]; [now left|].
    right. exists vf1, k1. split; [now left|auto].
  - right. exists vf, k. split; [now right|auto].
Qed.

(* Ainv: every active slot names a Valid key of that usage and second. Binv: the (usage, second) of
   every Valid key has some slot. *)
Definition Ainv (o : obj) : Prop :=
  forall u vf k, In (u, vf, k) (o_act o) ->
    exists x, In (k, x) (o_all o) /\ k_us x = u /\ k_vf x = vf /\ k_st x = Valid.
Definition Binv (o : obj) : Prop :=
  forall k x, In (k, x) (o_all o) -> k_st x = Valid -> exists k', In (k_us x, k_vf x, k') (o_act o).

(* the declarative reading of "the newest non-revoked key whose validity has started" *)
Definition newest_valid (o : obj) (u s : N) (r : option N) : Prop :=
  match r with
  | Some k => exists x, In (k, x) (o_all o) /\ k_us x = u /\ k_st x = Valid /\ k_vf x <= s /\
      forall k' x', In (k', x') (o_all o) -> k_us x' = u -> k_st x' = Valid -> k_vf x' <= s ->
                    k_vf x' <= k_vf x
  | None => forall k' x', In (k', x') (o_all o) -> k_us x' = u -> k_st x' = Valid -> k_vf x' <= s -> False
  end.

Lemma signer_spec : forall o u s, Ainv o -> Binv o -> newest_valid o u s (signer o u s).
Proof.
  intros o u s HA HB.
  (* every valid started key of u has a slot, which the scan ranks no higher than its result *)
  assert (Hmax : forall k' x', In (k', x') (o_all o) -> k_us x' = u -> k_st x' = Valid -> k_vf x' <= s ->
            k_vf x' < rank (signer_from None u s (o_act o))).
  { intros k' x' Hx' Hu' Hst' Hle'. destruct (HB _ _ Hx' Hst') as [k'' Hk]. rewrite Hu' in Hk.
    apply N.le_succ_l. exact (signer_from_max u s _ k'' _ None Hk Hle'). }
  unfold signer, newest_valid.
  destruct (signer_from_src u s (o_act o) None) as [E|[vf [k [Hin [Hle E]]]]];
    rewrite E in Hmax |- *; cbn [rank fst snd] in Hmax.
  - intros k' x' Hx' Hu' Hst' Hle'. specialize (Hmax _ _ Hx' Hu' Hst' Hle'). lia.
  - destruct (HA _ _ _ Hin) as [x [Hx [Hu [Hv Hst]]]]. exists x. subst vf.
    repeat split; auto. intros k' x' Hx' Hu' Hst' Hle'. specialize (Hmax _ _ Hx' Hu' Hst' Hle'). lia.
Qed.

Lemma sign_newest : forall o u t,
  Ainv o -> Binv o ->
  newest_valid o u (secs_of t) (signer o u (secs_of t)) /\
  (forall k, sign o u t = SKid k -> newest_valid o u (secs_of t) (Some k)) /\
  (sign o u t = SNoActive -> newest_valid o u (secs_of t) None).
Proof.
  intros o u t HA HB. pose proof (signer_spec o u (secs_of t) HA HB) as Hs. split; [exact Hs|].
  unfold sign. destruct (negb (mem u (o_pres o))); [split; discriminate|].
  destruct (signer o u (secs_of t)) as [k0|].
  - split; [intros k E; inversion E; subst; exact Hs|discriminate].
  - split; [discriminate|intros _; exact Hs].
Qed.

Lemma same_slot_true : forall fx u vf k u1 vf1 k1,
  same_slot fx (u, vf, k) (u1, vf1, k1) = true <-> u = u1 /\ vf = vf1 /\ (fx = true -> k = k1).
Proof.
  intros. cbn [same_slot]. rewrite !andb_true_iff, !N.eqb_eq.
  destruct fx; rewrite ?N.eqb_eq; intuition discriminate.
Qed.

Lemma In_act_rem : forall fx s a sl, In sl (act_rem fx s a) <-> In sl a /\ same_slot fx s sl = false.
Proof. intros. unfold act_rem. now rewrite filter_In, negb_true_iff. Qed.

Lemma In_act_ins : forall fx s a sl, In sl (act_ins fx s a) -> sl = s \/ In sl a.
Proof. intros fx s a sl [H|H]; [auto|]. right. now apply In_act_rem in H. Qed.

Lemma has_sibling_false : forall d kid x k y,
  find kid d = Some x -> has_sibling d kid = false ->
  In (k, y) d -> k <> kid -> k_us y = k_us x -> k_vf y = k_vf x -> k_st y = Valid -> False.
Proof.
  intros d kid x k y Hf Hs Hin Hne Hu Hv Hst. unfold has_sibling in Hs. rewrite Hf in Hs.
  apply not_true_iff_false in Hs. apply Hs, existsb_exists. exists (k, y). split; [assumption|].
  cbn [fst snd]. apply N.eqb_neq in Hne. now rewrite Hne, Hu, Hv, Hst, !N.eqb_refl.
Qed.

(* Every Valid key has an active slot for its (usage, second); where the active map is keyed by kid
   as well ([X], the current tree) it is the key's own slot. Section Wf below is used twice: at
   X := False with any fx (Bact False = Binv) and at X := True with fx = true (Bact True = BinvX);
   its hypothesis HX is what `auto` uses at the end of act_ins_occupied and in revoke1_wf. *)
Definition Bact (X : Prop) (o : obj) : Prop :=
  forall k x, In (k, x) (o_all o) -> k_st x = Valid ->
    exists k', In (k_us x, k_vf x, k') (o_act o) /\ (X -> k' = k).

(* the current tree (fx = true): the active map holds EVERY valid key under (usage, second, kid) *)
Definition BinvX (o : obj) : Prop :=
  forall k x, In (k, x) (o_all o) -> k_st x = Valid -> In (k_us x, k_vf x, k) (o_act o).

Lemma Binv_Bact : forall o, Binv o <-> Bact False o.
Proof.
  intros o. split; intros H k x Hin Hv.
  - destruct (H k x Hin Hv) as [k' Hk]. exists k'. now split.
  - destruct (H k x Hin Hv) as [k' [Hk _]]. now exists k'.
Qed.

Lemma BinvX_Bact : forall o, BinvX o <-> Bact True o.
Proof.
  intros o. split; intros H k x Hin Hv.
  - exists k. auto.
  - destruct (H k x Hin Hv) as [k' [Hk E]]. now rewrite <- (E I).
Qed.

Definition fresh_rot (us : list N) (all : stored) (news : list (N * N)) : Prop :=
  NoDup (map (rot_kid news) us) /\ forall u, In u us -> find (rot_kid news u) all = None.

(* new key ids are fresh (they are random 96-bit values in the code); a revoke does not hit a
   key that shares (usage, second) with another valid key *)
Definition good_op (cl : cluster) (o : op) : Prop :=
  match o with
  | OAssert r u t _ kid =>
      signer (r_obj (getr cl r)) u (secs_of t) = None -> find kid (o_all (r_obj (getr cl r))) = None
  | ORotate r _ _ news => fresh_rot (o_pres (r_obj (getr cl r))) (o_all (r_obj (getr cl r))) news
  | ORevoke r kids c => sibling_event (o_all (r_obj (getr cl r))) kids c = false
  | _ => True
  end.

(* freshness alone (the environment assumption), without the no-sibling clause *)
Definition fresh_op (cl : cluster) (o : op) : Prop :=
  match o with
  | ORevoke _ _ _ => True
  | _ => good_op cl o
  end.

Lemma good_fresh : forall cl o, good_op cl o -> fresh_op cl o.
Proof. intros cl []; cbn; auto. Qed.

Section Wf.
Variables (X : Prop) (fx : bool).
Hypothesis HX : X -> fx = true.

Lemma act_ins_occupied : forall s a u1 vf1 k0,
  (exists k1, In (u1, vf1, k1) a /\ (X -> k1 = k0)) ->
  exists k', In (u1, vf1, k') (act_ins fx s a) /\ (X -> k' = k0).
Proof.
  intros [[u vf] k] a u1 vf1 k0 [k1 [Hin E]]. destruct (same_slot fx (u, vf, k) (u1, vf1, k1)) eqn:Hs.
  - apply same_slot_true in Hs. destruct Hs as [-> [-> Hk]]. exists k. split; [now left|].
    intros H. rewrite <- (E H). auto.
  - exists k1. split; [|assumption]. right. now apply In_act_rem.
Qed.

Lemma new_active_wf : forall o u vf kid c,
  find kid (o_all o) = None -> Ainv o -> Bact X o ->
  Ainv (new_active fx o u vf kid c) /\ Bact X (new_active fx o u vf kid c).
Proof.
  intros o u vf kid c Hf HA HB. split.
  - intros u1 vf1 k1 Hin. cbn [new_active o_act o_all] in *. apply In_act_ins in Hin.
    destruct Hin as [E|Hin].
    + inversion E; subst. eexists. split; [now apply In_ins_same|]. cbn. auto.
    + destruct (HA _ _ _ Hin) as [x [Hx Hr]]. exists x. split; [|assumption].
      apply In_ins_other; [|assumption]. intros ->. now apply (proj1 (find_none _ _) Hf x).
  - intros k x Hin Hst. cbn [new_active o_act o_all] in *. apply In_ins in Hin.
    destruct Hin as [[-> ->]|[Hne Hin]].
    + exists kid. split; [now left|auto].
    + now apply act_ins_occupied, HB.
Qed.

Lemma assert_wf : forall o u t kid c,
  (signer o u (secs_of t) = None -> find kid (o_all o) = None) -> Ainv o -> Bact X o ->
  Ainv (assert_active fx o u t kid c) /\ Bact X (assert_active fx o u t kid c).
Proof.
  intros o u t kid c Hf HA HB. unfold assert_active.
  destruct (signer o u (secs_of t)); [split; assumption|]. apply new_active_wf; auto.
Qed.

Lemma rotate_wf : forall t c news o,
  uniq (o_all o) -> fresh_rot (o_pres o) (o_all o) news -> Ainv o -> Bact X o ->
  Ainv (rotate fx o t c news) /\ Bact X (rotate fx o t c news).
Proof.
  intros t c news o. unfold rotate. generalize (o_pres o) as us. intros us. revert o.
  induction us as [|u us IH]; cbn [fold_left]; intros o Hu [Hnd Hfr] HA HB; [auto|].
  cbn [map] in Hnd. inversion Hnd as [|? ? Hni Hnd']; subst.
  destruct (new_active_wf o u (secs_of t) (rot_kid news u) c (Hfr u (or_introl eq_refl)) HA HB) as [HA' HB'].
  apply IH; auto.
  - rewrite all_new_active. now apply uniq_ins.
  - split; [assumption|]. intros u2 Hu2. rewrite all_new_active, find_ins_other; [apply Hfr; now right|assumption|].
    intros E. apply Hni. fold (rot_kid news u) in E. rewrite <- E. now apply in_map.
Qed.

Lemma revoke1_wf : forall o kid c o',
  revoke1 fx o kid c = (o', true) -> X \/ has_sibling (o_all o) kid = false ->
  uniq (o_all o) -> Ainv o -> Bact X o -> Ainv o' /\ Bact X o'.
Proof.
  intros o kid c o' H Hsib Hu HA HB. apply revoke1_ok in H. destruct H as [x [Hf ->]]. split.
  - intros u vf k Hin. cbn [o_act o_all] in *. apply In_act_rem in Hin. destruct Hin as [Hin Hs].
    destruct (HA _ _ _ Hin) as [y [Hy [Hyu [Hyv Hyst]]]]. exists y. split; [|auto].
    apply In_ins_other; [|assumption]. intros ->.
    rewrite (uniq_In_find _ _ _ Hu Hy) in Hf. inversion Hf; subst.
    enough (same_slot fx (k_us x, k_vf x, kid) (k_us x, k_vf x, kid) = true) by congruence.
    now apply same_slot_true.
  - intros k y Hin Hst. cbn [o_act o_all] in *. apply In_ins in Hin.
    destruct Hin as [[-> ->]|[Hne Hin]]; [discriminate|].
    destruct (HB _ _ Hin Hst) as [k' [Hk' Hkk]]. exists k'. split; [|assumption].
    apply In_act_rem. split; [assumption|].
    destruct (same_slot fx (k_us x, k_vf x, kid) (k_us y, k_vf y, k')) eqn:Hs; [|reflexivity].
    (* the slot of y would go with kid's: on the current tree it is y's own, elsewhere y is a sibling *)
    exfalso. apply same_slot_true in Hs. destruct Hs as [H1 [H2 H3]]. destruct Hsib as [H|H].
    + apply Hne. rewrite <- (Hkk H). symmetry. auto.
    + eapply has_sibling_false; eauto.
Qed.

Lemma revoke_all_wf : forall c kids o o',
  revoke_all fx o kids c = Some o' -> X \/ sibling_event (o_all o) kids c = false ->
  uniq (o_all o) -> Ainv o -> Bact X o -> Ainv o' /\ Bact X o'.
Proof.
  intros c. induction kids as [|kid t IH]; cbn [revoke_all sibling_event]; intros o o' H Hs Hu HA HB.
  - inversion H; subst. auto.
  - destruct (revoke1 fx o kid c) as [o1 ok] eqn:Hr. destruct ok; [|discriminate].
    rewrite orb_false_iff in Hs.
    destruct (revoke1_wf _ _ _ _ Hr) as [HA1 HB1]; auto; [destruct Hs as [?|[? _]]; auto|].
    apply revoke1_ok in Hr. destruct Hr as [x [Hfx ->]]. rewrite Hfx in Hs.
    apply (IH _ _ H); auto; [destruct Hs as [?|[_ ?]]; auto|]. now apply uniq_ins.
Qed.

(* loading walks the stored map; seen from the end, the last entry adds its slot if it is Valid *)
Lemma load_snoc : forall e k x,
  o_act (load fx (e ++ [(k, x)])) =
  if is_valid (k_st x) then act_ins fx (k_us x, k_vf x, k) (o_act (load fx e)) else o_act (load fx e).
Proof. intros e k x. unfold load. now rewrite fold_left_app. Qed.

Lemma load_wfG : forall e, Ainv (load fx e) /\ Bact X (load fx e).
Proof.
  induction e as [|[k x] e [HA HB]] using rev_ind; [split; [intros ? ? ? []|intros ? ? []]|].
  split.
  - intros u vf k1 Hin. rewrite load_all. rewrite load_snoc in Hin.
    assert (H : In (u, vf, k1) (o_act (load fx e)) \/ ((u, vf, k1) = (k_us x, k_vf x, k) /\ k_st x = Valid)).
    { destruct (is_valid (k_st x)) eqn:Hv; [|now left]. apply is_valid_true in Hv.
      apply In_act_ins in Hin. tauto. }
    destruct H as [H|[E Hv]].
    + destruct (HA _ _ _ H) as [y [Hy Hr]]. exists y. split; [apply in_or_app; now left|assumption].
    + inversion E; subst. exists x. split; [apply in_or_app; right; now left|auto].
  - intros k1 y Hin Hv. rewrite load_all in Hin. rewrite load_snoc.
    apply in_app_or in Hin. destruct Hin as [Hin|[E|[]]].
    + destruct (is_valid (k_st x)); [apply act_ins_occupied|]; now apply HB.
    + inversion E; subst. rewrite (proj2 (is_valid_true _) Hv). exists k1. split; [now left|auto].
Qed.

Definition wfG (x : rep) : Prop := Urep x /\ Ainv (r_obj x) /\ Bact X (r_obj x).

Lemma wfG0 : wfG rep0.
Proof. split; [apply Urep0|]. split; [intros ? ? ? []|intros ? ? []]. Qed.

Lemma step_wfG : forall cl o,
  (forall r, wfG (getr cl r)) -> fresh_op cl o -> X \/ good_op cl o ->
  forall r, wfG (getr (fst (step fx cl o)) r).
Proof.
  intros cl o HW Hf Hg r0.
  assert (HU : Ucl cl) by (intros r; apply (HW r)).
  split; [now apply step_U|].
  apply (step_getr (fun x => Ainv (r_obj x) /\ Bact X (r_obj x))); [apply HW| |].
  - intros ob' Hx E. cbn [r_obj]. destruct (HW r0) as [[_ Hu] [HA HB]].
    destruct Hx as [r u t c kid|r t c news|r kids c ob' Hrv]; cbn [fresh_op good_op op_rep] in Hf, Hg, E; subst.
    + now apply assert_wf.
    + now apply rotate_wf.
    + eapply revoke_all_wf; eauto.
  - intros e _ _. apply load_wfG.
Qed.
End Wf.

Definition wf_rep (x : rep) : Prop := Urep x /\ Ainv (r_obj x) /\ Binv (r_obj x).
Definition wf_cl (cl : cluster) : Prop := forall r, wf_rep (getr cl r).
Definition wf_repX (x : rep) : Prop := Urep x /\ Ainv (r_obj x) /\ BinvX (r_obj x).
Definition wf_clX (cl : cluster) : Prop := forall r, wf_repX (getr cl r).

Lemma BinvX_Binv : forall o, BinvX o -> Binv o.
Proof. intros o H k x Hin Hv. exists k. auto. Qed.

Lemma load_wf : forall fx e, Ainv (load fx e) /\ Binv (load fx e).
Proof. intros fx e. rewrite Binv_Bact. now apply load_wfG. Qed.

Lemma wf_rep_G : forall x, wf_rep x <-> wfG False x.
Proof. intros x. unfold wf_rep, wfG. now rewrite Binv_Bact. Qed.

Lemma wf_repX_G : forall x, wf_repX x <-> wfG True x.
Proof. intros x. unfold wf_repX, wfG. now rewrite BinvX_Bact. Qed.

Lemma wf_repeat : forall n, wf_cl (repeat rep0 n).
Proof. intros n r. rewrite getr_repeat. apply wf_rep_G, wfG0. Qed.

Lemma wf_repeatX : forall n, wf_clX (repeat rep0 n).
Proof. intros n r. rewrite getr_repeat. apply wf_repX_G, wfG0. Qed.

Lemma step_wf : forall fx cl o, wf_cl cl -> good_op cl o -> wf_cl (fst (step fx cl o)).
Proof.
  intros fx cl o HW Hg r0. apply wf_rep_G.
  apply step_wfG; [intros []|intros r; apply wf_rep_G, HW|now apply good_fresh|now right].
Qed.

Lemma step_wfX : forall cl o, wf_clX cl -> fresh_op cl o -> wf_clX (fst (step true cl o)).
Proof.
  intros cl o HW Hf r0. apply wf_repX_G.
  apply step_wfG; [reflexivity|intros r; apply wf_repX_G, HW|assumption|now left].
Qed.

Fixpoint good_hist (fx : bool) (cl : cluster) (ops : list op) : Prop :=
  match ops with
  | [] => True
  | o :: t => good_op cl o /\ good_hist fx (fst (step fx cl o)) t
  end.

Fixpoint fresh_hist (fx : bool) (cl : cluster) (ops : list op) : Prop :=
  match ops with
  | [] => True
  | o :: t => fresh_op cl o /\ fresh_hist fx (fst (step fx cl o)) t
  end.

Lemma run_wf : forall fx ops cl, wf_cl cl -> good_hist fx cl ops -> wf_cl (run fx cl ops).
Proof.
  intros fx. induction ops as [|o t IH]; cbn [run good_hist]; intros cl HW Hg; [assumption|].
  destruct Hg as [Hg Ht]. apply IH; [now apply step_wf|assumption].
Qed.

Lemma run_wfX : forall ops cl, wf_clX cl -> fresh_hist true cl ops -> wf_clX (run true cl ops).
Proof.
  induction ops as [|o t IH]; cbn [run fresh_hist]; intros cl HW Hg; [assumption|].
  destruct Hg as [Hg Ht]. apply IH; [now apply step_wfX|assumption].
Qed.

(* the scripted counterexample for the tree before the fix: es256 key 1 @0 s, keys 2 and 3 @5 s,
   revoke 2: key 3 is valid, newest, started, yet key 1 signs at 6 s *)
Definition cex_ops : list op :=
  [OAssert 0 0 0 (1, 1) 1; ORotate 0 5000 (2, 1) [(0, 2)]; ORotate 0 5400 (3, 1) [(0, 3)];
   ORevoke 0 [2] (4, 1)].

Lemma cex_fresh : forall fx, fresh_hist fx [rep0] cex_ops.
Proof.
  intros fx. cbn [fresh_hist cex_ops fresh_op good_op]. repeat split; try reflexivity;
    try (intros _; reflexivity); try (constructor; [intros []|constructor]);
    intros u [<-|[]]; reflexivity.
Qed.

Lemma cex_not_newest :
  ~ newest_valid (r_obj (getr (run false [rep0] cex_ops) 0)) 0 6
      (signer (r_obj (getr (run false [rep0] cex_ops) 0)) 0 6).
Proof.
  assert (E : signer (r_obj (getr (run false [rep0] cex_ops) 0)) 0 6 = Some 1) by (vm_compute; reflexivity).
  rewrite E. cbn [newest_valid]. intros [x [Hx [_ [_ [_ Hmax]]]]].
  assert (Hall : o_all (r_obj (getr (run false [rep0] cex_ops) 0)) =
     [(1, mkkey 0 0 Valid (1, 1)); (2, mkkey 0 5 Revoked (4, 1)); (3, mkkey 0 5 Valid (3, 1))])
    by (vm_compute; reflexivity).
  rewrite Hall in Hx, Hmax.
  assert (Hx1 : k_vf x = 0).
  { destruct Hx as [Hx|[Hx|[Hx|[]]]]; inversion Hx; subst; reflexivity. }
  specialize (Hmax 3 (mkkey 0 5 Valid (3, 1))). cbn in Hmax. rewrite Hx1 in Hmax.
  assert (5 <= 0) by (apply Hmax; auto; lia). lia.
Qed.
