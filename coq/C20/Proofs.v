(* KV.C20.Proofs — what one request makes of the directory ([step_spec]), the facts about the Base
   plugin and the modify guard it rests on, and the bridge from agreement to the observed property. *)
From Coq Require Import List NArith Bool.
Import ListNotations.
Require Import KV.C20.Model.
Open Scope N_scope.

Lemma listN_eqb_refl : forall l, listN_eqb l l = true.
Proof. induction l as [|x r IH]; cbn [listN_eqb]; [reflexivity|]. rewrite N.eqb_refl, IH. reflexivity. Qed.

Lemma listN_eqb_eq : forall a b, listN_eqb a b = true -> a = b.
Proof.
  induction a as [|x r IH]; intros [|y s] H; cbn [listN_eqb] in H; try discriminate; [reflexivity|].
  apply andb_true_iff in H as [H1 H2]. apply N.eqb_eq in H1. rewrite H1, (IH _ H2). reflexivity.
Qed.

Lemma pairN_eqb_eq : forall a b, pairN_eqb a b = true -> a = b.
Proof.
  intros [a1 a2] [b1 b2] H. unfold pairN_eqb in H. cbn [fst snd] in H.
  apply andb_true_iff in H as [H1 H2]. apply N.eqb_eq in H1, H2. subst. reflexivity.
Qed.

Lemma pairN_eqb_refl : forall a, pairN_eqb a a = true.
Proof. intros a. unfold pairN_eqb. rewrite !N.eqb_refl. reflexivity. Qed.

Lemma obs_eqb_eq : forall a b : obs, obs_eqb a b = true -> a = b.
Proof.
  intros [[l1 r1] t1] [[l2 r2] t2] H. unfold obs_eqb in H.
  apply andb_true_iff in H as [H H3]. apply andb_true_iff in H as [H1 H2].
  apply pairN_eqb_eq in H1, H2. apply listN_eqb_eq in H3. subst. reflexivity.
Qed.

Definition res_of_code (n : N) : res :=
  nth (N.to_nat n) [ROk; EEmpty; ENoMatch; EDenied; EMissing; EAssert; ESysProt; ESchema;
                    EBaseMulti; EBaseDupReq; EBaseRange; EBaseDNE; EBaseDupDb] EOther.

Lemma res_of_code_code : forall r, res_of_code (res_code r) = r.
Proof. intros r. destruct r; reflexivity. Qed.

Lemma res_eqb_eq : forall a b, res_eqb a b = true -> a = b.
Proof.
  intros a b H. apply N.eqb_eq in H. rewrite <- (res_of_code_code a), H. apply res_of_code_code.
Qed.

Lemma out_eqb_eq : forall a b, out_eqb a b = true -> a = b.
Proof.
  induction a as [|[u x] r IH]; intros [|[v y] s] H; cbn [out_eqb] in H; try discriminate; [reflexivity|].
  apply andb_true_iff in H as [H H3]. apply andb_true_iff in H as [H1 H2].
  apply N.eqb_eq in H1. apply eqb_prop in H2. rewrite H1, H2, (IH _ H3). reflexivity.
Qed.

Lemma memN_In : forall x l, memN x l = true <-> In x l.
Proof.
  intros x l. induction l as [|y r IH]; cbn [memN In].
  - split; [discriminate | tauto].
  - rewrite orb_true_iff, IH, N.eqb_eq. split; intros [H|H]; auto.
Qed.

Lemma memN_app : forall x a b, memN x (a ++ b) = memN x a || memN x b.
Proof.
  intros x a b. induction a as [|y r IH]; cbn [memN app]; [reflexivity|].
  rewrite IH, orb_assoc. reflexivity.
Qed.

Lemma ranges_coincide : forall u, (u <? DYN_MIN) = (u <=? UUID_ANONYMOUS).
Proof.
  intros u. apply eq_true_iff_eq. rewrite N.ltb_lt, N.leb_le.
  exact (N.lt_succ_r u UUID_ANONYMOUS).    (* DYN_MIN is the successor of UUID_ANONYMOUS *)
Qed.

Lemma base_modify_In : forall ml m, base_modify ml = true -> In m ml -> mod_touches_uuid m = false.
Proof.
  intros ml m Hb Hi. unfold base_modify in Hb. apply negb_true_iff in Hb.
  destruct (mod_touches_uuid m) eqn:E; [|reflexivity].
  rewrite <- Hb. symmetry. apply existsb_exists. exists m. split; assumption.
Qed.

Lemma apply_mod_untouched : forall vs m vs',
  mod_touches_uuid m = false -> apply_mod vs m = Some vs' -> vs' = vs.
Proof.
  intros vs m vs' Ht Ha. destruct m as [[|] v|[|] v|[|]|[|] v|v]; try discriminate Ht; cbn [apply_mod] in Ha.
  1-4: injection Ha as <-; reflexivity.
  destruct (memN v vs); [injection Ha as <-; reflexivity | discriminate].
Qed.

Lemma apply_ml_untouched : forall ml vs vs',
  (forall m, In m ml -> mod_touches_uuid m = false) -> apply_ml vs ml = Some vs' -> vs' = vs.
Proof.
  induction ml as [|m r IH]; intros vs vs' Ht Ha; cbn [apply_ml] in Ha.
  - injection Ha as <-. reflexivity.
  - destruct (apply_mod vs m) as [vs1|] eqn:E; [|discriminate].
    apply apply_mod_untouched in E; [|apply Ht; left; reflexivity]. subst vs1.
    apply (IH _ _ (fun x Hx => Ht x (or_intror Hx)) Ha).
Qed.

Lemma upd_ent_guarded : forall ml e e',
  (forall m, In m ml -> mod_touches_uuid m = false) -> upd_ent ml e = Some e' -> e' = e.
Proof.
  intros ml e e' Ht Hu. unfold upd_ent in Hu.
  destruct (apply_ml [e_uuid e] ml) as [vs|] eqn:E; [|discriminate].
  apply (apply_ml_untouched _ _ _ Ht) in E. subst vs. injection Hu as <-. destruct e; reflexivity.
Qed.

Lemma map_opt_id : forall (f : ent -> option ent) db db',
  (forall e e', f e = Some e' -> e' = e) -> map_opt f db = Some db' -> db' = db.
Proof.
  intros f db. induction db as [|e r IH]; intros db' Hf Hm; cbn [map_opt] in Hm.
  - injection Hm as <-. reflexivity.
  - destruct (f e) as [e1|] eqn:E1; [|discriminate].
    destruct (map_opt f r) as [r1|] eqn:E2; [|discriminate].
    injection Hm as <-. rewrite (Hf _ _ E1), (IH r1 Hf eq_refl). reflexivity.
Qed.

(* every stage after the candidate search leaves the directory as it was: the last one because
   Base::pre_modify has passed every Modify of the request, hence those applied to each entry *)
Lemma modify_core_same : forall A id db sel mods,
  (forall e ml, sel e = Some ml -> incl ml mods) -> snd (modify_core A id db sel mods) = db.
Proof.
  intros A id db sel mods Hsel. unfold modify_core.
  destruct (negb (forallb _ db)); [reflexivity|].
  destruct (existsb _ db); [reflexivity|].
  destruct (base_modify mods) eqn:Eb; [|reflexivity]. cbn [negb].
  destruct (map_opt _ db) as [db1|] eqn:Em; [|reflexivity].
  cbn [snd]. refine (map_opt_id _ _ _ _ Em). intros e e' He.
  destruct (sel e) as [ml|] eqn:Es; [|injection He as <-; reflexivity].
  apply (upd_ent_guarded ml); [|exact He].
  intros m Hm. apply (base_modify_In mods); [exact Eb | apply (Hsel e ml Es m Hm)].
Qed.

Lemma modify_same : forall A id db t ml, snd (modify A id db t ml) = db.
Proof.
  intros A id db t ml. unfold modify. destruct ml as [|m0 ml0]; [reflexivity|].
  destruct (filter _ db) as [|c0 cs]; [destruct (internal id); reflexivity|].
  apply modify_core_same. intros e ml1 Hs.
  destruct (cand false A id t e); [injection Hs as <-; apply incl_refl | discriminate].
Qed.

Lemma lookup_ml_incl : forall u ms ml, lookup_ml u ms = Some ml -> incl ml (flat_map snd ms).
Proof.
  intros u ms. induction ms as [|[k l] r IH]; intros ml Hl; cbn [lookup_ml] in Hl; [discriminate|].
  cbn [flat_map snd]. destruct (u =? k).
  - injection Hl as <-. apply incl_appl, incl_refl.
  - apply incl_appr, (IH ml Hl).
Qed.

Lemma batch_same : forall A id db ms, snd (batch A id db ms) = db.
Proof.
  intros A id db ms. unfold batch. destruct ms as [|p0 ms0]; [reflexivity|].
  destruct (filter _ db) as [|c0 cs]; [destruct (internal id); reflexivity|].
  destruct (negb _); [reflexivity|].
  apply modify_core_same. intros e ml1 Hs. destruct (cand true A id _ e); [|discriminate].
  destruct (lookup_ml (e_uuid e) (p0 :: ms0)) as [ml2|] eqn:El; injection Hs as <-.
  - apply (lookup_ml_incl _ _ _ El).
  - apply incl_nil_l.
Qed.

Definition recycles (A : acps) (id : ident) (e e' : ent) : Prop :=
  e' = e \/ (e' = recycle e /\ live e = true /\ delete_access A id e = true).

Lemma cand_false_live : forall A id t e, cand false A id t e = true -> live e = true.
Proof. intros A id t e H. unfold cand in H. destruct (live e); [reflexivity | discriminate H]. Qed.

Lemma delete_spec : forall A id db t r db',
  delete A id db t = (r, db') ->
  match r with ROk => Forall2 (recycles A id) db db' | _ => db' = db end.
Proof.
  intros A id db t r db' H. unfold delete in H.
  destruct (forallb (delete_access A id) (filter (cand false A id t) db)) eqn:Ef; [|injection H as <- <-; reflexivity].
  destruct (filter (cand false A id t) db) as [|c0 cs] eqn:Efl; injection H as <- <-; [reflexivity|].
  rewrite <- Efl in Ef. clear Efl. induction db as [|e db IH]; cbn [map]; [constructor|].
  cbn [filter] in Ef. destruct (cand false A id t e) eqn:Ec.
  - cbn [forallb] in Ef. apply andb_true_iff in Ef as [He Hr].
    constructor; [right; repeat split; [apply (cand_false_live _ _ _ _ Ec) | exact He] | exact (IH Hr)].
  - constructor; [left; reflexivity | exact (IH Ef)].
Qed.

Lemma recycles_uuid : forall A id e e', recycles A id e e' -> e_uuid e' = e_uuid e.
Proof. intros A id e e' [->|[-> _]]; reflexivity. Qed.

Lemma recycles_uuids : forall A id db db',
  Forall2 (recycles A id) db db' -> map e_uuid db' = map e_uuid db.
Proof.
  intros A id db db' H. induction H as [|e e' l l' He _ IH]; [reflexivity|].
  cbn [map]. rewrite IH, (recycles_uuid _ _ _ _ He). reflexivity.
Qed.

Lemma recycles_reserved : forall A rw db db',
  Forall2 (recycles A (IUser rw)) db db' -> filter reserved db' = filter reserved db.
Proof.
  intros A rw db db' H. induction H as [|e e' l l' He _ IH]; [reflexivity|]. cbn [filter]. rewrite IH.
  destruct He as [->|[-> [_ Ha]]]; [reflexivity|].
  assert (reserved e = false) as Hr.    (* delete_access grants a user no protected entry *)
  { unfold reserved. rewrite ranges_coincide. unfold delete_access, protected_ent in Ha.
    destruct (e_uuid e <=? UUID_ANONYMOUS); [discriminate Ha | reflexivity]. }
  change (reserved (recycle e)) with (reserved e). rewrite Hr. reflexivity.
Qed.

Lemma base_loop_false : forall us seen inv,
  base_loop false seen inv us = Some false -> inv = false /\ forallb (fun u => DYN_MIN <=? u) us = true.
Proof.
  induction us as [|u r IH]; intros seen inv H; cbn [base_loop] in H.
  - injection H as ->. split; reflexivity.
  - destruct (memN u seen); [discriminate|].
    apply IH in H as [Hi Hr]. apply orb_false_iff in Hi as [Hi Hu].
    split; [exact Hi|]. cbn [forallb]. rewrite Hr, andb_true_r.
    cbn [negb] in Hu. rewrite andb_true_r in Hu. rewrite N.leb_antisym, Hu. reflexivity.
Qed.

Lemma all_some_req : forall es us, all_some (map base_uuid es) = Some us ->
  req_uuids es = us /\ map base_uuid es = map Some us.
Proof.
  induction es as [|c r IH]; intros us H; cbn [map all_some] in H.
  - injection H as <-. split; reflexivity.
  - unfold req_uuids. cbn [flat_map map]. destruct (base_uuid c) as [u|]; [|discriminate].
    destruct (all_some (map base_uuid r)) as [r'|] eqn:E; [|discriminate]. injection H as <-.
    destruct (IH r' eq_refl) as [H1 H2]. split; [cbn [app]; f_equal; exact H1 | cbn [map]; f_equal; exact H2].
Qed.

Lemma req_uuids_length : forall es,
  map base_uuid es = map Some (req_uuids es) -> length (req_uuids es) = length es.
Proof. intros es H. rewrite <- (map_length Some), <- H. apply map_length. Qed.

Lemma base_create_spec : forall intern ex es r out,
  base_create intern ex es = (r, out) ->
  match r with
  | ROk => out = map (fun u => (u, (u <? DYN_MIN) && intern)) (req_uuids es) /\
           map base_uuid es = map Some (req_uuids es) /\
           (intern = false -> forallb (fun u => DYN_MIN <=? u) (req_uuids es) = true)
  | _ => out = []
  end.
Proof.
  intros intern ex es r out H. unfold base_create in H.
  destruct (all_some (map base_uuid es)) as [us|] eqn:Ea; [|injection H as <- <-; reflexivity].
  apply all_some_req in Ea as [<- Hm].
  destruct (base_loop intern [] false (req_uuids es)) as [[|]|] eqn:El; try (injection H as <- <-; reflexivity).
  destruct (memN UUID_DOES_NOT_EXIST _); [injection H as <- <-; reflexivity|].
  destruct (existsb ex _); injection H as <- <-; [reflexivity|].
  split; [reflexivity|]. split; [exact Hm|]. intros ->. apply (base_loop_false _ _ _ El).
Qed.

Lemma base_create_err : forall intern ex es r out, base_create intern ex es = (r, out) -> r <> ROk -> out = [].
Proof.
  intros intern ex es r out H Hr. apply base_create_spec in H.
  destruct r; try exact H. elim Hr. reflexivity.
Qed.

Lemma new_ents_uuids : forall es us f, length us = length es ->
  map e_uuid (new_ents es (map (fun u => (u, f u)) us)) = us.
Proof.
  induction es as [|c r IH]; intros us f Hl; destruct us as [|u us']; cbn [length] in Hl; try discriminate; [reflexivity|].
  unfold new_ents. cbn [map combine fst snd e_uuid]. f_equal. apply (IH us' f). injection Hl as Hl. exact Hl.
Qed.

Lemma new_ents_live : forall es out e, In e (new_ents es out) -> live e = true.
Proof.
  intros es out e H. unfold new_ents in H. apply in_map_iff in H as [p [<- _]]. reflexivity.
Qed.

Definition creates (id : ident) (es : list cent) (db db' : list ent) : Prop :=
  exists new, db' = db ++ new /\ map e_uuid new = req_uuids es /\
              length (req_uuids es) = length es /\ (forall e, In e new -> live e = true) /\
              (is_user id = true -> forallb (fun u => DYN_MIN <=? u) (req_uuids es) = true).

Lemma create_spec : forall A id db es r db',
  create A id db es = (r, db') ->
  match r with ROk => creates id es db db' | _ => db' = db end.
Proof.
  intros A id db es r db' H. unfold create in H.
  destruct es as [|c0 es0]; [injection H as <- <-; reflexivity|].
  destruct (negb _); [injection H as <- <-; reflexivity|].
  destruct (base_create (internal id) _ (c0 :: es0)) as [r1 out] eqn:S. apply base_create_spec in S.
  destruct r1; injection H as <- <-; try reflexivity.
  destruct S as [-> [Hm Hu]]. pose proof (req_uuids_length _ Hm) as Hl.
  eexists. split; [reflexivity|]. split; [apply (new_ents_uuids _ _ _ Hl)|]. split; [exact Hl|].
  split; [apply new_ents_live|]. intros Hi. apply Hu, negb_true_iff, Hi.
Qed.

Lemma filter_reserved_new : forall l, forallb (fun u => DYN_MIN <=? u) (map e_uuid l) = true -> filter reserved l = [].
Proof.
  induction l as [|e r IH]; intros H; [reflexivity|]. cbn [map forallb] in H. apply andb_true_iff in H as [He Hr].
  cbn [filter]. unfold reserved at 1. rewrite N.ltb_antisym, He. cbn [negb]. apply (IH Hr).
Qed.

(* the case split is the one of [step_ok] *)
Lemma step_spec : forall A id db o r db',
  step A id db o = (r, db') ->
  match o, r with
  | OCreate es, ROk => creates id es db db'
  | ODelete _, ROk => Forall2 (recycles A id) db db'
  | _, _ => db' = db
  end.
Proof.
  intros A id db o r db' H. destruct o as [es|t ml|ms|t]; cbn [step] in H.
  - exact (create_spec _ _ _ _ _ _ H).
  - rewrite <- (modify_same A id db t ml), H. reflexivity.
  - rewrite <- (batch_same A id db ms), H. reflexivity.
  - exact (delete_spec _ _ _ _ _ _ H).
Qed.

Lemma step_cases : forall A id db o r db',
  step A id db o = (r, db') ->
  db' = db \/
  r = ROk /\ ((exists es, o = OCreate es /\ creates id es db db') \/
              (exists t, o = ODelete t /\ Forall2 (recycles A id) db db')).
Proof.
  intros A id db o r db' H. apply step_spec in H.
  destruct o as [es|t ml|ms|t]; [destruct r | | | destruct r]; try (left; exact H); right; split; try reflexivity.
  - left. exists es. split; [reflexivity | exact H].
  - right. exists t. split; [reflexivity | exact H].
Qed.

Lemma step_uuids : forall A id db o r db',
  step A id db o = (r, db') ->
  exists new, map e_uuid db' = map e_uuid db ++ map e_uuid new /\
              (new = [] \/ exists es, o = OCreate es /\ r = ROk).
Proof.
  intros A id db o r db' H.
  destruct (step_cases _ _ _ _ _ _ H) as [->|[-> [[es [-> C]]|[t [_ D]]]]].
  - exists []. rewrite app_nil_r. split; [reflexivity | left; reflexivity].
  - destruct C as [new [-> _]]. exists new. rewrite map_app. split; [reflexivity|].
    right. exists es. split; reflexivity.
  - exists []. rewrite (recycles_uuids _ _ _ _ D), app_nil_r. split; [reflexivity | left; reflexivity].
Qed.

Lemma user_step_reserved : forall A rw db o r db',
  step A (IUser rw) db o = (r, db') -> filter reserved db' = filter reserved db.
Proof.
  intros A rw db o r db' H.
  destruct (step_cases _ _ _ _ _ _ H) as [->|[_ [[es [_ C]]|[t [_ D]]]]].
  - reflexivity.
  - destruct C as [new [-> [Hn [_ [_ Hu]]]]].
    rewrite filter_app, (filter_reserved_new new), app_nil_r; [reflexivity|].
    rewrite Hn. apply Hu. reflexivity.
  - apply (recycles_reserved _ _ _ _ D).
Qed.

Lemma sumcnt_filter : forall q db, sumcnt (fun e => reserved e && q e) db = sumcnt q (filter reserved db).
Proof.
  intros q db. induction db as [|e r IH]; [reflexivity|]. cbn [sumcnt filter].
  destruct (reserved e); cbn [andb sumcnt]; rewrite IH; reflexivity.
Qed.

Lemma view_resv : forall track db db',
  filter reserved db = filter reserved db' -> obs_resv (view track db) = obs_resv (view track db').
Proof.
  intros track db db' H. unfold obs_resv, view. cbn [fst]. rewrite !sumcnt_filter, H. reflexivity.
Qed.

Lemma view_track : forall track db, obs_track (view track db) = map (fun u => lookup_st u db) track.
Proof. reflexivity. Qed.

Lemma lookup_st_bound : forall u db, (lookup_st u db <? 3) = true.
Proof.
  intros u db. induction db as [|e r IH]; cbn [lookup_st]; [reflexivity|].
  destruct (u =? e_uuid e); [destruct (live e); reflexivity | exact IH].
Qed.

Lemma lookup_st_mem : forall u db, (lookup_st u db <? 2) = memN u (map e_uuid db).
Proof.
  intros u db. induction db as [|e r IH]; cbn [lookup_st map memN]; [reflexivity|].
  destruct (u =? e_uuid e); cbn [orb]; [destruct (live e); reflexivity | exact IH].
Qed.

Lemma lookup_st_app : forall u a b,
  lookup_st u (a ++ b) = if lookup_st u a =? 2 then lookup_st u b else lookup_st u a.
Proof.
  intros u a b. induction a as [|e r IH]; cbn [lookup_st app]; [reflexivity|].
  destruct (u =? e_uuid e); [destruct (live e); reflexivity | exact IH].
Qed.

Lemma lookup_st_live : forall u l, (forall e, In e l -> live e = true) ->
  lookup_st u l = if memN u (map e_uuid l) then 0 else 2.
Proof.
  intros u l. induction l as [|e r IH]; intros Hl; cbn [lookup_st map memN]; [reflexivity|].
  destruct (u =? e_uuid e); cbn [orb].
  - rewrite (Hl e (or_introl eq_refl)). reflexivity.
  - apply IH. intros x Hx. apply Hl. right. exact Hx.
Qed.

Lemma recycles_lookup : forall A id u db db', Forall2 (recycles A id) db db' ->
  (lookup_st u db =? lookup_st u db') || ((lookup_st u db =? 0) && (lookup_st u db' =? 1)) = true.
Proof.
  intros A id u db db' H. induction H as [|e e' l l' He _ IH]; [reflexivity|]. cbn [lookup_st].
  rewrite (recycles_uuid _ _ _ _ He). destruct (u =? e_uuid e); [|exact IH].
  destruct He as [->|[-> [Hl _]]]; [rewrite N.eqb_refl | rewrite Hl]; reflexivity.
Qed.

Lemma track_ok_map : forall (f : N -> N -> N -> bool) (g1 g2 : N -> N) track,
  (forall u, f u (g1 u) (g2 u) = true) -> track_ok f track (map g1 track) (map g2 track) = true.
Proof.
  intros f g1 g2 track H. induction track as [|u r IH]; cbn [map track_ok]; [reflexivity|].
  rewrite H, IH. reflexivity.
Qed.

Lemma step_view_ok : forall A track id db o r db',
  step A id db o = (r, db') -> step_ok track id o r (view track db) (view track db') = true.
Proof.
  intros A track id db o r db' H. unfold step_ok. rewrite !view_track.
  apply andb_true_iff. split; [apply andb_true_iff; split|].
  - (* a user's request leaves the reserved range alone *)
    destruct id as [|rw]; [reflexivity|]. cbn [is_user internal negb].
    rewrite (view_resv track db' db (user_step_reserved _ _ _ _ _ _ H)).
    unfold resv_eqb. rewrite !pairN_eqb_refl. reflexivity.
  - (* no uuid disappears *)
    apply track_ok_map. intros u. rewrite lookup_st_bound. cbn [andb].
    rewrite !lookup_st_mem. destruct (step_uuids _ _ _ _ _ _ H) as [new [Hm _]].
    rewrite Hm, memN_app. destruct (memN u (map e_uuid db)); reflexivity.
  - apply step_spec in H.
    destruct o as [es|t ml|ms|t]; [destruct r | | | destruct r]; try (rewrite H; apply listN_eqb_refl).
    + destruct H as [new [-> [Hn [Hl [Hlive Hu]]]]].
      apply andb_true_iff. split; [apply andb_true_iff; split|].
      * (* a tracked uuid changes state only from absent to live, and only if requested *)
        apply track_ok_map. intros u. rewrite lookup_st_app.
        destruct (lookup_st u db =? 2) eqn:E2; [|rewrite N.eqb_refl; reflexivity].
        apply N.eqb_eq in E2. rewrite E2, (lookup_st_live u new Hlive), Hn.
        destruct (memN u (req_uuids es)); reflexivity.
      * destruct (is_user id); [exact (Hu eq_refl) | reflexivity].
      * rewrite Hl. apply N.eqb_refl.
    + apply track_ok_map. intros u. apply (recycles_lookup _ _ _ _ _ H).
Qed.

Lemma hist_bridge : forall A track steps db,
  hist_agree A track db steps = true -> hist_ok track (view track db) steps = true.
Proof.
  intros A track steps. induction steps as [|[[[id o] r] ob] rest IH]; intros db Ha; [reflexivity|].
  cbn [hist_agree hist_ok] in *. destruct (step A id db o) as [r' db'] eqn:Es.
  apply andb_true_iff in Ha as [Ha Hrest]. apply andb_true_iff in Ha as [Hr Hob].
  apply res_eqb_eq in Hr. apply obs_eqb_eq in Hob. subst r' ob.
  rewrite (step_view_ok _ _ _ _ _ _ _ Es). apply (IH _ Hrest).
Qed.

Lemma agree_pcheck : forall c, agree c = true -> pcheck c = true.
Proof.
  intros [anon dne dynmin|intern existing es r out|g track init o0 steps] H; cbn [agree pcheck] in *.
  - apply andb_true_iff in H as [H H3]. apply andb_true_iff in H as [H1 H2].
    apply N.eqb_eq in H1, H2, H3. subst. reflexivity.
  - destruct (base_create intern (fun u => memN u existing) es) as [r' out'] eqn:S. apply base_create_spec in S.
    apply andb_true_iff in H as [Hr Ho]. apply res_eqb_eq in Hr. apply out_eqb_eq in Ho. subst r' out'.
    destruct r; try reflexivity. destruct S as [-> [Hm Hu]].
    rewrite map_length, (req_uuids_length _ Hm), N.eqb_refl.
    destruct intern; [reflexivity|]. specialize (Hu eq_refl). rewrite forallb_forall in Hu.
    cbn [andb]. apply andb_true_iff. split; apply forallb_forall.
    + intros p Hp. apply in_map_iff in Hp as [u [<- Hi]]. cbn [fst snd].
      rewrite (Hu u Hi), andb_false_r. reflexivity.
    + (* every entry of the request yields one of the uuids of req_uuids *)
      intros c Hc. apply (in_map base_uuid) in Hc. rewrite Hm in Hc. apply in_map_iff in Hc as [u [Hb Hi]].
      unfold base_uuid in Hb. destruct (c_uuid c) as [|u' [|]]; [reflexivity | | discriminate].
      injection Hb as ->. apply (Hu _ Hi).
  - apply andb_true_iff in H as [H0 Hh]. apply obs_eqb_eq in H0. subst o0. apply (hist_bridge _ _ _ _ Hh).
Qed.
