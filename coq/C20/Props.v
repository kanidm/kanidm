(* The model transcribes Base::pre_create_transform / pre_modify / pre_batch_modify, the protected
   rules of access/{create,delete,modify}.rs and the stage order of
   server/{create,modify,batch_modify,delete}.rs.  The configured access control profiles are the
   parameter [A : acps]: five arbitrary boolean oracles, universally quantified in every theorem
   about [step] / [run] ("regardless of the access controls configured"). *)
From Coq Require Import List NArith Bool.
Import ListNotations.
Require Import KV.C20.Model KV.C20.Proofs.
Open Scope N_scope.

(* The two layers use the same range: the Base plugin tests `uuid < DYNAMIC_RANGE_MINIMUM_UUID`,
   the access module tests `uuid <= UUID_ANONYMOUS`. *)
Theorem C20_ranges_coincide : forall u, u < DYN_MIN <-> u <= UUID_ANONYMOUS.
Proof. intros u. rewrite <- N.ltb_lt, <- N.leb_le, ranges_coincide. reflexivity. Qed.

(* The modify guard is complete: a modify list (of any length, any mix of present / removed /
   purged / set / assert) that Base::pre_modify lets through leaves the value set of `uuid`
   exactly as it was, whatever that set is. *)
Theorem C20_modify_guard_complete : forall ml vs vs',
  base_modify ml = true -> apply_ml vs ml = Some vs' -> vs' = vs.
Proof. intros ml vs vs' Hb. apply apply_ml_untouched. intros m. apply base_modify_In, Hb. Qed.

(* ... and it refuses every list that contains a present, removed, purged or set on `uuid`. *)
Theorem C20_modify_guard_rejects : forall ml m v,
  In m ml -> (m = MPresent AUuid v \/ m = MRemoved AUuid v \/ m = MPurged AUuid \/ m = MSet AUuid v) ->
  base_modify ml = false.
Proof.
  intros ml m v Hi Hm. destruct (base_modify ml) eqn:Hb; [|reflexivity].
  apply (base_modify_In _ _ Hb) in Hi. destruct Hm as [Hm|[Hm|[Hm|Hm]]]; subst m; discriminate Hi.
Qed.

(* UUIDs are immutable, for EVERY identity (the internal system identity included) and every
   profile set: after any request the directory consists of the old entries, in place, each with
   the uuid it had, followed by new entries; and new entries exist only after a successful create. *)
Theorem C20_uuid_immutable : forall A id db o r db',
  step A id db o = (r, db') ->
  exists new, map e_uuid db' = map e_uuid db ++ map e_uuid new /\
              (new = [] \/ exists es, o = OCreate es /\ r = ROk).
Proof. exact step_uuids. Qed.

(* the same, entry by entry *)
Theorem C20_uuid_immutable_entry : forall A id db o r db' n e,
  step A id db o = (r, db') -> nth_error db n = Some e ->
  exists e', nth_error db' n = Some e' /\ e_uuid e' = e_uuid e.
Proof.
  intros A id db o r db' n e Hs Hn. destruct (step_uuids _ _ _ _ _ _ Hs) as [new [Hm _]].
  assert (nth_error (map e_uuid db') n = Some (e_uuid e)) as H.
  { rewrite Hm, nth_error_app1; [apply map_nth_error; exact Hn|].
    rewrite map_length. apply nth_error_Some. rewrite Hn. discriminate. }
  rewrite nth_error_map in H. destruct (nth_error db' n) as [e'|]; [|discriminate].
  exists e'. split; [reflexivity|]. injection H as H. exact H.
Qed.

(* modify and batch_modify never change a uuid, a state or the set of entries *)
Theorem C20_modify_keeps_directory : forall A id db r db',
  (forall t ml, step A id db (OModify t ml) = (r, db') -> db' = db) /\
  (forall ms, step A id db (OBatch ms) = (r, db') -> db' = db).
Proof. intros A id db r db'. split; [intros t ml H | intros ms H]; exact (step_spec _ _ _ _ _ _ H). Qed.

(* a refused request of any kind changes nothing *)
Theorem C20_refused_request_changes_nothing : forall A id db o r db',
  step A id db o = (r, db') -> r <> ROk -> db' = db.
Proof.
  intros A id db o r db' H Hr. destruct (step_cases _ _ _ _ _ _ H) as [->|[-> _]]; [reflexivity|].
  elim Hr. reflexivity.
Qed.

(* No create of a user lands in the reserved range: whatever a user's create does, the new
   entries (explicit or server generated uuids) are all at or above DYNAMIC_RANGE_MINIMUM_UUID. *)
Theorem C20_no_reserved_create : forall A rw db es r db',
  step A (IUser rw) db (OCreate es) = (r, db') ->
  exists new, db' = db ++ new /\ forall e, In e new -> DYN_MIN <= e_uuid e.
Proof.
  intros A rw db es r db' H.
  destruct (step_cases _ _ _ _ _ _ H) as [->|[_ [[es' [[= <-] C]]|[t [[=] _]]]]].
  - exists []. rewrite app_nil_r. split; [reflexivity | intros e []].
  - destruct C as [new [-> [Hn [_ [_ Hu]]]]]. exists new. split; [reflexivity|]. intros e He. apply N.leb_le.
    specialize (Hu eq_refl). rewrite <- Hn, forallb_forall in Hu. apply Hu, in_map, He.
Qed.

(* No request of a user deletes (or alters in any way) an entry of the reserved range. *)
Theorem C20_builtin_undeletable : forall A rw db o r db' e,
  step A (IUser rw) db o = (r, db') -> In e db -> e_uuid e < DYN_MIN -> In e db'.
Proof.
  intros A rw db o r db' e Hs Hi Hu. apply user_step_reserved in Hs.
  assert (In e (filter reserved db')) as H.
  { rewrite Hs. apply filter_In. split; [exact Hi|]. unfold reserved. apply N.ltb_lt. exact Hu. }
  apply filter_In in H. apply H.
Qed.

(* The full statement for one user request: the first conjunct is uuid immutability; the second
   carries both that no create lands in the reserved range and that no reserved entry is deleted. *)
Theorem C20_user_request : forall A rw db o r db',
  step A (IUser rw) db o = (r, db') ->
  (exists new, map e_uuid db' = map e_uuid db ++ map e_uuid new) /\
  filter reserved db' = filter reserved db.
Proof.
  intros A rw db o r db' Hs. split.
  - destruct (step_uuids _ _ _ _ _ _ Hs) as [new [H _]]. exists new. exact H.
  - apply (user_step_reserved _ _ _ _ _ _ Hs).
Qed.

(* Histories of any length.  Whatever users do (any mix of read-write and read-only sessions, any
   requests), the reserved range of the directory — which entries it has, in which order, each
   one's uuid, protected class (which in the model only a delete can change) and live/recycled
   state — is exactly what it was. *)
Theorem C20_reserved_range_frozen : forall A h db,
  Forall (fun p => is_user (fst p) = true) h -> filter reserved (run A db h) = filter reserved db.
Proof.
  intros A h db Hu. revert db. induction Hu as [|[[|rw] o] h Hp _ IH]; intros db; [reflexivity | discriminate Hp|].
  cbn [run]. destruct (step A (IUser rw) db o) as [r1 db1] eqn:Es. cbn [snd].
  rewrite IH. apply (user_step_reserved _ _ _ _ _ _ Es).
Qed.

(* ... and for histories of ANY identities the old entries keep their uuids and positions. *)
Theorem C20_history_uuids : forall A h db,
  exists new, map e_uuid (run A db h) = map e_uuid db ++ new.
Proof.
  intros A h. induction h as [|[id o] h IH]; intros db; cbn [run].
  - exists []. rewrite app_nil_r. reflexivity.
  - destruct (step A id db o) as [r1 db1] eqn:Es. cbn [snd].
    destruct (step_uuids _ _ _ _ _ _ Es) as [n1 [H1 _]]. destruct (IH db1) as [n2 H2].
    exists (map e_uuid n1 ++ n2). rewrite H2, H1, app_assoc. reflexivity.
Qed.

(* The Base plugin on its own (it also sits behind the access module): for a non-internal
   identity a successful pre_create_transform yields only uuids of the dynamic range and never adds
   the `builtin` class; and a request naming a reserved uuid is refused. *)
Theorem C20_base_user_never_reserved : forall ex es out,
  base_create false ex es = (ROk, out) ->
  length out = length es /\ forall u b, In (u, b) out -> DYN_MIN <= u /\ b = false.
Proof.
  intros ex es out H. apply base_create_spec in H.
  destruct H as [-> [Hm Hu]]. split.
  - rewrite map_length. apply (req_uuids_length _ Hm).
  - intros u b Hi. apply in_map_iff in Hi as [u' [[= <- <-] Hi]].
    specialize (Hu eq_refl). rewrite forallb_forall in Hu.
    split; [apply N.leb_le, (Hu _ Hi) | apply andb_false_r].
Qed.

Theorem C20_base_user_rejects_reserved : forall ex es c u,
  In c es -> c_uuid c = [u] -> u < DYN_MIN -> fst (base_create false ex es) <> ROk.
Proof.
  intros ex es c u Hc Hu Hlt Hok. destruct (base_create false ex es) as [r out] eqn:S.
  cbn [fst] in Hok. subst r. apply base_create_spec in S as [_ [_ Hd]].
  specialize (Hd eq_refl). rewrite forallb_forall in Hd.
  assert (In u (req_uuids es)) as Hi.
  { apply in_flat_map. exists c. split; [exact Hc|]. unfold base_uuid. rewrite Hu. left. reflexivity. }
  apply Hd, N.leb_le in Hi. exact (proj1 (N.lt_nge _ _) Hlt Hi).
Qed.

(* Soundness of the run-time tie: whenever the implementation's answers and directory views agree
   with the model, the property's executable predicate holds of those observations. *)
Theorem C20_agree_implies_property : forall c : case, agree c = true -> pcheck c = true.
Proof. exact agree_pcheck. Qed.
