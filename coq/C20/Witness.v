(* KV.C20.Witness — non-vacuity: concrete non-trivial values meeting the hypotheses. *)
From Coq Require Import List NArith Bool.
Import ListNotations.
Require Import KV.C20.Model.
Open Scope N_scope.

Definition all_acps := acps_of (mkcfg true true true true true).
(* admin (0), idm_admins (1), a system-class entry in the dynamic range, two ordinary entries *)
Definition wdb : list ent :=
  [mkent 0 false Live; mkent 1 false Live; mkent 300000000000000 true Live;
   mkent 281474976710656 false Live; mkent 281474976710700 false Live].

(* the guard is what protects: applied to the value set, a Set on `uuid` would change the uuid ... *)
Example C20_witness_set_would_change : apply_ml [281474976710700] [MSet AUuid 5] = Some [5].
Proof. vm_compute. reflexivity. Qed.
(* ... a request containing it (here behind an assertion that holds) passes a grant-everything
   access check and the assert stage, and is refused by Base::pre_modify *)
Example C20_witness_guard_reached :
  step all_acps (IUser true) wdb (OModify (TUuids [281474976710700]) [MAssertUuid 281474976710700; MSet AUuid 5])
  = (ESysProt, wdb).
Proof. vm_compute. reflexivity. Qed.
(* a list the guard lets through and that is applied (hypotheses of C20_modify_guard_complete) *)
Example C20_witness_guard_passes :
  base_modify [MAssertUuid 7; MSet AOther 1; MPurged AOther] = true /\
  apply_ml [7] [MAssertUuid 7; MSet AOther 1; MPurged AOther] = Some [7].
Proof. vm_compute. split; reflexivity. Qed.
(* a batch modify that succeeds (hypothesis of C20_modify_keeps_directory with r = ROk) *)
Example C20_witness_modify_ok :
  step all_acps (IUser true) wdb (OBatch [(281474976710656, [MSet AOther 1]); (281474976710700, [MAssertUuid 281474976710700])])
  = (ROk, wdb).
Proof. vm_compute. reflexivity. Qed.

(* a user's create succeeds in the dynamic range, with an explicit and with a generated uuid *)
Example C20_witness_user_create :
  step all_acps (IUser true) wdb (OCreate [mkcent [281474976710657] 0 false; mkcent [] 999999999999999999 false])
  = (ROk, wdb ++ [mkent 281474976710657 false Live; mkent 999999999999999999 false Live]).
Proof. vm_compute. reflexivity. Qed.
(* ... and is refused for the reserved uuid 5, while the system identity may create it *)
Example C20_witness_user_create_reserved :
  fst (step all_acps (IUser true) wdb (OCreate [mkcent [5] 0 false])) = EDenied /\
  step all_acps ISystem wdb (OCreate [mkcent [5] 0 false]) = (ROk, wdb ++ [mkent 5 false Live]).
Proof. vm_compute. split; reflexivity. Qed.

(* a user's delete works on an ordinary entry and is refused on a built-in one and on everything *)
Example C20_witness_user_delete :
  step all_acps (IUser true) wdb (ODelete (TUuids [281474976710700]))
  = (ROk, [mkent 0 false Live; mkent 1 false Live; mkent 300000000000000 true Live;
           mkent 281474976710656 false Live; mkent 281474976710700 true Recycled]) /\
  fst (step all_acps (IUser true) wdb (ODelete (TUuids [1]))) = EDenied /\
  fst (step all_acps (IUser true) wdb (ODelete TAll)) = EDenied /\
  fst (step all_acps ISystem wdb (ODelete (TUuids [1]))) = ROk.
Proof. vm_compute. repeat split; reflexivity. Qed.

(* a history of users only (hypothesis of C20_reserved_range_frozen) that does change the directory *)
Definition whist : list (ident * op) :=
  [(IUser true, OCreate [mkcent [281474976710800] 0 false]);
   (IUser false, ODelete (TUuids [281474976710800]));
   (IUser true, ODelete (TUuids [1; 281474976710800]));
   (IUser true, ODelete (TUuids [281474976710656]));
   (IUser true, OModify TAll [MPurged AUuid])].
Example C20_witness_history :
  Forall (fun p => is_user (fst p) = true) whist /\
  run all_acps wdb whist <> wdb /\
  filter reserved (run all_acps wdb whist) = filter reserved wdb.
Proof.
  split; [repeat constructor|]. vm_compute. split; [discriminate | reflexivity].
Qed.

(* the Base plugin alone: accepted dynamic request; refused reserved request *)
Example C20_witness_base :
  base_create false (fun u => memN u [0; 1]) [mkcent [281474976710656] 0 false; mkcent [] 281474976710999 false]
  = (ROk, [(281474976710656, false); (281474976710999, false)]) /\
  base_create false (fun u => memN u [0; 1]) [mkcent [281474976710656] 0 false; mkcent [281474976710655] 0 false]
  = (EBaseRange, []) /\
  base_create true (fun u => memN u [0; 1]) [mkcent [5] 0 false] = (ROk, [(5, true)]).
Proof. vm_compute. repeat split; reflexivity. Qed.

(* an agreeing, non-trivial observation record (hypothesis of C20_agree_implies_property) *)
Example C20_witness_agree :
  agree (CHist (mkcfg true true true true true) [1; 281474976710700; 281474976710800] wdb
           ((1, 2), (0, 0), [0; 0; 2])
           [(IUser true, OModify (TUuids [281474976710700]) [MSet AUuid 5], ESysProt, ((1, 2), (0, 0), [0; 0; 2]));
            (IUser true, OCreate [mkcent [281474976710800] 0 false], ROk, ((1, 2), (0, 0), [0; 0; 0]));
            (IUser true, ODelete (TUuids [1]), EDenied, ((1, 2), (0, 0), [0; 0; 0]));
            (ISystem, ODelete (TUuids [1]), ROk, ((0, 1), (1, 1), [1; 0; 0]))]) = true.
Proof. vm_compute. reflexivity. Qed.
