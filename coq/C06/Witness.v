From Coq Require Import List NArith Bool.
Import ListNotations.
Require Import KV.C06.Model.
Open Scope N_scope.

Definition grid (i j nr nw : nat) : list bool :=
  repeat true i ++ repeat false j ++ repeat true (nr - i) ++ repeat false (nw - j).

(* the refutation at the granularity of the hooks: reader takes schema .. feature_config (7 segments),
   the writer commits, the reader takes the access controls and searches A (cached) and B *)
Example C06_witness_refuted_mixed :
  let m := case_run [0] [0; 1; 0; 1] (grid 7 14 13 14) in
  entry_labels (log (mr m)) = [0; 1; 0; 1] /\ cobs_model (mr m) = [(1, 0); (8, 0); (9, 0); (12, 1)].
Proof. vm_compute. split; reflexivity. Qed.

(* a case of the shape the harness records, with that run's observations: agrees, fails the property, is in the class *)
Example C06_witness_known_case :
  let c := CSched [0] [0; 1; 0; 1] (grid 7 14 13 14) (map fst rsegs) (map fst wsegs)
                  [0; 1; 0; 1] [(1, 0); (8, 0); (9, 0); (12, 1)] in
  agree c = true /\ pcheck c = false /\ known c = true.
Proof. vm_compute. repeat split; reflexivity. Qed.

(* hypotheses of C06_single_state_partial / C06_agree_implies_property are satisfiable by
   non-trivial schedules: the reader closes its window (the 16 steps of racq + the search of the
   uncached B pins SQLite), THEN reader and writer interleave *)
Example C06_witness_reader_first :
  let s := repeat true 18 ++ [false; false; true; false; true; false] ++ repeat false 20 ++ repeat true 4 in
  reader_first 0 [0] (case_rprog [1; 0; 1]) s = true /\
  view (mr (run 1 dirty s (minit 0 [0] (case_rprog [1; 0; 1]) wcommit))) = repeat 0 21.
Proof. vm_compute. split; reflexivity. Qed.

Example C06_witness_writer_first :
  let s := repeat false 24 ++ repeat true 22 in
  writer_first s = true /\
  view (mr (run 1 dirty s (minit 0 [0] (case_rprog [1; 0; 1]) wcommit))) = repeat 1 21.
Proof. vm_compute. split; reflexivity. Qed.

Example C06_witness_agree_outside_known :
  let c := CSched [0] [0; 1] (grid 11 14 11 14) (map fst rsegs) (map fst wsegs)
                  [0; 0] [(1, 0); (8, 0); (9, 0); (12, 0)] in
  agree c = true /\ known c = false /\ pcheck c = true.
Proof. vm_compute. repeat split; reflexivity. Qed.

(* repeatable reads, hypotheses met by the real program with repeated keys; here the writer's commit falls inside
   the acquisition block and every lookup comes after it (a key looked up before and after the commit:
   C06_witness_reader_first) *)
Example C06_witness_repeatable :
  let m := case_run [] [0; 1; 0; 1; 1; 0] (grid 4 9 15 14) in
  entry_labels (log (mr m)) = [1; 1; 1; 1; 1; 1] /\ rp m = [] /\ wp m = [].
Proof. vm_compute. repeat split; reflexivity. Qed.

(* the repaired protocol on the refuting schedule shape *)
Example C06_witness_under_lock :
  view (mr (run 1 dirty (repeat true 17 ++ repeat false 24 ++ repeat true 4)
              (minit 0 [0] (racq_pinned ++ searches [0; 1]) wcommit))) = repeat 0 19.
Proof. vm_compute. reflexivity. Qed.
