(* KV.C06.Proofs — two invariants of the reader/writer machine: answers stay repeatable (Staged), and a reader that
   can no longer be disturbed sees one label (Uni); then the two separated schedule shapes and the bridge to pcheck. *)
From Coq Require Import List NArith Bool PeanoNat.
Import ListNotations.
Require Import KV.C06.Model.
Open Scope N_scope.

Lemma cell_of_id : forall c, nth (N.to_nat (cell_id c)) all_cells CSchema = c.
Proof. destruct c; reflexivity. Qed.

Lemma all_cells_complete : forall c, In c all_cells.
Proof.
  intro c. rewrite <- (cell_of_id c) at 1. apply nth_In.
  destruct c; apply Nat.ltb_lt; reflexivity.
Qed.

Lemma cell_eqb_spec : forall a b, reflect (a = b) (cell_eqb a b).
Proof.
  intros a b. unfold cell_eqb. destruct (N.eqb_spec (cell_id a) (cell_id b)) as [E|E]; constructor.
  - rewrite <- (cell_of_id a), E. apply cell_of_id.
  - intros ->. apply E. reflexivity.
Qed.

Lemma cell_eqb_refl : forall a, cell_eqb a a = true.
Proof. intro a. apply N.eqb_refl. Qed.

Lemma fupd_same : forall A (f : cell -> A) c v, fupd f c v c = v.
Proof. intros. unfold fupd. rewrite cell_eqb_refl. reflexivity. Qed.

Lemma fupd_other : forall A (f : cell -> A) c c' v, c <> c' -> fupd f c v c' = f c'.
Proof. intros A f c c' v H. unfold fupd. destruct (cell_eqb_spec c c'); [contradiction | reflexivity]. Qed.

Lemma run_app : forall w D s1 s2 m, run w D (s1 ++ s2) m = run w D s2 (run w D s1 m).
Proof.
  intros w D s1. induction s1 as [|b t IH]; intros s2 m; [reflexivity|].
  destruct b; cbn [app run].
  - destruct (rp m); apply IH.
  - destruct (wp m); apply IH.
Qed.

Lemma run_inv (P : mst -> Prop) w D :
  (forall m s rest, rp m = s :: rest -> P m -> P (mkm (mg m) (rexec s (mg m) (mr m)) rest (wp m))) ->
  (forall m s rest, wp m = s :: rest -> P m -> P (mkm (wexec w D s (mg m)) (mr m) (rp m) rest)) ->
  forall sched m, P m -> P (run w D sched m).
Proof.
  intros Hr Hw. induction sched as [|[|] t IH]; intros m HP; cbn [run]; [exact HP| |].
  - destruct (rp m) as [|s rest] eqn:E; apply IH; [exact HP | exact (Hr m s rest E HP)].
  - destruct (wp m) as [|s rest] eqn:E; apply IH; [exact HP | exact (Hw m s rest E HP)].
Qed.

(* the steps that are not lookups make up the acquisition block *)
Definition isq (s : rstep) : bool := match s with RGet _ _ => true | _ => false end.

Definition Inv_rep (r : rst) : Prop :=
  forall c k v, In (c, k, v) (log r) -> lookup r c k = Some v.

Lemma lookup_after_miss : forall r c k p c' k',
  lookup r c k = None ->
  lookup (mkr (snapv r) (snapc r) (Some p) (fupd (tl r) c (aset (tl r c) k p)) (log r ++ [(c, k, p)])) c' k'
  = if cell_eqb c c' && (k =? k') then Some p else lookup r c' k'.
Proof.
  intros r c k p c' k' L. unfold lookup, snap_hit in *. cbn [snapc tl].
  destruct (cell_eqb_spec c c') as [<-|Hne]; cbn [andb]; [|rewrite fupd_other by exact Hne; reflexivity].
  rewrite fupd_same. cbn [aset aget]. destruct (N.eqb_spec k k') as [<-|]; [|reflexivity].
  destruct (match snapc r c with Some m => aget m k | None => None end); [discriminate L | reflexivity].
Qed.

Lemma rexec_get_rep : forall g r c k, Inv_rep r -> Inv_rep (rexec (RGet c k) g r).
Proof.
  intros g r c k H c' k' v' HI. unfold rexec in *.
  destruct (lookup r c k) as [v|] eqn:L; cbn [log] in HI; apply in_app_or in HI as [HI|[[= <- <- <-]|[]]].
  - (* a hit changes nothing but the log *) exact (H _ _ _ HI).
  - exact L.
  - rewrite lookup_after_miss by exact L.
    destruct (cell_eqb_spec c c') as [<-|]; cbn [andb]; [|exact (H _ _ _ HI)].
    destruct (N.eqb_spec k k') as [<-|]; [|exact (H _ _ _ HI)].
    rewrite (H _ _ _ HI) in L. discriminate L.
  - rewrite lookup_after_miss, cell_eqb_refl, N.eqb_refl by exact L. reflexivity.
Qed.

Lemma rexec_nonq_log : forall s g r, isq s = false -> log (rexec s g r) = log r.
Proof. intros s g r H. destruct s; try reflexivity. discriminate H. Qed.

(* a snapshot step can change what a lookup answers, so Inv_rep survives it only because nothing has been answered
   while such steps remain *)
Definition Staged (m : mst) : Prop :=
  Inv_rep (mr m) /\
  exists a q, rp m = a ++ q /\ Forall (fun x => isq x = false) a /\ Forall (fun x => isq x = true) q /\
              (a = [] \/ log (mr m) = []).

Lemma run_Staged : forall w D sched m, Staged m -> Staged (run w D sched m).
Proof.
  intros w D. apply run_inv; [|intros m s rest _ HS; exact HS].
  intros m s rest E (H1 & a & q & Ea & Ha & Hq & H3). rewrite E in Ea. unfold Staged. cbn [mr rp].
  destruct a as [|s' a]; cbn [app] in Ea.
  - subst q. inversion Hq as [|? ? Es Hrest]; subst. destruct s; try discriminate Es.
    split; [apply rexec_get_rep; exact H1|]. exists [], rest. auto.
  - injection Ea as <- ->. inversion Ha as [|? ? Es Ha']; subst.
    destruct H3 as [H3|L]; [discriminate H3|]. rewrite <- (rexec_nonq_log s (mg m) _ Es) in L.
    split; [intros c k v HI; rewrite L in HI; destruct HI|]. exists a, q. auto.
Qed.

Lemma repeatable : forall w D sched g0 a q wprog,
  Forall (fun x => isq x = false) a -> Forall (fun x => isq x = true) q ->
  forall c k v1 v2,
    let r := mr (run w D sched (mkm g0 rinit (a ++ q) wprog)) in
    In (c, k, v1) (log r) -> In (c, k, v2) (log r) -> v1 = v2.
Proof.
  intros w D sched g0 a q wprog Ha Hq c k v1 v2 r H1 H2.
  assert (HS : Staged (run w D sched (mkm g0 rinit (a ++ q) wprog))).
  { apply run_Staged. split; [intros ? ? ? []|]. exists a, q. auto. }
  destruct HS as (HI & _). apply HI in H1. apply HI in H2. rewrite H1 in H2. injection H2 as E. exact E.
Qed.

Lemma run_true_eq : forall n w D g r l wpr,
  run w D (repeat true n) (mkm g r l wpr) =
  mkm g (fold_left (fun r s => rexec s g r) (firstn n l) r) (skipn n l) wpr.
Proof.
  induction n as [|n IH]; intros w D g r l wpr; [reflexivity|].
  cbn [repeat run rp mg mr wp]. destruct l as [|s rest]; rewrite IH; [rewrite firstn_nil, skipn_nil|]; reflexivity.
Qed.

Lemma run_true_g : forall n g r l, mg (run 0 [] (repeat true n) (mkm g r l [])) = g.
Proof. intros n g r l. rewrite run_true_eq. reflexivity. Qed.

Lemma skipn_app_queries : forall n (a q : list rstep),
  (length a <= n)%nat -> Forall (fun x => isq x = true) q ->
  Forall (fun x => isq x = true) (skipn n (a ++ q)).
Proof.
  intros n a q Hn Hq. rewrite skipn_app, (skipn_all2 a Hn). cbn [app].
  rewrite <- (firstn_skipn (n - length a) q) in Hq. apply Forall_app in Hq. exact (proj2 Hq).
Qed.

(* Cache lines are constrained for keys in D only: wexec re-labels just those, so a warm key outside D keeps its old
   label after the writer is done; hence keys_in below. *)
Definition AllV (D : list N) (v : N) (r : rst) : Prop :=
  (forall c x, snapv r c = Some x -> x = v) /\
  (forall c m k x, snapc r c = Some m -> In k D -> aget m k = Some x -> x = v) /\
  (forall c k x, aget (tl r c) k = Some x -> x = v) /\
  (forall p, pin r = Some p -> p = v) /\
  Forall (fun o : obs => snd o = v) (log r).

Definition gvalid (D : list N) (v : N) (g : gst) : Prop :=
  (forall c, pubv g c = v) /\ sql g = v /\
  (forall c k x, In k D -> aget (cch g c) k = Some x -> x = v).

Definition keys_in (D : list N) (l : list rstep) : Prop :=
  forall c k, In (RGet c k) l -> In k D.

Lemma AllV_rinit : forall D v, AllV D v rinit.
Proof.
  intros D v. unfold AllV, rinit. cbn. repeat split; intros; try discriminate. constructor.
Qed.

Lemma rexec_pin : forall s g r, pin r <> None -> pin (rexec s g r) <> None.
Proof.
  intros s g r Hp. destruct s as [c| | |c k]; cbn [rexec pin]; try exact Hp; [discriminate|].
  destruct (lookup r c k); cbn [pin]; [exact Hp | discriminate].
Qed.

(* second disjunct: a lookup by a reader whose SQLite snapshot is pinned does not read the shared state *)
Lemma rexec_AllV : forall D v g r s,
  AllV D v r -> (forall c k, s = RGet c k -> In k D) ->
  gvalid D v g \/ (isq s = true /\ pin r <> None) ->
  AllV D v (rexec s g r).
Proof.
  intros D v g r s (A1 & A2 & A3 & A4 & A5) Hk Hg.
  (* the label of the SQLite snapshot, held or taken now *)
  assert (P : match pin r with Some p => p | None => sql g end = v).
  { destruct (pin r) as [p|]; [apply A4; reflexivity|].
    destruct Hg as [(_ & G2 & _)|[_ Hp]]; [exact G2 | contradiction Hp; reflexivity]. }
  destruct s as [c| | |c k]; cbn [rexec].
  - destruct Hg as [(G1 & _ & G3)|[Hq _]]; [|discriminate Hq].
    refine (conj _ (conj _ (conj A3 (conj A4 A5)))); cbn [snapv snapc].
    + intros c' x H. unfold fupd in H. destruct (cell_eqb c c'); [inversion H; apply G1|eapply A1; exact H].
    + intros c' m k x H Hin Ha. unfold fupd in H. destruct (cell_eqb c c').
      * inversion H; subst. eapply G3; eassumption.
      * eapply A2; eassumption.
  - exact (conj A1 (conj A2 (conj A3 (conj A4 A5)))).
  - refine (conj A1 (conj A2 (conj A3 (conj _ A5)))). intros p [= <-]. exact P.
  - assert (Hin : In k D) by (eapply Hk; reflexivity).
    assert (A5' : Forall (fun o : obs => snd o = v) (log r ++ [(c, k, v)])).
    { apply Forall_app. split; [exact A5|]. constructor; [reflexivity | constructor]. }
    destruct (lookup r c k) as [x|] eqn:L.
    + assert (x = v).
      { unfold lookup, snap_hit in L. destruct (snapc r c) as [m|] eqn:Es; [|eapply A3; exact L].
        destruct (aget m k) eqn:Ea; [inversion L; subst; eapply A2; eassumption|eapply A3; exact L]. }
      subst x. exact (conj A1 (conj A2 (conj A3 (conj A4 A5')))).
    + rewrite P. refine (conj A1 (conj A2 (conj _ (conj _ A5')))); cbn [tl pin].
      * intros c' k' x H. unfold fupd in H. destruct (cell_eqb c c'); [|eapply A3; exact H].
        cbn [aset aget] in H. destruct (k =? k'); [inversion H; reflexivity|eapply A3; exact H].
      * intros p [= <-]. reflexivity.
Qed.

Lemma AllV_view : forall D v r, AllV D v r -> Forall (eq v) (view r).
Proof.
  intros D v r (A1 & _ & _ & _ & A5). unfold view. apply Forall_app. split.
  - rewrite Forall_forall in *. intros x Hx. apply in_map_iff in Hx. destruct Hx as (o & <- & Ho).
    symmetry. apply A5. exact Ho.
  - apply Forall_forall. intros x Hx. apply in_flat_map in Hx. destruct Hx as (c & _ & Hc).
    destruct (snapv r c) eqn:E; [|destruct Hc]. destruct Hc as [<-|[]]. symmetry. eapply A1. exact E.
Qed.

Definition Uni (D : list N) (v : N) (m : mst) : Prop :=
  AllV D v (mr m) /\ keys_in D (rp m) /\
  ((wp m = [] /\ gvalid D v (mg m)) \/
   (Forall (fun x => isq x = true) (rp m) /\ (pin (mr m) <> None \/ rp m = []))).

Lemma run_Uni : forall D v w D' sched m, Uni D v m -> Uni D v (run w D' sched m).
Proof.
  intros D v w D'. apply run_inv; intros m s rest E (Hr & Hk & Hs); unfold Uni; cbn [mr rp wp mg].
  - rewrite E in Hk, Hs. split; [|split].
    + apply rexec_AllV; [exact Hr | intros c k ->; apply (Hk c k); left; reflexivity |].
      destruct Hs as [[_ Hg]|[Hq [Hp|Hp]]]; [left; exact Hg | right | discriminate Hp].
      split; [exact (Forall_inv Hq) | exact Hp].
    + intros c k H. apply (Hk c k). right. exact H.
    + destruct Hs as [Hs|[Hq [Hp|Hp]]]; [left; exact Hs | right | discriminate Hp].
      split; [exact (Forall_inv_tail Hq) | left; apply rexec_pin; exact Hp].
  - (* the writer moves: only the second reason can hold *)
    split; [exact Hr | split; [exact Hk | right]]. destruct Hs as [[Hw _]|Hs]; [congruence | exact Hs].
Qed.

Lemma gvalid_ginit : forall D v warm, gvalid D v (ginit v warm).
Proof.
  intros D v warm. unfold gvalid, ginit. cbn [pubv sql cch]. repeat split.
  intros c k x _ H. destruct (cache_cell c); [|discriminate H].
  induction warm as [|k' t IH]; [discriminate H|].
  cbn [map aget] in H. destruct (k' =? k); [inversion H; reflexivity|apply IH; exact H].
Qed.

(* reader first: its window (acquisition + SQLite pin) closes before the writer's first step *)
Lemma reader_first_uniform : forall v0 warm a q n s' w D wprog,
  Forall (fun x => isq x = false) a -> Forall (fun x => isq x = true) q ->
  (length a <= n)%nat ->
  (let m0 := run 0 [] (repeat true n) (minit v0 warm (a ++ q) []) in
   pin (mr m0) <> None \/ rp m0 = []) ->
  Forall (eq v0) (view (mr (run w D (repeat true n ++ s') (minit v0 warm (a ++ q) wprog)))).
Proof.
  intros v0 warm a q n s' w D wprog Ha Hq Hn Hc.
  (* every key counts: take the key universe to be "all keys ever asked" *)
  set (K := flat_map (fun s => match s with RGet _ k => [k] | _ => [] end) (a ++ q)).
  assert (HK : keys_in K (a ++ q)).
  { intros c k H. unfold K. apply in_flat_map. exists (RGet c k). split; [exact H|left; reflexivity]. }
  (* alone, the reader meets the initial state only *)
  destruct (run_Uni K v0 0 [] (repeat true n) (minit v0 warm (a ++ q) [])) as (Hr & Hk & _).
  { split; [apply AllV_rinit | split; [exact HK | left; split; [reflexivity | apply gvalid_ginit]]]. }
  apply (AllV_view K). rewrite run_app. unfold minit in *. rewrite run_true_eq in *. cbn [mr rp] in *.
  refine (proj1 (run_Uni K v0 w D s' _ _)). split; [exact Hr | split; [exact Hk | right; split; [|exact Hc]]].
  apply skipn_app_queries; assumption.
Qed.

Lemma run_false_all : forall w D wpr g r l,
  run w D (repeat false (length wpr)) (mkm g r l wpr) =
  mkm (fold_left (fun g s => wexec w D s g) wpr g) r l [].
Proof.
  intros w D wpr. induction wpr as [|s t IH]; intros g r l; [reflexivity|].
  cbn [length repeat run wp mg mr rp fold_left]. apply IH.
Qed.

Lemma aget_fold_in : forall w D m0 k,
  In k D \/ aget m0 k = Some w -> aget (fold_left (fun m k => aset m k w) D m0) k = Some w.
Proof.
  intros w D. induction D as [|k' t IH]; intros m0 k H; cbn [fold_left].
  - destruct H as [[]|H]; exact H.
  - apply IH. cbn [aset aget]. destruct (N.eqb_spec k' k) as [->|Hne]; [right; reflexivity|].
    destruct H as [[H|H]|H]; [contradiction | left; exact H | right; exact H].
Qed.

Definition gdone (w : N) (D : list N) (v0 : N) (warm : list N) : gst :=
  fold_left (fun g s => wexec w D s g) wcommit (ginit v0 warm).

Lemma gdone_valid : forall w D v0 warm, gvalid D w (gdone w D v0 warm).
Proof.
  intros w D v0 warm. unfold gvalid. split; [|split].
  - intro c. destruct c; reflexivity.
  - reflexivity.
  - intros c k x Hin H.
    assert (E : cch (gdone w D v0 warm) c =
                fold_left (fun m k => aset m k w) D (cch (ginit v0 warm) c)) by (destruct c; reflexivity).
    rewrite E, aget_fold_in in H by (left; exact Hin). inversion H. reflexivity.
Qed.

(* with nothing left for the writer to do the shared state never changes again *)
Lemma writer_first_uniform : forall v0 warm rprog s' w D,
  keys_in D rprog ->
  Forall (eq w) (view (mr (run w D (repeat false (length wcommit) ++ s') (minit v0 warm rprog wcommit)))).
Proof.
  intros v0 warm rprog s' w D Hk. apply (AllV_view D). rewrite run_app. unfold minit.
  rewrite run_false_all. refine (proj1 (run_Uni D w w D s' _ _)).
  split; [apply AllV_rinit | split; [exact Hk | left; split; [reflexivity | apply gdone_valid]]].
Qed.

Lemma leading_ge_split : forall b n s, (n <= leading b s)%nat -> s = repeat b n ++ skipn n s.
Proof.
  intros b n. induction n as [|n IH]; intros s H; [reflexivity|].
  destruct s as [|x t]; [inversion H|]. cbn [leading] in H.
  destruct (Bool.eqb x b) eqn:E; [|inversion H]. apply Bool.eqb_prop in E. subst x.
  cbn [repeat app skipn]. f_equal. apply IH. apply le_S_n. exact H.
Qed.

Lemma Forall_eq_uniformb : forall v l, Forall (eq v) l -> uniformb l = true.
Proof.
  intros v l H. destruct l as [|x t]; [reflexivity|]. apply Forall_cons_iff in H as [<- Ht].
  cbn [uniformb]. unfold all_eqb. apply forallb_forall. intros y Hy.
  rewrite Forall_forall in Ht. rewrite <- (Ht y Hy). apply N.eqb_refl.
Qed.

Lemma searches_isq : forall qs, Forall (fun x => isq x = true) (searches qs).
Proof.
  induction qs as [|k t IH]; [constructor|]. cbn [searches flat_map search app] in *.
  constructor; [reflexivity|]. constructor; [reflexivity|]. exact IH.
Qed.

Lemma racq_nonq : Forall (fun x => isq x = false) racq.
Proof. repeat constructor. Qed.

Lemma racq_pinned_nonq : Forall (fun x => isq x = false) racq_pinned.
Proof. repeat constructor. Qed.

Lemma keys_in_prog : forall D a qs,
  Forall (fun x => isq x = false) a -> (forall k, In k qs -> In k D) -> keys_in D (a ++ searches qs).
Proof.
  intros D a qs Ha H c k Hin. apply in_app_or in Hin. destruct Hin as [Hin|Hin].
  - rewrite Forall_forall in Ha. discriminate (Ha _ Hin).
  - unfold searches in Hin. apply in_flat_map in Hin. destruct Hin as (k' & Hk' & Hs).
    cbn in Hs. destruct Hs as [Hs|[Hs|[]]]; inversion Hs; subst; apply H; exact Hk'.
Qed.

Lemma single_state_partial : forall v0 w D warm qs s,
  (forall k, In k qs -> In k D) ->
  reader_first v0 warm (case_rprog qs) s || writer_first s = true ->
  exists v, Forall (eq v) (view (mr (run w D s (minit v0 warm (case_rprog qs) wcommit)))).
Proof.
  intros v0 w D warm qs s Hk H. apply orb_true_iff in H. destruct H as [H|H].
  - exists v0. unfold reader_first, closed_after in H. apply andb_true_iff in H. destruct H as [H1 H2].
    apply Nat.leb_le in H1. rewrite (leading_ge_split true _ s (le_n _)). unfold case_rprog in *.
    apply reader_first_uniform; [exact racq_nonq|apply searches_isq|exact H1|]. cbv zeta.
    destruct (pin (mr _)); [left; discriminate|right]. destruct (rp _); [reflexivity|discriminate H2].
  - exists w. unfold writer_first in H. apply Nat.leb_le in H.
    rewrite (leading_ge_split false _ s H). apply writer_first_uniform.
    apply keys_in_prog; [exact racq_nonq | exact Hk].
Qed.

Lemma pinned_closed : forall v0 warm q,
  let m0 := run 0 [] (repeat true (length racq_pinned)) (minit v0 warm (racq_pinned ++ q) []) in
  pin (mr m0) <> None.
Proof. intros v0 warm q. vm_compute. discriminate. Qed.

Lemma under_lock : forall v0 w D warm qs s',
  (forall k, In k qs -> In k D) ->
  Forall (eq v0) (view (mr (run w D (repeat true (length racq_pinned) ++ s')
                              (minit v0 warm (racq_pinned ++ searches qs) wcommit)))) /\
  Forall (eq w) (view (mr (run w D (repeat false (length wcommit) ++ s')
                             (minit v0 warm (racq_pinned ++ searches qs) wcommit)))).
Proof.
  intros v0 w D warm qs s' Hk. split.
  - apply reader_first_uniform; [exact racq_pinned_nonq|apply searches_isq|apply Nat.le_refl|].
    left. apply pinned_closed.
  - apply writer_first_uniform. apply keys_in_prog; [exact racq_pinned_nonq | exact Hk].
Qed.

Lemma list_eqb_eq : forall a b, list_eqb a b = true -> a = b.
Proof.
  induction a as [|x a IH]; destruct b as [|y b]; intro H; try reflexivity; try discriminate H.
  cbn in H. apply andb_true_iff in H. destruct H as [H1 H2]. apply N.eqb_eq in H1. subst.
  f_equal. apply IH. exact H2.
Qed.

Lemma pairs_eqb_eq : forall a b, pairs_eqb a b = true -> a = b.
Proof.
  induction a as [|[x1 x2] a IH]; destruct b as [|[y1 y2] b]; intro H; try reflexivity; try discriminate H.
  cbn in H. apply andb_true_iff in H. destruct H as [H1 H3]. apply andb_true_iff in H1. destruct H1 as [H1 H2].
  apply N.eqb_eq in H1. apply N.eqb_eq in H2. subst. f_equal. apply IH. exact H3.
Qed.

Lemma entry_labels_view : forall r x, In x (entry_labels (log r)) -> In x (view r).
Proof.
  intros r x H. unfold entry_labels in H. apply in_flat_map in H. destruct H as (o & Ho & Hx).
  unfold view. apply in_or_app. left. apply in_map_iff. exists o. split; [|exact Ho].
  destruct (fst (fst o)); try (destruct Hx; fail). destruct Hx as [<-|[]]. reflexivity.
Qed.

Lemma cobs_view : forall r x, In x (map snd (cobs_model r)) -> In x (view r).
Proof.
  intros r x H. apply in_map_iff in H. destruct H as ([i v] & <- & H). unfold cobs_model in H.
  apply in_flat_map in H. destruct H as (c & _ & H). destruct (snapv r c) eqn:E; [|destruct H].
  destruct H as [H|[]]. inversion H; subst. unfold view. apply in_or_app. right.
  apply in_flat_map. exists c. split; [apply all_cells_complete|]. rewrite E. left. reflexivity.
Qed.

Lemma agree_pcheck : forall c, agree c = true -> known c = false -> pcheck c = true.
Proof.
  intros [warm qs sched tr_r tr_w eobs cobs] HA HK. unfold agree in HA. unfold known in HK. unfold pcheck.
  (* of agree's conjuncts: the observed cells, the observed entries, and (first) the searched keys *)
  apply andb_true_iff in HA as [HA Hc]. apply andb_true_iff in HA as [HA He].
  do 5 (apply andb_true_iff in HA as [HA _]).
  apply negb_false_iff in HK.
  assert (Hq : forall k, In k qs -> In k dirty).
  { intros k Hk. rewrite forallb_forall in HA. specialize (HA k Hk).
    apply N.ltb_lt in HA. change 2 with (N.succ 1) in HA.
    apply N.lt_succ_r, N.le_1_r in HA as [->| ->]; [left | right; left]; reflexivity. }
  destruct (single_state_partial 0 1 dirty warm qs (case_sched qs sched) Hq HK) as [v Hv].
  fold (case_run warm qs sched) in Hv.
  apply list_eqb_eq in He. apply pairs_eqb_eq in Hc. subst eobs cobs.
  apply (Forall_eq_uniformb v). apply Forall_forall. intros x Hx. rewrite Forall_forall in Hv. apply Hv.
  apply in_app_or in Hx. destruct Hx as [Hx|Hx]; [apply entry_labels_view|apply cobs_view]; exact Hx.
Qed.
