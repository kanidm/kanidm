From Coq Require Import List NArith Bool.
Import ListNotations.
Require Import KV.C06.Model KV.C06.Proofs.
Open Scope N_scope.

(* FULL STATEMENT of C06 on the model of the code as it is: whatever the interleaving of the
   reader's steps with the writer's commit steps, whatever the caches hold and whatever the
   reader searches for (among the entries the writer changes), everything the read transaction
   answers from -- the cell snapshots it holds and every lookup answer -- carries one label,
   i.e. comes from a single committed state. *)
Definition C06_full_statement : Prop :=
  forall (warm qs : list N) (sched : list bool),
    Forall (fun k => In k dirty) qs ->
    uniformb (view (mr (run 1 dirty sched (minit 0 warm (case_rprog qs) wcommit)))) = true.

(* The faithful model does NOT satisfy it.  Witness: entry A cached, entry B not; the reader
   completes QueryServer::read() (all 16 steps of racq: nothing inside read() is interleaved),
   the writer then commits completely, the reader then searches A and B: A is answered from the
   old entry-cache snapshot, B from SQLite, whose DEFERRED transaction only now takes its
   snapshot -- after the commit. *)
Theorem C06_refuted : ~ C06_full_statement.
Proof.
  intro H.
  specialize (H [0] [0; 1] (repeat true 16 ++ repeat false 24 ++ repeat true 4)).
  assert (F : Forall (fun k => In k dirty) [0; 1]).
  { constructor; [left; reflexivity|]. constructor; [right; left; reflexivity|]. constructor. }
  specialize (H F). vm_compute in H. discriminate H.
Qed.

(* Repeatable reads hold in full: for ANY acquisition prefix (any order of snapshot steps),
   any list of lookups after it, any writer program, any schedule and any starting state, two
   lookups of the same key through the same cache inside one read transaction return the same
   version. *)
Theorem C06_repeatable :
  forall (w : N) (D : list N) (sched : list bool) (g0 : gst) (a q : list rstep) (wprog : list wstep),
    Forall (fun x => isq x = false) a -> Forall (fun x => isq x = true) q ->
    forall c k v1 v2,
      let r := mr (run w D sched (mkm g0 rinit (a ++ q) wprog)) in
      In (c, k, v1) (log r) -> In (c, k, v2) (log r) -> v1 = v2.
Proof. exact repeatable. Qed.

(* PARTIAL (what is missing: every schedule in which the reader's snapshot window overlaps
   the writer's commit -- the known-finding class `overlap`).  For the code as it is: if the
   reader closes its window (all acquisitions AND the first SQLite statement, or it has
   nothing left to ask) before the writer's first step, or the writer finishes its commit
   before the reader's first step, the view is a single committed state, for every later
   interleaving. *)
Theorem C06_single_state_partial :
  forall (v0 w : N) (D warm qs : list N) (s : list bool),
    (forall k, In k qs -> In k D) ->
    reader_first v0 warm (case_rprog qs) s || writer_first s = true ->
    uniformb (view (mr (run w D s (minit v0 warm (case_rprog qs) wcommit)))) = true.
Proof.
  intros v0 w D warm qs s Hk H.
  destruct (single_state_partial v0 w D warm qs s Hk H) as [v Hv].
  exact (Forall_eq_uniformb v _ Hv).
Qed.

(* The repair, documented: a reader that also FORCES its SQLite snapshot inside the
   acquisition block (racq_pinned) and whose acquisition block is mutually exclusive with the
   writer's publication block (it runs entirely before the writer's first step or entirely
   after its last one) sees one committed state: the old one, respectively the new one --
   whatever happens afterwards. *)
Theorem C06_consistent_under_lock :
  forall (v0 w : N) (D warm qs : list N) (s' : list bool),
    (forall k, In k qs -> In k D) ->
    Forall (eq v0) (view (mr (run w D (repeat true (length racq_pinned) ++ s')
                                (minit v0 warm (racq_pinned ++ searches qs) wcommit)))) /\
    Forall (eq w) (view (mr (run w D (repeat false (length wcommit) ++ s')
                               (minit v0 warm (racq_pinned ++ searches qs) wcommit)))).
Proof. exact under_lock. Qed.

(* ... and a lock around read() ALONE is not a repair: with read() and commit() strictly
   serialised (read() completes, then the whole commit runs, then the reader searches) the
   unforced SQLite snapshot still mixes two states.  The run is that of C06_refuted. *)
Theorem C06_lock_without_pin_refuted :
  exists warm qs,
    Forall (fun k => In k dirty) qs /\
    uniformb (view (mr (run 1 dirty
        (repeat true (length racq) ++ repeat false (length wcommit) ++ repeat true (length (searches qs)))
        (minit 0 warm (case_rprog qs) wcommit)))) = false.
Proof.
  exists [0], [0; 1]. split.
  - constructor; [left; reflexivity|]. constructor; [right; left; reflexivity|]. constructor.
  - vm_compute. reflexivity.
Qed.

(* Soundness of the run-time tie: whenever the implementation's observations agree with the
   model on a case OUTSIDE the known class, the property's executable predicate holds on
   those observations. *)
Theorem C06_agree_implies_property :
  forall c : case, agree c = true -> known c = false -> pcheck c = true.
Proof. exact agree_pcheck. Qed.
