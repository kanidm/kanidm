(* KV.C45.Witness — non-vacuity of the implication theorems of Props.v. *)
From Coq Require Import List NArith Bool.
Import ListNotations.
Require Import KV.C45.Model.
Open Scope N_scope.

(* strings: 1..4 group names; 11..14 uuid strings; 12 is ALSO used as a group name; 30.. account ids *)
Definition w_allow : list str := [2; 13; 13; 12].
Definition w_tok_by_name : token := mktoken true [mkgroup 1 11; mkgroup 2 14].
Definition w_tok_by_uuid : token := mktoken true [mkgroup 1 11; mkgroup 3 13; mkgroup 3 13].
Definition w_tok_name_is_uuid : token := mktoken true [mkgroup 12 11].     (* a group NAMED like a listed uuid *)
Definition w_tok_outsider : token := mktoken true [mkgroup 1 11; mkgroup 4 14].
Definition w_tok_invalid : token := mktoken false [mkgroup 2 14].

(* C45_iff with the left side true: by name, by uuid, by a name equal to a listed uuid string;
   the refusing instances are the next three examples *)
Example C45_witness_allowed :
  unix_user_authorise w_allow w_tok_by_name = PSome true /\
  unix_user_authorise w_allow w_tok_by_uuid = PSome true /\
  unix_user_authorise w_allow w_tok_name_is_uuid = PSome true.
Proof. vm_compute. repeat split; reflexivity. Qed.
(* C45_non_member_denied: hypotheses met by a valid user with groups and a non-empty list *)
Example C45_witness_outsider :
  forallb (fun g => negb (mem (g_name g) w_allow) && negb (mem (g_uuid g) w_allow)) (t_groups w_tok_outsider) = true /\
  unix_user_authorise w_allow w_tok_outsider = PSome false.
Proof. vm_compute. repeat split; reflexivity. Qed.
(* C45_invalid_denies: an invalid record that IS in an allowed group *)
Example C45_witness_invalid :
  t_valid w_tok_invalid = false /\ member_spec w_allow w_tok_invalid = true /\
  unix_user_authorise w_allow w_tok_invalid = PSome false.
Proof. vm_compute. repeat split; reflexivity. Qed.
(* C45_empty_denies on a user that the non-empty list admits *)
Example C45_witness_empty : unix_user_authorise [] w_tok_by_name = PSome false.
Proof. vm_compute. reflexivity. Qed.

(* resolver level: 40 = root (system), 30 = alice, 31 = bob *)
Definition w_hist : list (str * dresp) :=
  [ (30, DTok w_tok_by_name);      (* alice allowed *)
    (31, DTok w_tok_outsider);     (* bob denied *)
    (30, DError);                  (* server error: alice's cached record still decides *)
    (30, DTok w_tok_invalid);      (* alice's record is now invalid *)
    (30, DError);                  (* ... and the cached invalid record decides *)
    (30, DNotFound);               (* alice removed *)
    (30, DError);                  (* nothing cached any more *)
    (40, DNotFound) ].             (* root is a system account *)
Example C45_witness_history :
  pam_run w_allow [40] [] w_hist =
  [PSome true; PSome false; PSome true; PSome false; PSome false; PNone; PNone; PSome true].
Proof. vm_compute. reflexivity. Qed.
(* C45_pam_directory_user_allowed / C45_record_provenance: hypotheses met at the fallback call *)
Example C45_witness_fallback :
  mem 30 [40] = false /\
  pam_spec w_allow [40] [(31, DTok w_tok_outsider); (30, DTok w_tok_by_name)] 30 DError = PSome true /\
  record_of 30 [(30, DError); (31, DTok w_tok_outsider); (30, DTok w_tok_by_name)] = Some w_tok_by_name.
Proof. vm_compute. repeat split; reflexivity. Qed.
(* C45_pam_empty_list_admits_no_directory_user: system users still pass, directory users do not *)
Example C45_witness_empty_list_history :
  pam_run [] [40] [] [(30, DTok w_tok_by_name); (40, DNotFound)] = [PSome false; PSome true].
Proof. vm_compute. reflexivity. Qed.

Example C45_witness_pcheck_discriminates :
  pcheck (CProv w_allow w_tok_by_uuid (PSome true)) = true /\
  pcheck (CProv w_allow w_tok_by_uuid (PSome false)) = false /\
  pcheck (CProv w_allow w_tok_outsider (PSome true)) = false /\
  pcheck (CProv w_allow w_tok_invalid (PSome true)) = false /\
  pcheck (CProv [] w_tok_by_name (PSome true)) = false /\
  pcheck (CProv w_allow w_tok_by_name PNone) = false /\
  pcheck (CPam w_allow [40] w_hist [PSome true; PSome false; PSome true; PSome false; PSome false; PNone; PNone; PSome true]) = true /\
  pcheck (CPam w_allow [40] w_hist [PSome true; PSome false; PSome true; PSome false; PSome true; PNone; PNone; PSome true]) = false.
Proof. vm_compute. repeat split; reflexivity. Qed.
