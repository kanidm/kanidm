(* Provider: the set / intersection-count code and the specification's search both
   decide [member_prop]; resolver: the cache holds, for every directory account, the record that
   [record_of] reads off the history of answers ([cache_inv]). *)
From Coq Require Import List NArith Bool.
Import ListNotations.
Require Import KV.C45.Model.
Open Scope N_scope.

Lemma mem_In x s : mem x s = true <-> In x s.
Proof.
  unfold mem. rewrite existsb_exists. split.
  - intros [y [Hy <-%N.eqb_eq]]. exact Hy.
  - intros H. exists x. split; [exact H | apply N.eqb_refl].
Qed.

Lemma In_set_insert x s y : In x (set_insert s y) <-> In x s \/ y = x.
Proof.
  unfold set_insert. destruct (mem y s) eqn:E.
  - apply mem_In in E. split; [tauto | intros [H| <-]; assumption].
  - rewrite in_app_iff. cbn [In]. tauto.
Qed.

Lemma In_fold_insert x : forall l s, In x (fold_left set_insert l s) <-> In x s \/ In x l.
Proof.
  induction l as [|a l IH]; intros s; cbn [fold_left In]; [tauto|].
  rewrite IH, In_set_insert. apply or_assoc.
Qed.

Lemma In_set_of x l : In x (set_of l) <-> In x l.
Proof. unfold set_of. rewrite In_fold_insert. cbn [In]. tauto. Qed.

Lemma set_of_cons_nonempty a l : set_of (a :: l) <> [].
Proof.
  intros H. assert (Hin : In a (set_of (a :: l))) by (apply In_set_of; left; reflexivity).
  rewrite H in Hin. exact Hin.
Qed.

Lemma count_existsb a b :
  negb (Nat.eqb (intersection_count a b) 0) = existsb (fun x => mem x b) a.
Proof.
  unfold intersection_count. induction a as [|x a IH]; cbn [filter existsb]; [reflexivity|].
  destruct (mem x b); cbn [length orb]; [reflexivity | exact IH].
Qed.

Lemma existsb_mem a b : existsb (fun x => mem x b) a = true <-> exists x, In x a /\ In x b.
Proof. rewrite existsb_exists. setoid_rewrite mem_In. reflexivity. Qed.

Definition member_prop (allow : list str) (tok : token) : Prop :=
  exists g, In g (t_groups tok) /\ (In (g_name g) allow \/ In (g_uuid g) allow).

Lemma member_spec_iff allow tok : member_spec allow tok = true <-> member_prop allow tok.
Proof.
  unfold member_spec, member_prop. rewrite existsb_exists. setoid_rewrite existsb_exists.
  setoid_rewrite orb_true_iff. setoid_rewrite N.eqb_eq. split.
  - intros [a [Ha [g [Hg [->| ->]]]]]; exists g; auto.
  - intros [g [Hg [H|H]]]; [exists (g_name g) | exists (g_uuid g)]; eauto 6.
Qed.

Lemma sets_intersect_iff allow tok :
  existsb (fun x => mem x (set_of allow))
          (set_of (flat_map (fun g => [g_name g; g_uuid g]) (t_groups tok))) = true
  <-> member_prop allow tok.
Proof.
  unfold member_prop. rewrite existsb_mem. setoid_rewrite In_set_of. setoid_rewrite in_flat_map.
  cbn [In]. split.
  - intros [x [[g [Hg [<-|[<-|[]]]]] Hx]]; exists g; auto.
  - intros [g [Hg [H|H]]]; [exists (g_name g) | exists (g_uuid g)]; eauto 6.
Qed.

Lemma authorise_eq allow tok : unix_user_authorise allow tok = PSome (authorise_spec allow tok).
Proof.
  unfold unix_user_authorise, authorise_spec. destruct allow as [|a l]; [reflexivity|].
  destruct (set_of (a :: l)) as [|s0 s'] eqn:E; [exfalso; exact (set_of_cons_nonempty a l E)|].
  rewrite <- E, count_existsb. f_equal. rewrite andb_comm. f_equal.
  apply eq_true_iff_eq. rewrite sets_intersect_iff, member_spec_iff. reflexivity.
Qed.

Lemma authorise_true_iff allow tok :
  unix_user_authorise allow tok = PSome true <->
  allow <> [] /\ t_valid tok = true /\ member_prop allow tok.
Proof.
  rewrite authorise_eq, <- member_spec_iff. unfold authorise_spec. destruct allow as [|a l].
  - split; [discriminate | intros [[] _]; reflexivity].
  - split.
    + intros [= [Hv Hm]%andb_true_iff]. split; [discriminate | split; assumption].
    + intros [_ [-> ->]]. reflexivity.
Qed.

Lemma cache_get_del id' id c :
  cache_get id' (cache_del id c) = if id' =? id then None else cache_get id' c.
Proof.
  induction c as [|[k t] r IH]; cbn [cache_del cache_get].
  - destruct (id' =? id); reflexivity.
  - destruct (N.eqb_spec id k) as [<-|Hk]; cbn [cache_get]; rewrite IH.
    + destruct (id' =? id); reflexivity.
    + destruct (N.eqb_spec id' id) as [->|]; [|reflexivity].
      destruct (N.eqb_spec id k); [contradiction | reflexivity].
Qed.

Lemma cache_get_put id' id t c :
  cache_get id' (cache_put id t c) = if id' =? id then Some t else cache_get id' c.
Proof.
  unfold cache_put. cbn [cache_get]. rewrite cache_get_del. destruct (id' =? id); reflexivity.
Qed.

Definition cache_inv (sys : list str) (c : cache) (earlier_rev : list (str * dresp)) : Prop :=
  forall id, mem id sys = false -> cache_get id c = record_of id earlier_rev.

Lemma pam_step_answer allow sys c e id resp :
  cache_inv sys c e -> fst (pam_step allow sys c id resp) = pam_spec allow sys e id resp.
Proof.
  intros Hinv. unfold pam_step, pam_spec. destruct (mem id sys) eqn:Es; [reflexivity|].
  cbn [record_of]. rewrite N.eqb_refl, <- (Hinv id Es).
  destruct resp as [t| |]; [apply authorise_eq | reflexivity |].
  destruct (cache_get id c); [apply authorise_eq | reflexivity].
Qed.

Lemma pam_step_snd allow sys c id resp :
  snd (pam_step allow sys c id resp) =
  if mem id sys then c
  else match resp with DTok t => cache_put id t c | DNotFound => cache_del id c | DError => c end.
Proof.
  unfold pam_step. destruct (mem id sys); [reflexivity|].
  destruct resp; try reflexivity. destruct (cache_get id c); reflexivity.
Qed.

Lemma pam_step_cache allow sys c e id resp :
  cache_inv sys c e -> cache_inv sys (snd (pam_step allow sys c id resp)) ((id, resp) :: e).
Proof.
  intros Hinv id' Hs'. rewrite pam_step_snd. cbn [record_of]. rewrite <- (Hinv id' Hs').
  destruct (mem id sys) eqn:Es.
  - destruct (N.eqb_spec id' id) as [->|]; [congruence | reflexivity].
  - destruct resp as [t| |]; [apply cache_get_put | apply cache_get_del |].
    destruct (id' =? id); reflexivity.
Qed.

Lemma pam_run_spec allow sys : forall steps c earlier,
  cache_inv sys c earlier -> pam_run allow sys c steps = pam_spec_run allow sys earlier steps.
Proof.
  induction steps as [|[id resp] r IH]; intros c earlier Hinv; [reflexivity|].
  cbn [pam_run pam_spec_run]. rewrite (surjective_pairing (pam_step allow sys c id resp)).
  f_equal; [apply pam_step_answer | apply IH, pam_step_cache]; exact Hinv.
Qed.

Lemma pam_run_is_spec allow sys steps : pam_run allow sys [] steps = pam_spec_run allow sys [] steps.
Proof. apply pam_run_spec. intros id _. reflexivity. Qed.

Lemma pam_spec_run_app allow sys : forall a e b,
  pam_spec_run allow sys e (a ++ b) = pam_spec_run allow sys e a ++ pam_spec_run allow sys (rev a ++ e) b.
Proof.
  induction a as [|[id resp] a IH]; intros e b; [reflexivity|].
  cbn [app pam_spec_run rev]. rewrite IH, <- app_assoc. reflexivity.
Qed.

Lemma pam_spec_run_length allow sys : forall a e, length (pam_spec_run allow sys e a) = length a.
Proof.
  induction a as [|[id resp] a IH]; intros e; cbn [pam_spec_run length]; [reflexivity | rewrite IH; reflexivity].
Qed.

Lemma record_of_provenance id t : forall h,
  record_of id h = Some t ->
  exists pre post, h = pre ++ (id, DTok t) :: post /\
    forall k r, In (k, r) pre -> k = id -> r = DError.
Proof.
  induction h as [|[k resp] h IH]; cbn [record_of]; [discriminate|].
  destruct (N.eqb_spec id k) as [<-|Hne]; [destruct resp as [t'| |]|].
  - intros [= ->]. exists [], h. split; [reflexivity | intros k r []].
  - discriminate.
  - intros (pre & post & -> & Hp)%IH. exists ((id, DError) :: pre), post. split; [reflexivity|].
    intros k r [[= <- <-]|Hin] Hk; [reflexivity | exact (Hp k r Hin Hk)].
  - intros (pre & post & -> & Hp)%IH. exists ((k, resp) :: pre), post. split; [reflexivity|].
    intros k' r [[= <- <-]|Hin] Hk; [contradiction (Hne (eq_sym Hk)) | exact (Hp k' r Hin Hk)].
Qed.

Lemma agree_eq_pcheck c : agree c = pcheck c.
Proof.
  destruct c as [allow tok impl | allow sys steps impl]; cbn [agree pcheck];
    [rewrite authorise_eq | rewrite pam_run_is_spec]; reflexivity.
Qed.
