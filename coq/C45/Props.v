(* C45: a directory user may log in to a host only if the user's current account record is valid
   and the user belongs, by name or UUID, to at least one group in the host's allowed-login list;
   an empty list admits no directory users. *)
From Coq Require Import List NArith Bool.
Import ListNotations.
Require Import KV.C45.Model KV.C45.Proofs.
Open Scope N_scope.

(* For every allowed-login list and every user token (any lengths,
   duplicates, names equal to uuid strings, ...): the provider answers "allowed" exactly when the
   list is non-empty, the record is valid, and some group of the token is in the list by its name
   or by the hyphenated string of its uuid. *)
Theorem C45_iff : forall allow tok,
  unix_user_authorise allow tok = PSome true <->
  allow <> [] /\ t_valid tok = true /\
  exists g, In g (t_groups tok) /\ (In (g_name g) allow \/ In (g_uuid g) allow).
Proof. exact authorise_true_iff. Qed.

(* the answer is always a definite yes/no: never "unknown user", never an error *)
Theorem C45_total : forall allow tok, exists b, unix_user_authorise allow tok = PSome b.
Proof. intros allow tok. rewrite authorise_eq. eexists. reflexivity. Qed.

(* an empty list admits no directory user *)
Theorem C45_empty_denies : forall tok, unix_user_authorise [] tok = PSome false.
Proof. reflexivity. Qed.

(* an invalid (expired / locked) record is denied whatever its groups *)
Theorem C45_invalid_denies : forall allow tok,
  t_valid tok = false -> unix_user_authorise allow tok = PSome false.
Proof.
  intros allow tok Hv. rewrite authorise_eq. unfold authorise_spec. rewrite Hv.
  destruct allow; reflexivity.
Qed.

(* no listed group => denied *)
Theorem C45_non_member_denied : forall allow tok,
  (forall g, In g (t_groups tok) -> ~ In (g_name g) allow /\ ~ In (g_uuid g) allow) ->
  unix_user_authorise allow tok = PSome false.
Proof.
  intros allow tok Hn. destruct (C45_total allow tok) as [[|] Hb]; [|exact Hb].
  apply C45_iff in Hb as [_ [_ [g [Hg [H|H]]]]]; destruct (Hn g Hg) as [N1 N2]; contradiction.
Qed.

(* the set/intersection-count transcription equals the declarative predicate *)
Theorem C45_authorise_is_spec : forall allow tok,
  unix_user_authorise allow tok = PSome (authorise_spec allow tok).
Proof. exact authorise_eq. Qed.

(* Resolver level.  For every history of pam_account_allowed calls (any length) on a resolver
   that starts with an empty cache and re-reads the record on every call, the answers are those of
   the declarative [pam_spec]: a system account is allowed without consulting the directory;
   otherwise the record in force decides. *)
Theorem C45_pam_run_is_spec : forall allow sys steps,
  pam_run allow sys [] steps = pam_spec_run allow sys [] steps.
Proof. exact pam_run_is_spec. Qed.

(* [rev pre] = the earlier calls newest first, the order [record_of] expects; the theorems below are
   stated on [pam_spec], and this one carries them to the answer of [pam_run] at position [length pre] *)
Theorem C45_pam_nth : forall allow sys pre id resp post,
  nth_error (pam_run allow sys [] (pre ++ (id, resp) :: post)) (length pre)
  = Some (pam_spec allow sys (rev pre) id resp).
Proof.
  intros allow sys pre id resp post. rewrite pam_run_is_spec, pam_spec_run_app.
  rewrite nth_error_app2; rewrite pam_spec_run_length; [|apply le_n].
  rewrite PeanoNat.Nat.sub_diag, app_nil_r. reflexivity.
Qed.

(* a directory user is allowed only if the record in force for that account is valid and in an
   allowed group, and the allow list is non-empty ... *)
Theorem C45_pam_directory_user_allowed : forall allow sys earlier id resp,
  mem id sys = false ->
  pam_spec allow sys earlier id resp = PSome true ->
  allow <> [] /\
  exists t, record_of id ((id, resp) :: earlier) = Some t /\ t_valid t = true /\
    exists g, In g (t_groups t) /\ (In (g_name g) allow \/ In (g_uuid g) allow).
Proof.
  intros allow sys earlier id resp Hs H. unfold pam_spec in H. rewrite Hs in H.
  destruct (record_of id ((id, resp) :: earlier)) as [t|] eqn:Er; [|discriminate].
  rewrite <- authorise_eq in H. apply C45_iff in H as [Hne [Hv Hm]].
  split; [exact Hne|]. exists t. split; [reflexivity|]. split; [exact Hv | exact Hm].
Qed.

(* ... where the record in force is one the server really returned for THAT account, and it is
   the newest answer for the account that was not a server error (the current record when the
   server answers; the last known record while it does not) *)
Theorem C45_record_provenance : forall id t h,
  record_of id h = Some t ->
  exists pre post, h = pre ++ (id, DTok t) :: post /\
    forall k r, In (k, r) pre -> k = id -> r = DError.
Proof. intros id t h. apply record_of_provenance. Qed.

(* when the server answers with a record, that record alone decides (no stale cache) *)
Theorem C45_pam_current_record : forall allow sys earlier id t,
  mem id sys = false ->
  pam_spec allow sys earlier id (DTok t) = unix_user_authorise allow t.
Proof.
  intros allow sys earlier id t Hs. unfold pam_spec. rewrite Hs. cbn [record_of].
  rewrite N.eqb_refl, authorise_eq. reflexivity.
Qed.

(* an account the server no longer knows is an unknown user, whatever was cached *)
Theorem C45_pam_removed_account : forall allow sys earlier id,
  mem id sys = false -> pam_spec allow sys earlier id DNotFound = PNone.
Proof.
  intros allow sys earlier id Hs. unfold pam_spec. rewrite Hs. cbn [record_of].
  rewrite N.eqb_refl. reflexivity.
Qed.

(* with an empty allow list no directory user is ever allowed, in any history *)
Theorem C45_pam_empty_list_admits_no_directory_user : forall sys earlier id resp,
  mem id sys = false -> pam_spec [] sys earlier id resp <> PSome true.
Proof.
  intros sys earlier id resp Hs H.
  apply C45_pam_directory_user_allowed in H as [Hne _]; [apply Hne; reflexivity | exact Hs].
Qed.

(* bridge: wherever the implementation agreed with the model, the independently phrased property
   predicate holds of the implementation's own answers *)
Theorem C45_agree_implies_property : forall c, agree c = true -> pcheck c = true.
Proof. intros c H. rewrite <- agree_eq_pcheck. exact H. Qed.
