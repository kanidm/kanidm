(* The index rows and the four name tables mirror the stored entries.
   Every name table is read through its view [vget]; one entry_index call acts on each view as
   [upd (mask pre) (mask post)] (drop the keys of pre, set those of post), and that keeps
   [MirrorMap] when keys are unique before and after.  Index rows are followed by membership only. *)
From Coq Require Import List NArith Bool.
Import ListNotations.
Require KV.C01.Model KV.C01.Proofs.    (* used by qualified names only: both developments define `mem`, `mem_In` *)
Require Import KV.C03.Model.
Open Scope N_scope.

Section AssocLemmas.
  Context {V : Type}.
  Implicit Types (l : list (N * V)).

  Lemma aget_adel k k' l : aget k (adel k' l) = if k =? k' then None else aget k l.
  Proof.
    unfold adel. induction l as [|[k1 v1] r IH]; cbn.
    - destruct (k =? k'); reflexivity.
    - destruct (N.eqb_spec k1 k') as [->|N1]; cbn; rewrite IH.
      + destruct (k =? k'); reflexivity.
      + destruct (N.eqb_spec k k1) as [->|]; [|reflexivity].
        destruct (N.eqb_spec k1 k'); [contradiction | reflexivity].
  Qed.

  Lemma aget_aset k k' (v : V) l : aget k (aset k' v l) = if k =? k' then Some v else aget k l.
  Proof.
    unfold aset. cbn. destruct (k =? k') eqn:E; [reflexivity|].
    rewrite aget_adel, E. reflexivity.
  Qed.

  Lemma aget_none_notin k l : aget k l = None <-> ~ In k (map fst l).
  Proof.
    induction l as [|[k1 v1] r IH]; cbn; [tauto|].
    destruct (N.eqb_spec k k1) as [->|Hn].
    - split; [discriminate | intros H; exfalso; apply H; auto].
    - rewrite IH. split; [intros H [H1|H1]; congruence | tauto].
  Qed.

  Lemma aget_In k (v : V) l : aget k l = Some v -> In (k, v) l.
  Proof.
    induction l as [|[k1 v1] r IH]; cbn; [discriminate|]. destruct (N.eqb_spec k k1) as [->|].
    - intros [= ->]. left. reflexivity.
    - intros H. right. apply IH, H.
  Qed.

  Lemma nodup_adel k l : NoDup (map fst l) -> NoDup (map fst (adel k l)).
  Proof.
    unfold adel. induction l as [|[k1 v1] r IH]; cbn; [auto|]. intros H. inversion H as [|? ? Hn Hr]; subst.
    destruct (k1 =? k); cbn; [apply IH; assumption|]. constructor; [|apply IH; assumption].
    intros Hin. apply Hn. apply in_map_iff in Hin as [p [<- Hp]]. apply in_map. apply filter_In in Hp. tauto.
  Qed.

  Lemma nodup_aset k (v : V) l : NoDup (map fst l) -> NoDup (map fst (aset k v l)).
  Proof.
    intros H. unfold aset. cbn. constructor; [|apply nodup_adel; assumption].
    apply aget_none_notin. rewrite aget_adel, N.eqb_refl. reflexivity.
  Qed.
End AssocLemmas.

Lemma fold_over {V A} (f : list (N * V) -> N * A -> list (N * V)) (h : A -> option V -> option V) :
  (forall d k k1 i, aget k (f d (k1, i)) = if k =? k1 then h i (aget k d) else aget k d) ->
  forall o, NoDup (map fst o) -> forall d k,
    aget k (fold_left f o d) = match aget k o with Some i => h i (aget k d) | None => aget k d end.
Proof.
  intros Hf o. induction o as [|[k1 i1] r IH]; intros Hn d k; cbn; [reflexivity|].
  inversion Hn as [|? ? Hnot Hr]; subst. rewrite (IH Hr), Hf.
  destruct (N.eqb_spec k k1) as [->|]; [|reflexivity].
  apply aget_none_notin in Hnot. rewrite Hnot. reflexivity.
Qed.

Lemma mem_In x l : mem x l = true <-> In x l.
Proof.
  unfold mem. rewrite existsb_exists. split.
  - intros [y [H E]]. apply N.eqb_eq in E. subst. assumption.
  - intros H. exists x. split; [assumption | apply N.eqb_refl].
Qed.
Lemma mem_false x l : mem x l = false <-> ~ In x l.
Proof. rewrite <- mem_In. destruct (mem x l); split; congruence. Qed.

Lemma mem_ldiff k a b : mem k (ldiff a b) = mem k a && negb (mem k b).
Proof. apply eq_iff_eq_true. rewrite andb_true_iff, !mem_In. apply filter_In. Qed.
Lemma In_ldiff x a b : In x (ldiff a b) <-> In x a /\ ~ In x b.
Proof. unfold ldiff. rewrite filter_In, negb_true_iff, mem_false. tauto. Qed.
Lemma ldiff_nil l : ldiff l [] = l.
Proof. unfold ldiff. induction l as [|x r IH]; cbn; [reflexivity | f_equal; exact IH]. Qed.

Lemma In_ins x i l : In x (ins i l) <-> x = i \/ In x l.
Proof.
  induction l as [|y r IH]; cbn; [intuition congruence|].
  destruct (i <? y); cbn; [intuition congruence|].
  destruct (N.eqb_spec i y) as [->|]; cbn; [|rewrite IH]; intuition congruence.
Qed.
Lemma In_rem x i l : In x (rem i l) <-> x <> i /\ In x l.
Proof.
  unfold rem. rewrite filter_In, negb_true_iff, N.eqb_neq. tauto.
Qed.

Lemma list_eqb_eq a : forall b, list_eqb a b = true -> a = b.
Proof.
  induction a as [|x r IH]; intros [|y t]; cbn; try discriminate; [reflexivity|].
  intros H. apply andb_true_iff in H as [H1 H2]. apply N.eqb_eq in H1. subst. f_equal. apply IH, H2.
Qed.

(* [ladd k v] = [ldirty k (Some v)] and [lrem k] = [ldirty k None], by unfolding *)
Definition ldirty (k : N) (o : option N) (L : layer) : layer := mklayer (aset k (IDirty o) (ov L)) (db L).

Lemma vget_dirty k k' o L : vget k (ldirty k' o L) = if k =? k' then o else vget k L.
Proof. unfold vget, ldirty. cbn [ov db]. rewrite aget_aset. destruct (k =? k'); reflexivity. Qed.
Lemma vget_ladd k k' v L : vget k (ladd k' v L) = if k =? k' then Some v else vget k L.
Proof. apply vget_dirty. Qed.
Lemma vget_lrem k k' L : vget k (lrem k' L) = if k =? k' then None else vget k L.
Proof. apply vget_dirty. Qed.

Lemma vget_fold_dirty o l : forall L k,
  vget k (fold_left (fun L k' => ldirty k' o L) l L) = if mem k l then o else vget k L.
Proof.
  induction l as [|x r IH]; intros L k; cbn; [reflexivity|].
  rewrite IH, vget_dirty. fold (mem k r). destruct (mem k r), (k =? x); reflexivity.
Qed.

Definition lwf (L : layer) : Prop :=
  NoDup (map fst (ov L)) /\ forall k v, aget k (ov L) = Some (IClean v) -> aget k (db L) = Some v.

Lemma lwf0 : lwf layer0.
Proof. split; [constructor | cbn; discriminate]. Qed.
Lemma lwf_dirty k o L : lwf L -> lwf (ldirty k o L).
Proof.
  intros [H1 H2]. split; cbn [ov db ldirty].
  - apply nodup_aset. assumption.
  - intros k0 v0. rewrite aget_aset. destruct (k0 =? k); [discriminate | apply H2].
Qed.
Lemma lwf_ladd k v L : lwf L -> lwf (ladd k v L).
Proof. apply lwf_dirty. Qed.
Lemma lwf_lrem k L : lwf L -> lwf (lrem k L).
Proof. apply lwf_dirty. Qed.
Lemma lwf_fold_dirty o l : forall L, lwf L -> lwf (fold_left (fun L k => ldirty k o L) l L).
Proof. induction l as [|x r IH]; intros L H; cbn; [assumption | apply IH, lwf_dirty, H]. Qed.
Lemma lwf_val_write u d L : lwf L -> lwf (val_write u d L).
Proof. intros H. destruct d as [[v|]|]; [apply lwf_ladd | apply lwf_lrem |]; assumption. Qed.

Lemma lwf_clean k v L : lwf L -> aget k (db L) = Some v -> lwf (mklayer (aset k (IClean v) (ov L)) (db L)).
Proof.
  intros [H1 H2] D. split; cbn [ov db]; [apply nodup_aset; assumption|].
  intros k0 v0. rewrite aget_aset. destruct (N.eqb_spec k0 k) as [->|]; [congruence | apply H2].
Qed.

(* the lookup macro answers the view and changes nothing, or finds v in SQLite and inserts it clean: when
   the overlay has nothing for k, and in the stale case *)
Lemma look_inv k L :
  look k L = (vget k L, L) \/
  exists v, aget k (db L) = Some v /\ look k L = (Some v, mklayer (aset k (IClean v) (ov L)) (db L)) /\
            (stale k L = false -> aget k (ov L) = None).
Proof.
  unfold look, vget, stale.
  destruct (aget k (ov L)) as [[[v|]|v]|]; try (left; reflexivity);
    (destruct (aget k (db L)) as [v|]; [right; exists v; repeat split; congruence | left; reflexivity]).
Qed.

Lemma lwf_look k L : lwf L -> lwf (snd (look k L)).
Proof.
  intros H. destruct (look_inv k L) as [E|[v [D [E _]]]]; rewrite E; [exact H | exact (lwf_clean k v L H D)].
Qed.

Lemma look_sound k L : stale k L = false ->
  fst (look k L) = vget k L /\ forall k', vget k' (snd (look k L)) = vget k' L.
Proof.
  intros Hs. destruct (look_inv k L) as [E|[v [D [E O]]]]; rewrite E; cbn [fst snd]; [auto|].
  specialize (O Hs). unfold vget. cbn [ov db]. rewrite O. split; [congruence|].
  intros k'. rewrite aget_aset. destruct (N.eqb_spec k' k) as [->|]; [rewrite O; congruence | reflexivity].
Qed.

Lemma aget_flush1 d k k1 i :
  aget k (flush1 d (k1, i)) = if k =? k1 then match i with IDirty o => o | IClean _ => aget k d end else aget k d.
Proof.
  unfold flush1. cbn [fst snd]. destruct i as [[v|]|v]; rewrite ?aget_aset, ?aget_adel; destruct (k =? k1); reflexivity.
Qed.

Lemma lflush_db L : lwf L -> forall k, aget k (db (lflush L)) = vget k L.
Proof.
  intros [H1 H2] k. unfold lflush, vget. cbn [db].
  rewrite (fold_over flush1 (fun i x => match i with IDirty o => o | IClean _ => x end) aget_flush1 _ H1).
  destruct (aget k (ov L)) as [[o|v]|] eqn:E; auto.
Qed.
Lemma vget_lflush L : lwf L -> forall k, vget k (lflush L) = vget k L.
Proof. intros H k. rewrite <- (lflush_db L H). unfold vget, lflush. cbn. reflexivity. Qed.
Lemma lwf_lflush L : lwf (lflush L).
Proof. split; cbn; [constructor | discriminate]. Qed.

Definition iwf (I : ilayer) : Prop := NoDup (map fst (iov I)).

Lemma iget_iput k k' l I : iget k (iput k' l I) = if k =? k' then l else iget k I.
Proof. unfold iget, iput. cbn [iov idb]. rewrite aget_aset. destruct (k =? k'); reflexivity. Qed.
Lemma iwf_iput k l I : iwf I -> iwf (iput k l I).
Proof. unfold iwf, iput. cbn [iov]. apply nodup_aset. Qed.

Lemma aget_iflush1 d k k1 l :
  aget k (iflush1 d (k1, l)) = if k =? k1 then match l with [] => None | _ => Some l end else aget k d.
Proof.
  unfold iflush1. cbn [fst snd]. destruct l; rewrite ?aget_aset, ?aget_adel; destruct (k =? k1); reflexivity.
Qed.
Lemma iget_iflush I : iwf I -> forall k, iget k (iflush I) = iget k I.
Proof.
  intros H k. unfold iget, iflush. cbn [iov idb aget].
  rewrite (fold_over iflush1 (fun l _ => match l with [] => None | _ => Some l end) aget_iflush1 _ H).
  destruct (aget k (iov I)) as [[|x r]|]; reflexivity.
Qed.

Definition MirrorMap (E : list ent) (keysof : ent -> list N) (valof : ent -> N) (L : layer) : Prop :=
  forall k v, vget k L = Some v <->
              exists e, In e E /\ elive e = true /\ In k (keysof e) /\ valof e = v.
Definition MirrorIdx (E : list ent) (I : ilayer) : Prop :=
  forall k i, In i (iget k I) <-> exists e, In e E /\ eid e = i /\ In k (ekeys e).
Definition uuidl (e : ent) : list N := [euuid e].

Record Mirror (E : list ent) (s : st) : Prop := mkMirror {
  m_idx : MirrorIdx E (idx s);
  m_n2u : MirrorMap E enames euuid (n2u s);
  m_x2u : MirrorMap E extl euuid (x2u s);
  m_u2s : MirrorMap E uuidl espn (u2s s);
  m_u2r : MirrorMap E uuidl erdn (u2r s) }.

(* what the server guarantees about the stored entries before it calls the backend *)
Definition KeyInj (keysof : ent -> list N) (E : list ent) : Prop :=
  forall e1 e2 k, In e1 E -> In e2 E -> elive e1 = true -> elive e2 = true ->
                  In k (keysof e1) -> In k (keysof e2) -> e1 = e2.
Record Uniq (E : list ent) : Prop := mkUniq {
  u_id : forall e1 e2, In e1 E -> In e2 E -> eid e1 = eid e2 -> e1 = e2;
  u_uuid : KeyInj uuidl E;
  u_name : KeyInj enames E;
  u_ext : KeyInj extl E }.

Definition Changed (E : list ent) (pre post : option ent) (E' : list ent) : Prop :=
  forall e, In e E' <-> (In e E /\ Some e <> pre) \/ Some e = post.

Definition okeys (keysof : ent -> list N) (o : option ent) : list N :=
  match o with Some e => keysof e | None => [] end.
Definition olist (o : option (list N)) : list N := match o with Some l => l | None => [] end.

Lemma changed_add E e : Changed E None (Some e) (E ++ [e]).
Proof.
  intros e0. rewrite in_app_iff. cbn. split.
  - intros [H|[H|[]]]; [left; split; [assumption | discriminate] | right; congruence].
  - intros [[H _]|H]; [left; assumption | right; left; congruence].
Qed.

Lemma changed_replace E1 E2 x y : ~ In x E1 -> ~ In x E2 ->
  Changed (E1 ++ x :: E2) (Some x) (Some y) (E1 ++ y :: E2).
Proof.
  intros H1 H2 e. rewrite !in_app_iff. cbn. split.
  - intros [H|[<-|H]]; [left | right; reflexivity | left]; (split; [tauto | intros [= ->]; contradiction]).
  - intros [[[H|[<-|H]] Hne]|[= <-]]; [tauto | exfalso; apply Hne; reflexivity | tauto | tauto].
Qed.

Lemma mask_some o x : mask o = Some x -> o = Some x /\ elive x = true.
Proof.
  unfold mask. destruct o as [p|]; [|discriminate]. destruct (elive p) eqn:E; [|discriminate].
  intros [= <-]. auto.
Qed.

Lemma mem_okeys_mask keysof o k :
  mem k (okeys keysof (mask o)) = true <-> exists x, o = Some x /\ elive x = true /\ In k (keysof x).
Proof.
  rewrite mem_In. split.
  - destruct (mask o) as [x|] eqn:E; [|contradiction]. apply mask_some in E as [-> El]. exists x. auto.
  - intros [x [-> [El Hk]]]. cbn. rewrite El. exact Hk.
Qed.

Definition upd (keysof : ent -> list N) (valof : ent -> N) (a b : option ent) (old : option N) (k : N) : option N :=
  if mem k (okeys keysof b) then option_map valof b
  else if mem k (okeys keysof a) then None else old.

Lemma upd_split keysof valof a b old k :
  upd keysof valof a b old k = upd keysof valof None b (upd keysof valof a None old k) k.
Proof. reflexivity. Qed.

Lemma map_step E E' pre post keysof valof L L' :
  MirrorMap E keysof valof L ->
  Changed E pre post E' ->
  KeyInj keysof E -> KeyInj keysof E' ->
  (forall x, pre = Some x -> In x E) ->
  (forall k, vget k L' = upd keysof valof (mask pre) (mask post) (vget k L) k) ->
  MirrorMap E' keysof valof L'.
Proof.
  intros HM HC HI HI' Hpre HV k v. rewrite HV. unfold upd.
  destruct (mem k (okeys keysof (mask post))) eqn:Eb.
  - (* a key of post: E' has no other live entry with it *)
    apply mem_okeys_mask in Eb as [y [-> [Ly Ky]]]. cbn [mask]. rewrite Ly. cbn [option_map].
    assert (Hy : In y E') by (apply HC; right; reflexivity). split.
    + intros [= <-]. exists y. auto.
    + intros [e [He [Le [Ke <-]]]]. do 2 f_equal. apply (HI' y e k); auto.
  - assert (Hnew : forall e, Some e = post -> elive e = true -> In k (keysof e) -> False).
    { intros e Hp Le Ke. rewrite (proj2 (mem_okeys_mask keysof post k)) in Eb; [discriminate | exists e; auto]. }
    destruct (mem k (okeys keysof (mask pre))) eqn:Ea.
    + (* a key of pre only: E had no other live entry with it *)
      apply mem_okeys_mask in Ea as [x [-> [Lx Kx]]]. split; [discriminate|].
      intros [e [He [Le [Ke _]]]]. exfalso. apply HC in He as [[He Hne]|Hp]; [|exact (Hnew e Hp Le Ke)].
      apply Hne. f_equal. apply (HI e x k); auto.
    + rewrite (HM k v). split; intros [e [He [Le [Ke Hv]]]].
      * exists e. repeat split; auto. apply HC. left. split; [assumption|]. intros <-.
        rewrite (proj2 (mem_okeys_mask keysof (Some e) k)) in Ea; [discriminate | exists e; auto].
      * apply HC in He as [[He _]|Hp]; [exists e; auto | destruct (Hnew e Hp Le Ke)].
Qed.

Definition e_uuid_of (pre post : option ent) : N :=
  match post, pre with Some y, _ => euuid y | None, Some x => euuid x | None, None => 0 end.
Definition e_id_of (pre post : option ent) : N :=
  match post, pre with Some y, _ => eid y | None, Some x => eid x | None, None => 0 end.
Definition uuid_same_of (pre post : option ent) : bool :=
  match pre, post with Some x, Some y => euuid x =? euuid y | _, _ => true end.

(* the name tables after entry_index: one or two [names_write] blocks *)
Definition names_after (pre post : option ent) (s : st) : option st :=
  if uuid_same_of pre post then Some (names_write (e_uuid_of pre post) (mask pre) (mask post) s)
  else match mask pre with
       | Some x => Some (names_write (e_uuid_of pre post) None (mask post)
                                     (names_write (euuid x) (Some x) None s))
       | None => None
       end.

Lemma entry_index_inv pre post s s' :
  entry_index pre post s = Some s' ->
  exists s2, names_after pre post s = Some s2 /\
    s' = mkst (ents s) (fold_left (key_apply (e_id_of pre post)) (keys_diff pre post) (idx s))
              (n2u s2) (x2u s2) (u2s s2) (u2r s2).
Proof.
  unfold entry_index, names_after, uuid_same_of, e_uuid_of, e_id_of.
  destruct pre as [x|], post as [y|]; try discriminate;
    [destruct (euuid x =? euuid y); [|destruct (mask (Some x)); [|discriminate]] | | ];
    intros [= <-]; eexists; split; reflexivity.
Qed.

(* a [names_write u a b] block acts on table T as [upd a b] *)
Definition Writes (keysof : ent -> list N) (valof : ent -> N) (T : st -> layer) : Prop :=
  forall u a b s,
    (forall y, b = Some y -> euuid y = u) ->
    (forall x, a = Some x -> euuid x = u /\ forall k, In k (keysof x) -> vget k (T s) = Some (valof x)) ->
    forall k, vget k (T (names_write u a b s)) = upd keysof valof a b (vget k (T s)) k.

(* name2uuid and externalid2uuid are written in difference form: the keys only a has go, the keys
   only b has are set to u, the keys both have are left alone (they hold u already) *)
Lemma diff_writes keysof (T : st -> layer) :
  (forall u a b s k,
     vget k (T (names_write u a b s)) =
     if mem k (ldiff (okeys keysof a) (okeys keysof b)) then None
     else if mem k (ldiff (okeys keysof b) (okeys keysof a)) then Some u else vget k (T s)) ->
  Writes keysof euuid T.
Proof.
  intros HD u a b s Hb Ha k. rewrite HD, !mem_ldiff. unfold upd.
  destruct b as [y|]; cbn [okeys option_map].
  - rewrite <- (Hb y eq_refl).
    destruct (mem k (keysof y)) eqn:Ey, (mem k (okeys keysof a)) eqn:Ex; try reflexivity.
    destruct a as [x|]; [|discriminate]. destruct (Ha x eq_refl) as [Eu Own].
    cbn. rewrite (Own k), Eu, (Hb y eq_refl); [reflexivity | apply mem_In, Ex].
  - cbn. rewrite andb_true_r. destruct (mem k (okeys keysof a)); reflexivity.
Qed.

Lemma n2u_writes : Writes enames euuid n2u.
Proof.
  apply diff_writes. intros u a b s k. unfold names_write. cbn [n2u].
  destruct a as [x|], b as [y|]; cbn [n2u_diff fst snd okeys]; rewrite ?ldiff_nil.
  - rewrite (vget_fold_dirty None), (vget_fold_dirty (Some u)). reflexivity.
  - rewrite (vget_fold_dirty None). reflexivity.
  - rewrite (vget_fold_dirty (Some u)). reflexivity.
  - reflexivity.
Qed.

Lemma x2u_writes : Writes extl euuid x2u.
Proof.
  apply diff_writes. intros u a b s k. unfold names_write. cbn [x2u]. rewrite !mem_ldiff.
  destruct a as [x|], b as [y|]; cbn [x2u_diff fst snd okeys]; unfold extl.
  - destruct (eext x) as [p|], (eext y) as [q|]; cbn [oeqb].
    + destruct (N.eqb_spec p q) as [->|Hn]; cbn [fst snd].
      * cbn. destruct (k =? q); reflexivity.
      * rewrite vget_lrem, vget_ladd. cbn.
        destruct (N.eqb_spec k p), (N.eqb_spec k q); cbn; congruence.
    + cbn [fst snd]. rewrite vget_lrem. cbn. destruct (k =? p); reflexivity.
    + cbn [fst snd]. rewrite vget_ladd. cbn. destruct (k =? q); reflexivity.
    + reflexivity.
  - cbn. destruct (eext x) as [p|]; [rewrite vget_lrem; cbn; destruct (k =? p); reflexivity | reflexivity].
  - cbn. destruct (eext y) as [q|]; [rewrite vget_ladd; cbn; destruct (k =? q); reflexivity | reflexivity].
  - reflexivity.
Qed.

(* uuid2spn and uuid2rdn have the one key u, rewritten when the value changes *)
Lemma val_writes (f : ent -> N) (T : st -> layer) :
  (forall u a b s, T (names_write u a b s) = val_write u (val_diff f a b) (T s)) -> Writes uuidl f T.
Proof.
  intros HT u a b s Hb Ha k. rewrite HT. unfold upd, uuidl.
  destruct a as [x|], b as [y|]; cbn [val_diff val_write okeys option_map mem existsb]; rewrite ?orb_false_r.
  - destruct (Ha x eq_refl) as [Ex Own]. rewrite (Hb y eq_refl), Ex.
    assert (Hu : vget u (T s) = Some (f x)) by (apply Own; left; exact Ex).
    destruct (N.eqb_spec (f x) (f y)) as [Ef|_]; cbn [val_write]; [|rewrite vget_ladd];
      destruct (N.eqb_spec k u) as [->|]; congruence.
  - destruct (Ha x eq_refl) as [-> _]. apply vget_lrem.
  - rewrite (Hb y eq_refl). apply vget_ladd.
  - reflexivity.
Qed.

Lemma table_step keysof valof T E E' pre post s s2 :
  Writes keysof valof T -> names_after pre post s = Some s2 ->
  MirrorMap E keysof valof (T s) -> Changed E pre post E' ->
  KeyInj keysof E -> KeyInj keysof E' -> (forall x, pre = Some x -> In x E) ->
  MirrorMap E' keysof valof (T s2).
Proof.
  intros HW HN HM HC HI HI' Hpre. apply (map_step E E' pre post keysof valof (T s)); auto.
  assert (Hb : forall y, mask post = Some y -> euuid y = e_uuid_of pre post).
  { intros y Hy. apply mask_some in Hy as [-> _]. reflexivity. }
  assert (Own : forall x, mask pre = Some x -> forall k, In k (keysof x) -> vget k (T s) = Some (valof x)).
  { intros x Hx k Hk. apply mask_some in Hx as [-> Lx]. apply HM. exists x. auto. }
  intros k. unfold names_after in HN. destruct (uuid_same_of pre post) eqn:Es.
  - injection HN as <-. apply HW; [exact Hb|]. intros x Hx. split; [|exact (Own x Hx)].
    apply mask_some in Hx as [-> _]. destruct post as [y|]; [apply N.eqb_eq, Es | reflexivity].
  - (* the uuid changes: pre's rows are dropped under its own uuid, then post's are written *)
    destruct (mask pre) as [x|] eqn:Ex; [|discriminate]. injection HN as <-.
    rewrite upd_split, (HW _ None); [|exact Hb|discriminate]. f_equal. apply HW; [discriminate|].
    intros ? [= <-]. split; [reflexivity | exact (Own x eq_refl)].
Qed.

Lemma keys_diff_form pre post :
  keys_diff pre post =
  map (pair false) (ldiff (okeys ekeys pre) (okeys ekeys post)) ++
  map (pair true) (ldiff (okeys ekeys post) (okeys ekeys pre)).
Proof.
  destruct pre as [x|], post as [y|]; cbn [keys_diff okeys]; rewrite ?ldiff_nil; cbn;
    rewrite ?app_nil_r; reflexivity.
Qed.

(* the keys in l need not be distinct *)
Lemma In_fold_rem id l : forall I k i,
  In i (iget k (fold_left (key_apply id) (map (pair false) l) I)) <-> In i (iget k I) /\ ~ (i = id /\ In k l).
Proof.
  induction l as [|x r IH]; intros I k i; cbn [map fold_left]; [cbn; tauto|].
  rewrite IH. unfold key_apply. cbn [fst snd In]. rewrite iget_iput.
  destruct (N.eqb_spec k x) as [->|]; [rewrite In_rem|]; intuition congruence.
Qed.
Lemma In_fold_ins id l : forall I k i,
  In i (iget k (fold_left (key_apply id) (map (pair true) l) I)) <-> In i (iget k I) \/ i = id /\ In k l.
Proof.
  induction l as [|x r IH]; intros I k i; cbn [map fold_left]; [cbn; tauto|].
  rewrite IH. unfold key_apply. cbn [fst snd In]. rewrite iget_iput.
  destruct (N.eqb_spec k x) as [->|]; [rewrite In_ins|]; intuition congruence.
Qed.

Lemma In_fold_keys_diff id pre post I k i :
  In i (iget k (fold_left (key_apply id) (keys_diff pre post) I)) <->
  In i (iget k I) /\ ~ (i = id /\ In k (ldiff (okeys ekeys pre) (okeys ekeys post))) \/
  i = id /\ In k (ldiff (okeys ekeys post) (okeys ekeys pre)).
Proof. rewrite keys_diff_form, fold_left_app, In_fold_ins, In_fold_rem. reflexivity. Qed.

Lemma idx_step E E' pre post I :
  MirrorIdx E I -> Changed E pre post E' ->
  (forall e1 e2, In e1 E -> In e2 E -> eid e1 = eid e2 -> e1 = e2) ->
  (forall x, pre = Some x -> In x E) ->
  (forall x y, pre = Some x -> post = Some y -> eid x = eid y) ->
  MirrorIdx E' (fold_left (key_apply (e_id_of pre post)) (keys_diff pre post) I).
Proof.
  intros HM HC Hid Hpre Hsame k i. rewrite In_fold_keys_diff, !In_ldiff, (HM k i).
  assert (Ha : forall x, pre = Some x -> eid x = e_id_of pre post).
  { intros x ->. destruct post as [y|]; [apply (Hsame x y) |]; reflexivity. }
  assert (Hb : forall y, post = Some y -> eid y = e_id_of pre post) by (intros y ->; reflexivity).
  assert (Hy : i = e_id_of pre post -> In k (okeys ekeys post) -> exists e, In e E' /\ eid e = i /\ In k (ekeys e)).
  { intros -> Kb. destruct post as [y|]; [|contradiction]. exists y. split; [apply HC; right; reflexivity | auto]. }
  split.
  - intros [[[e [He [Hi Hk]]] Hkeep] | [Ei [Kb _]]]; [|exact (Hy Ei Kb)].
    (* the row held i for e: e stays unless it is pre, and then post produces the key too *)
    destruct (in_dec N.eq_dec k (okeys ekeys post)) as [Kb|Kb].
    + destruct (N.eq_dec i (e_id_of pre post)) as [Ei|Ni]; [exact (Hy Ei Kb)|].
      exists e. split; [|auto]. apply HC. left. split; [assumption|]. intros <-.
      apply Ni. rewrite <- Hi. apply Ha. reflexivity.
    + exists e. split; [|auto]. apply HC. left. split; [assumption|]. intros <-.
      apply Hkeep. rewrite <- Hi. auto.
  - intros [e [He [Hi Hk]]]. apply HC in He as [[He Hne]|<-].
    + left. split; [exists e; auto|]. intros [Ei [Ka _]]. destruct pre as [x|]; [|contradiction].
      apply Hne. f_equal. apply Hid; auto. rewrite Hi, Ei. symmetry. apply Ha. reflexivity.
    + rewrite <- Hi, (Hb e eq_refl). destruct (in_dec N.eq_dec k (okeys ekeys pre)) as [Ka|Ka]; [left | right; auto].
      destruct pre as [x|]; [|contradiction]. split; [|intros [_ [_ Kb]]; exact (Kb Hk)].
      exists x. split; [apply Hpre; reflexivity | split; [apply Ha; reflexivity | exact Ka]].
Qed.

Definition Wf (E : list ent) : Prop := forall e, In e E -> NoDup (ekeys e).

Theorem entry_index_mirror E E' pre post s s' :
  Mirror E s -> entry_index pre post s = Some s' -> Changed E pre post E' ->
  Uniq E -> Uniq E' ->
  (forall x, pre = Some x -> In x E) ->
  (forall x y, pre = Some x -> post = Some y -> eid x = eid y) ->
  Mirror E' s'.
Proof.
  intros [Mi Mn Mx Ms Mr] HE HC [Ui Uu Un Ux] [_ Uu' Un' Ux'] Hpre Hsame.
  apply entry_index_inv in HE as [s2 [HN ->]]. constructor; cbn [idx n2u x2u u2s u2r].
  - apply (idx_step E); assumption.
  - apply (table_step enames euuid n2u E E' pre post s s2 n2u_writes); assumption.
  - apply (table_step extl euuid x2u E E' pre post s s2 x2u_writes); assumption.
  - apply (table_step uuidl espn u2s E E' pre post s s2 (val_writes espn u2s (fun _ _ _ _ => eq_refl))); assumption.
  - apply (table_step uuidl erdn u2r E E' pre post s s2 (val_writes erdn u2r (fun _ _ _ _ => eq_refl))); assumption.
Qed.

Fixpoint run_idx (s : st) (l : list (option ent * option ent)) : option st :=
  match l with
  | [] => Some s
  | (a, b) :: r => match entry_index a b s with Some s1 => run_idx s1 r | None => None end
  end.

Inductive Chain : list ent -> list (option ent * option ent) -> list ent -> Prop :=
| ChNil E : Chain E [] E
| ChCons E E1 E2 a b r :
    Changed E a b E1 -> Uniq E1 ->
    (forall x, a = Some x -> In x E) ->
    (forall x y, a = Some x -> b = Some y -> eid x = eid y) ->
    NoDup (okeys ekeys a) -> NoDup (okeys ekeys b) ->
    Chain E1 r E2 -> Chain E ((a, b) :: r) E2.

Theorem mirror_reachable l : forall E E' s s',
  Mirror E s -> Uniq E -> Chain E l E' -> run_idx s l = Some s' -> Mirror E' s'.
Proof.
  induction l as [|[a b] r IH]; intros E E' s s' HM HU HC HR.
  - inversion HC; subst. cbn in HR. injection HR as <-. assumption.
  - inversion HC as [|? E1 ? ? ? ? Hch Hu1 Hpre Hsame _ _ Hrest]; subst.
    cbn in HR. destruct (entry_index a b s) as [s1|] eqn:He; [|discriminate].
    apply (IH E1 E' s1 s'); auto.
    eapply entry_index_mirror; eauto.
Qed.

Lemma KeyInj_incl keysof E1 E2 : incl E1 E2 -> KeyInj keysof E2 -> KeyInj keysof E1.
Proof. intros Hi H e1 e2 k H1 H2. apply H; apply Hi; assumption. Qed.
Lemma Uniq_incl E1 E2 : incl E1 E2 -> Uniq E2 -> Uniq E1.
Proof.
  intros Hi [Ui Uu Un Ux]. constructor; try (eapply KeyInj_incl; eassumption).
  intros e1 e2 H1 H2. apply Ui; apply Hi; assumption.
Qed.

Lemma mirror_empty es : Mirror [] (mkst es ilayer0 layer0 layer0 layer0 layer0).
Proof. constructor; intros k v; cbn; (split; [easy | intros [e [[] _]]]). Qed.

Lemma index_all_mirror es : forall Ep s,
  Mirror Ep s -> Uniq (Ep ++ es) ->
  exists s', index_all es (Some s) = Some s' /\ Mirror (Ep ++ es) s' /\ ents s' = ents s.
Proof.
  induction es as [|e r IH]; intros Ep s HM HU.
  - exists s. rewrite app_nil_r. cbn. auto.
  - cbn [index_all]. change (e :: r) with ([e] ++ r) in *. rewrite app_assoc in *.
    destruct (entry_index None (Some e) s) as [s1|] eqn:He; [|discriminate].
    assert (HU1 : Uniq (Ep ++ [e])) by (apply (Uniq_incl _ _ (incl_appl r (incl_refl _)) HU)).
    assert (HM1 : Mirror (Ep ++ [e]) s1).
    { apply (entry_index_mirror Ep _ None (Some e) s s1 HM He (changed_add Ep e)); try discriminate; [|exact HU1].
      apply (Uniq_incl _ _ (incl_appl [e] (incl_refl _)) HU1). }
    destruct (IH (Ep ++ [e]) s1 HM1 HU) as [s' [H1 [H2 H3]]].
    exists s'. split; [assumption|]. split; [assumption|].
    apply entry_index_inv in He as [s2 [_ ->]]. exact H3.
Qed.

Theorem reindex_mirror s :
  Uniq (map snd (ents s)) -> Wf (map snd (ents s)) ->
  exists s', reindex s = Some s' /\ Mirror (map snd (ents s)) s' /\ ents s' = ents s.
Proof.
  intros HU _. exact (index_all_mirror (map snd (ents s)) [] _ (mirror_empty (ents s)) HU).
Qed.

Lemma oeqb_extl e k : oeqb (eext e) (Some k) = true <-> In k (extl e).
Proof. unfold extl. destruct (eext e) as [q|]; cbn; [rewrite N.eqb_eq|]; intuition congruence. Qed.

Lemma scan_n2u_iff E k v :
  In v (scan_n2u E k) <-> exists e, In e E /\ elive e = true /\ In k (enames e) /\ euuid e = v.
Proof.
  unfold scan_n2u. rewrite in_map_iff.
  split; intros [e H]; exists e; rewrite filter_In, andb_true_iff, mem_In in *; tauto.
Qed.
Lemma scan_x2u_iff E k v :
  In v (scan_x2u E k) <-> exists e, In e E /\ elive e = true /\ In k (extl e) /\ euuid e = v.
Proof.
  unfold scan_x2u. rewrite in_map_iff.
  split; intros [e H]; exists e; rewrite filter_In, andb_true_iff, oeqb_extl in *; tauto.
Qed.
Lemma scan_val_iff f E k v :
  In v (scan_val f E k) <-> exists e, In e E /\ elive e = true /\ In k (uuidl e) /\ f e = v.
Proof.
  unfold scan_val, uuidl. rewrite in_map_iff.
  split; intros [e H]; exists e; rewrite filter_In, andb_true_iff, N.eqb_eq in *; cbn [In] in *; tauto.
Qed.
Lemma scan_key_iff E k i :
  In i (scan_key E k) <-> exists e, In e E /\ eid e = i /\ In k (ekeys e).
Proof.
  unfold scan_key. rewrite in_map_iff.
  split; intros [e H]; exists e; rewrite filter_In, mem_In in *; tauto.
Qed.

Lemma mirror_scan E keysof valof (sc : N -> list N) L :
  (forall k v, In v (sc k) <-> exists e, In e E /\ elive e = true /\ In k (keysof e) /\ valof e = v) ->
  MirrorMap E keysof valof L -> forall k v, vget k L = Some v <-> In v (sc k).
Proof. intros Hsc HM k v. rewrite Hsc. apply HM. Qed.

Record WF (s : st) : Prop := mkWF {
  w_idx : iwf (idx s);
  w_n2u : lwf (n2u s); w_x2u : lwf (x2u s); w_u2s : lwf (u2s s); w_u2r : lwf (u2r s) }.

Lemma WF0 es : WF (mkst es ilayer0 layer0 layer0 layer0 layer0).
Proof. constructor; cbn; try apply lwf0; try constructor. Qed.

Lemma WF_names_write u a b s : WF s -> WF (names_write u a b s).
Proof.
  intros [Wi Wn Wx Ws Wr]. unfold names_write. constructor; cbn [idx n2u x2u u2s u2r].
  - assumption.
  - destruct (snd (n2u_diff a b)); destruct (fst (n2u_diff a b));
      repeat apply lwf_fold_dirty; assumption.
  - destruct (snd (x2u_diff a b)); destruct (fst (x2u_diff a b));
      repeat (try apply lwf_lrem; try apply lwf_ladd); assumption.
  - apply lwf_val_write. assumption.
  - apply lwf_val_write. assumption.
Qed.

Lemma iwf_fold id ps : forall I, iwf I -> iwf (fold_left (key_apply id) ps I).
Proof.
  induction ps as [|p r IH]; intros I H; cbn; [assumption|]. apply IH. unfold key_apply. apply iwf_iput, H.
Qed.

Lemma WF_entry_index pre post s s' : WF s -> entry_index pre post s = Some s' -> WF s'.
Proof.
  intros HW HE. apply entry_index_inv in HE as [s2 [HN ->]].
  assert (W2 : WF s2).
  { unfold names_after in HN. destruct (uuid_same_of pre post).
    - injection HN as <-. apply WF_names_write, HW.
    - destruct (mask pre); [|discriminate]. injection HN as <-. apply WF_names_write, WF_names_write, HW. }
  destruct W2 as [_ Wn Wx Ws Wr]. constructor; cbn [idx n2u x2u u2s u2r]; try assumption.
  apply iwf_fold, HW.
Qed.

(* the mirror speaks of the tables through their views only *)
Lemma Mirror_ext E s s' :
  (forall k, iget k (idx s') = iget k (idx s)) ->
  (forall t k, vget k (tget t s') = vget k (tget t s)) ->
  Mirror E s -> Mirror E s'.
Proof.
  intros Hi Hv [Mi Mn Mx Ms Mr]. constructor.
  - intros k i. rewrite Hi. apply Mi.
  - intros k v. rewrite (Hv TN2U). apply Mn.
  - intros k v. rewrite (Hv TX2U). apply Mx.
  - intros k v. rewrite (Hv TU2S). apply Ms.
  - intros k v. rewrite (Hv TU2R). apply Mr.
Qed.

Theorem commit_mirror E s : WF s -> Mirror E s -> Mirror E (commit s).
Proof.
  intros [Wi Wn Wx Ws Wr]. apply Mirror_ext.
  - apply (iget_iflush _ Wi).
  - intros [] k; apply vget_lflush; assumption.
Qed.

Lemma tget_tset t L s : tget t (tset t L s) = L.
Proof. destruct t; reflexivity. Qed.

Theorem lookup_mirror E s t k : Mirror E s -> stale k (tget t s) = false ->
  fst (look k (tget t s)) = vget k (tget t s) /\ Mirror E (tset t (snd (look k (tget t s))) s).
Proof.
  intros HM Hs. destruct (look_sound k (tget t s) Hs) as [H1 H2]. split; [assumption|].
  revert HM. apply Mirror_ext.
  - destruct t; reflexivity.
  - intros t' k'. destruct t, t'; try reflexivity; apply H2.
Qed.

Definition st_of_dump (d : dump) : st :=
  mkst (map (fun e => (eid e, e)) (d_ents d)) (mkil [] (d_idx d))
       (mklayer [] (d_n2u d)) (mklayer [] (d_x2u d)) (mklayer [] (d_u2s d)) (mklayer [] (d_u2r d)).

Lemma tbl_mirror_sound E keysof valof (sc : N -> list N) keys d :
  (forall k v, In v (sc k) <-> exists e, In e E /\ elive e = true /\ In k (keysof e) /\ valof e = v) ->
  (forall e k, In e E -> elive e = true -> In k (keysof e) -> In k keys) ->
  tbl_mirror sc keys d = true ->
  MirrorMap E keysof valof (mklayer [] d).
Proof.
  intros Hsc Hkeys H. unfold tbl_mirror in H. rewrite !andb_true_iff, !forallb_forall in H. destruct H as [[_ H2] H3].
  assert (Hrow : forall k v, aget k d = Some v -> sc k = [v]).
  { intros k v Hg. apply aget_In in Hg. apply (list_eqb_eq _ _ (H2 _ Hg)). }
  intros k v. unfold vget. cbn [ov db aget]. rewrite <- Hsc. split.
  - intros Hg. rewrite (Hrow k v Hg). left. reflexivity.
  - intros Hin. assert (Hk : In k keys).
    { apply Hsc in Hin as [e [He [El [Hk _]]]]. exact (Hkeys e k He El Hk). }
    specialize (H3 k Hk). destruct (aget k d) as [v'|] eqn:Eg.
    + rewrite (Hrow k v' Eg) in Hin. destruct Hin as [->|[]]. reflexivity.
    + destruct (sc k); [contradiction | discriminate].
Qed.

Lemma idx_mirror_sound E d : idx_mirror E d = true -> MirrorIdx E (mkil [] d).
Proof.
  intros H. unfold idx_mirror in H. rewrite !andb_true_iff, !forallb_forall in H. destruct H as [[_ H2] H3].
  intros k i. unfold iget. cbn [iov idb aget]. rewrite <- scan_key_iff.
  destruct (aget k d) as [l|] eqn:Eg.
  - apply aget_In in Eg. specialize (H2 _ Eg). cbn in H2. destruct l as [|x r]; [discriminate|].
    apply list_eqb_eq in H2. rewrite H2. reflexivity.
  - split; [contradiction|]. intros Hin. apply scan_key_iff in Hin as [e [He [Hi Hk]]].
    assert (Hf : In k (flat_map ekeys E)) by (apply in_flat_map; exists e; auto).
    specialize (H3 _ Hf). rewrite Eg in H3. discriminate.
Qed.

Theorem dump_mirror_sound d : dump_mirror d = true -> Mirror (d_ents d) (st_of_dump d) /\ d_coh d = true.
Proof.
  unfold dump_mirror. rewrite !andb_true_iff. intros [[[[[Hc Hi] Hn] Hx] Hs] Hr]. split; [|exact Hc].
  assert (Hlive : forall e k, In e (d_ents d) -> elive e = true -> In k (uuidl e) -> In k (map euuid (filter elive (d_ents d)))).
  { intros e k He El [<-|[]]. apply in_map. apply filter_In. auto. }
  constructor; cbn [st_of_dump idx n2u x2u u2s u2r].
  - apply idx_mirror_sound. assumption.
  - refine (tbl_mirror_sound _ _ _ _ _ _ (scan_n2u_iff _) _ Hn).
    intros e k He El Hk. unfold all_names. apply in_flat_map. exists e. rewrite El. auto.
  - refine (tbl_mirror_sound _ _ _ _ _ _ (scan_x2u_iff _) _ Hx).
    intros e k He El Hk. unfold all_exts. apply in_flat_map. exists e. rewrite El. auto.
  - exact (tbl_mirror_sound _ _ _ _ _ _ (scan_val_iff _ _) Hlive Hs).
  - exact (tbl_mirror_sound _ _ _ _ _ _ (scan_val_iff _ _) Hlive Hr).
Qed.

Lemma nodup_sound l : nodup l = true -> NoDup l.
Proof.
  induction l as [|x r IH]; cbn; [constructor|]. intros H. apply andb_true_iff in H as [H1 H2].
  apply negb_true_iff, mem_false in H1. constructor; auto.
Qed.

Theorem hist_ok_sound l : forall prev, hist_ok prev l = true ->
  Forall (fun t => match t with Txn _ _ _ d =>
            uniq (d_ents d) = true -> Mirror (d_ents d) (st_of_dump d) /\ d_coh d = true end) l.
Proof.
  induction l as [|[ops ok cm d] r IH]; intros prev H; [constructor|].
  cbn [hist_ok] in H. rewrite !andb_true_iff in H. destruct H as [[_ H2] H3].
  constructor; [|exact (IH _ H3)].
  intros Hu. rewrite Hu in H2. apply dump_mirror_sound, H2.
Qed.

Lemma nodup_app_inv {A} (l1 l2 : list A) :
  NoDup (l1 ++ l2) -> NoDup l1 /\ NoDup l2 /\ forall x, In x l1 -> ~ In x l2.
Proof.
  induction l1 as [|x r IH]; cbn; intros H.
  - split; [constructor|]. split; [assumption|]. intros x [].
  - inversion H as [|? ? Hn Hr]; subst. destruct (IH Hr) as [H1 [H2 H3]].
    rewrite in_app_iff in Hn. split; [constructor; tauto|]. split; [assumption|].
    intros y [->|Hy]; [tauto | apply H3, Hy].
Qed.

Lemma flat_map_single {A B} (f : A -> B) l : flat_map (fun x => [f x]) l = map f l.
Proof. induction l as [|a r IH]; cbn; congruence. Qed.

Lemma nodup_flat_inj (g : ent -> list N) l : NoDup (flat_map g l) ->
  forall e1 e2 k, In e1 l -> In e2 l -> In k (g e1) -> In k (g e2) -> e1 = e2.
Proof.
  induction l as [|a r IH]; cbn; intros H e1 e2 k H1 H2 K1 K2; [contradiction|].
  apply nodup_app_inv in H. destruct H as [Ha [Hr Hd]].
  destruct H1 as [->|H1], H2 as [->|H2]; auto.
  - exfalso. apply (Hd k K1). apply in_flat_map. exists e2. auto.
  - exfalso. apply (Hd k K2). apply in_flat_map. exists e1. auto.
  - apply (IH Hr e1 e2 k); auto.
Qed.

Theorem uniq_sound E : uniq E = true -> Uniq E /\ Wf E.
Proof.
  unfold uniq. rewrite !andb_true_iff, forallb_forall. intros [[[[Hw Hi] Hu] Hn] Hx].
  apply nodup_sound in Hi, Hu, Hn, Hx. rewrite <- flat_map_single in Hi, Hu.
  split; [constructor|].
  - intros e1 e2 A B Eq. apply (nodup_flat_inj _ E Hi e1 e2 (eid e1) A B); [left; reflexivity | left; symmetry; exact Eq].
  - intros e1 e2 k A B _ _. exact (nodup_flat_inj _ E Hu e1 e2 k A B).
  - intros e1 e2 k A B L1 L2 K1 K2. apply (nodup_flat_inj _ E Hn e1 e2 k A B); [rewrite L1 | rewrite L2]; assumption.
  - intros e1 e2 k A B L1 L2 K1 K2. apply (nodup_flat_inj _ E Hx e1 e2 k A B); [rewrite L1 | rewrite L2]; assumption.
  - intros e He. apply nodup_sound. specialize (Hw e He). unfold wf_ent in Hw. apply andb_true_iff in Hw. tauto.
Qed.

Definition has_key (E : list ent) (k i : N) : bool :=
  existsb (fun e => (eid e =? i) && mem k (ekeys e)) E.

Lemma has_key_iff E k i : has_key E k i = true <-> exists e, In e E /\ eid e = i /\ In k (ekeys e).
Proof.
  unfold has_key. rewrite existsb_exists.
  split; intros [e H]; exists e; rewrite andb_true_iff, N.eqb_eq, mem_In in *; exact H.
Qed.

Theorem index_rows_exact E s : Mirror E s ->
  forall k, KV.C01.Proofs.sound (map eid E) (has_key E k) (KV.C01.Model.Indexed (iget k (idx s))).
Proof. intros [Mi _ _ _ _] k x _. rewrite has_key_iff. apply Mi. Qed.

Lemma foreign_rem_false E keysof (L : layer) x ks :
  MirrorMap E keysof euuid L -> In x E -> elive x = true ->
  (forall k, In k ks -> In k (keysof x)) ->
  foreign_rem (euuid x) ks L = false.
Proof.
  intros HM Hx El Hks. unfold foreign_rem. apply not_true_is_false. intros H.
  apply existsb_exists in H. destruct H as [k [Hk Hc]].
  assert (G : vget k L = Some (euuid x)) by (apply HM; exists x; auto).
  rewrite G, N.eqb_refl in Hc. discriminate.
Qed.

Definition lookup_full_statement : Prop :=
  forall L k, lwf L -> fst (look k L) = vget k L.

Lemma lookup_refuted : ~ lookup_full_statement.
Proof.
  intros H. specialize (H (mklayer [(5, IDirty None)] [(5, 7)]) 5).
  assert (W : lwf (mklayer [(5, IDirty None)] [(5, 7)])).
  { split; cbn.
    - constructor; [intros [] | constructor].
    - intros k v. destruct (k =? 5); discriminate. }
  specialize (H W). vm_compute in H. discriminate.
Qed.

(* Chain without Uniq of the lists in between: attrunique establishes it only before and after a batch *)
Inductive Chain0 : list ent -> list (option ent * option ent) -> list ent -> Prop :=
| Ch0Nil E : Chain0 E [] E
| Ch0Cons E E1 E2 a b r :
    Changed E a b E1 ->
    (forall x, a = Some x -> In x E) ->
    (forall x y, a = Some x -> b = Some y -> eid x = eid y) ->
    NoDup (okeys ekeys a) -> NoDup (okeys ekeys b) ->
    Chain0 E1 r E2 -> Chain0 E ((a, b) :: r) E2.

Definition batch_full_statement : Prop :=
  forall l E E' s s',
    Mirror E s -> Uniq E -> Chain0 E l E' -> Uniq E' -> run_idx s l = Some s' -> Mirror E' s'.

Definition wA := mkent 1 1 true [10] None 100 200 [].
Definition wB := mkent 2 2 true [11] None 101 201 [].
Definition wA' := mkent 1 1 true [11] None 100 200 [].
Definition wB' := mkent 2 2 true [10] None 101 201 [].
Definition w_s : st :=
  match run_idx st0 [(None, Some wA); (None, Some wB)] with Some s => s | None => st0 end.
Definition w_swap := [(Some wA, Some wA'); (Some wB, Some wB')].

Lemma w_mirror : Mirror [wA; wB] w_s.
Proof.
  destruct (index_all_mirror [wA; wB] [] st0 (mirror_empty [])) as [s [Hs [HM _]]]; [apply uniq_sound; reflexivity|].
  vm_compute in Hs. injection Hs as <-. exact HM.
Qed.

(* the name swap wA <-> wB, applied wA first: wA' takes name 11, then wB' gives 11 up *)
Lemma batch_refuted : ~ batch_full_statement.
Proof.
  intros H.
  assert (M : Mirror [wA'; wB'] (match run_idx w_s w_swap with Some s => s | None => st0 end)).
  { apply (H w_swap [wA; wB] [wA'; wB'] w_s _ w_mirror); try (apply uniq_sound; reflexivity); [|reflexivity].
    apply (Ch0Cons _ [wA'; wB]); [ | | | constructor | constructor | ].
    - apply (changed_replace [] [wB]); [intros [] | intros [[=]|[]]].
    - intros x [= <-]. left. reflexivity.
    - intros x y [= <-] [= <-]. reflexivity.
    - apply (Ch0Cons _ [wA'; wB']); [ | | | constructor | constructor | constructor].
      + apply (changed_replace [wA'] []); [intros [[=]|[]] | intros []].
      + intros x [= <-]. right. left. reflexivity.
      + intros x y [= <-] [= <-]. reflexivity. }
  destruct M as [_ Mn _ _ _].
  assert (G : vget 11 (n2u (match run_idx w_s w_swap with Some s => s | None => st0 end)) = Some 1).
  { apply Mn. exists wA'. cbn. auto. }
  vm_compute in G. discriminate.
Qed.
