From Coq Require Import List NArith Bool.
Import ListNotations.
Require Import KV.C03.Model KV.C03.Proofs.
Open Scope N_scope.

Definition a1 := mkent 1 1 true [10; 20] (Some 7) 100 200 [1; 2; 3].
Definition b1 := mkent 2 2 true [11] None 101 201 [1; 4].
Definition a2 := mkent 1 1 true [12; 20] (Some 8) 102 202 [1; 3; 5].     (* renamed, new ext id *)
Definition a3 := mkent 1 1 false [12; 20] (Some 8) 102 202 [1; 3; 5; 6]. (* recycled *)
Definition a4 := mkent 1 9 true [12; 20] (Some 8) 102 202 [1; 3; 5].     (* revived with a new uuid *)

(* a history create a, create b, rename a, recycle a: the uniqueness hypotheses of
   C03_mirror_reachable_partial hold at every stage and the run succeeds *)
Example C03_witness_chain :
  uniq [a1] = true /\ uniq [a1; b1] = true /\ uniq [a2; b1] = true /\ uniq [a3; b1] = true /\
  exists s, run_idx st0 [(None, Some a1); (None, Some b1); (Some a1, Some a2); (Some a2, Some a3)] = Some s
            /\ vget 12 (n2u s) = None /\ vget 11 (n2u s) = Some 2 /\ iget 6 (idx s) = [1] /\ iget 1 (idx s) = [1; 2].
Proof. vm_compute. repeat split. eexists. repeat split. Qed.

(* uuid change of a live entry (replication conflict) and of a recycled one (error branch) *)
Example C03_witness_uuid_change :
  (exists s s1, run_idx st0 [(None, Some a2)] = Some s /\ entry_index (Some a2) (Some a4) s = Some s1 /\
                vget 12 (n2u s1) = Some 9 /\ vget 1 (u2s s1) = None /\ vget 9 (u2s s1) = Some 102) /\
  (exists s, run_idx st0 [(None, Some a3)] = Some s /\ entry_index (Some a3) (Some a4) s = None).
Proof. vm_compute. split; repeat eexists. Qed.

(* reindex from a deliberately wrong state (no index rows, one bogus name row, entries stored) *)
Example C03_witness_reindex :
  let s := mkst [(1, a1); (2, b1)] ilayer0 (mklayer [] [(99, 5)]) layer0 layer0 layer0 in
  uniq (map snd (ents s)) = true /\
  exists s', reindex s = Some s' /\ vget 99 (n2u s') = None /\ vget 10 (n2u s') = Some 1.
Proof. vm_compute. split; [reflexivity | eexists; repeat split]. Qed.

(* K1 is reachable: delete a committed entry, then look its name up in the same transaction *)
Example C03_witness_stale_reachable :
  exists s1 s2, run_idx st0 [(None, Some b1)] = Some s1 /\
    entry_index (Some b1) None (commit s1) = Some s2 /\
    stale 11 (n2u s2) = true /\ vget 11 (n2u s2) = None /\ fst (look 11 (n2u s2)) = Some 2 /\
    vget 11 (snd (look 11 (n2u s2))) = Some 2.
Proof. vm_compute. repeat eexists. Qed.

(* K2 is reachable: the name swap of the refutation, recognised by op_known *)
Example C03_witness_swap_known :
  exists s1, entry_index (Some wA) (Some wA') w_s = Some s1 /\
    op_known w_s (OIdx (Some wA) (Some wA')) = false /\
    op_known s1 (OIdx (Some wB) (Some wB')) = true.
Proof. vm_compute. eexists. repeat split. Qed.

(* a non-stale lookup (hypothesis of C03_lookup_mirror_partial) *)
Example C03_witness_lookup :
  exists s, run_idx st0 [(None, Some a1)] = Some s /\ stale 10 (tget TN2U (commit s)) = false /\
            fst (look 10 (tget TN2U (commit s))) = Some 1.
Proof. vm_compute. eexists. repeat split. Qed.

(* the correspondence predicates on a small committed history: agree and pcheck hold; on the
   swap history agree holds (the model reproduces the loss), pcheck fails and known fires *)
Definition d_ab := mkdump [a1; b1] [(1, [1; 2]); (2, [1]); (3, [1]); (4, [2])]
  [(10, 1); (11, 2); (20, 1)] [(7, 1)] [(1, 100); (2, 101)] [(1, 200); (2, 201)] true.
Example C03_witness_agree :
  let c := CHist [Txn [OPut a1; OPut b1; OIdx None (Some a1); OIdx None (Some b1); OLook TN2U 10 (Some 1)] true true d_ab] in
  agree c = true /\ pcheck c = true /\ known c = false.
Proof. vm_compute. auto. Qed.

Definition d_w0 := mkdump [wA; wB] [] [(10, 1); (11, 2)] [] [(1, 100); (2, 101)] [(1, 200); (2, 201)] true.
Definition d_w1 := mkdump [wA'; wB'] [] [(10, 2)] [] [(1, 100); (2, 101)] [(1, 200); (2, 201)] true.
Example C03_witness_refuted_on_dump :
  let c := CHist [Txn [OPut wA; OPut wB; OIdx None (Some wA); OIdx None (Some wB)] true true d_w0;
                  Txn [OPut wA'; OPut wB'; OIdx (Some wA) (Some wA'); OIdx (Some wB) (Some wB')] true true d_w1] in
  agree c = true /\ pcheck c = false /\ known c = true.
Proof. vm_compute. auto. Qed.
