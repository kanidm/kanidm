(* Vocabulary (the definitions are in KV.C03.Proofs): E = the stored entries (each reduced to what
   indexing reads); s = the state of a backend write transaction (index rows and the four name
   tables, each an overlay over the committed SQLite table).  [Mirror E s]: every index row (attr, type, key) holds exactly the
   ids of the entries of E that produce that key, and name2uuid / externalid2uuid / uuid2spn /
   uuid2rdn hold exactly the pairs produced by the live (not recycled, not tombstoned) entries.
   [Uniq E]: ids are unique, and no two live entries share a uuid, a name2uuid candidate or an
   external id — what attrunique and the uuid checks establish before the backend is called.
   [Changed E pre post E']: E' is E with `pre` taken out and `post` put in.  [Chain E l E']: the entry
   lists along the entry_index calls l lead from E to E', and every one reached satisfies Uniq.
   [WF s]: every overlay has one item per key, and a clean item repeats the SQLite value. *)
From Coq Require Import List NArith Bool.
Import ListNotations.
Require Import KV.C03.Model KV.C03.Proofs.
Require KV.C01.Model KV.C01.Proofs.
Open Scope N_scope.

(* The empty database mirrors the empty entry set. *)
Theorem C03_mirror_init : Mirror [] st0.
Proof. exact (mirror_empty []). Qed.

(* ONE call of entry_index(pre, post) — create, modify (rename, recycle, revive, tombstone,
   uuid change), delete — keeps the mirror, provided the stored entries are unique before and
   after it and `pre` is what was stored. *)
Theorem C03_mirror_step : forall E E' pre post s s',
  Mirror E s -> entry_index pre post s = Some s' -> Changed E pre post E' ->
  Uniq E -> Uniq E' ->
  (forall x, pre = Some x -> In x E) ->
  (forall x y, pre = Some x -> post = Some y -> eid x = eid y) ->
  NoDup (okeys ekeys pre) -> NoDup (okeys ekeys post) ->
  Mirror E' s'.
Proof.
  intros E E' pre post s s' HM HE HC HU HU' Hpre Hsame _ _.
  exact (entry_index_mirror E E' pre post s s' HM HE HC HU HU' Hpre Hsame).
Qed.

(* FULL STATEMENT for batches (what the property demands, since the server only establishes
   uniqueness of the entries before and after a whole batch): REFUTED by the faithful model —
   an entry that, inside one `modify` / `incremental_apply` batch, takes a name another entry of
   the batch gives up loses that name when it is indexed first (name swap, rename chain).
   What the harness sees of it on the real server is told in props/C03.json. *)
Definition C03_batch_full_statement : Prop := batch_full_statement.
Theorem C03_batch_refuted : ~ C03_batch_full_statement.
Proof. exact batch_refuted. Qed.

(* PARTIAL (what is missing: uniqueness only at batch boundaries): any sequence, of any length,
   of entry_index calls keeps the mirror when the stored entries are unique at every call
   boundary. *)
Theorem C03_mirror_reachable_partial : forall l E E' s s',
  Mirror E s -> Uniq E -> Chain E l E' -> run_idx s l = Some s' -> Mirror E' s'.
Proof. exact mirror_reachable. Qed.

(* The test the known-finding class K2 consists of (entry_index removes a name that the table
   assigns to another uuid) is false whenever the table mirrors E and the names removed are among
   those of a live entry of E. *)
Theorem C03_no_foreign_removal : forall E keysof L x ks,
  MirrorMap E keysof euuid L -> In x E -> elive x = true ->
  (forall k, In k ks -> In k (keysof x)) -> foreign_rem (euuid x) ks L = false.
Proof. exact foreign_rem_false. Qed.

(* Reindex rebuilds a correct mirror from ANY content of the tables and caches. *)
Theorem C03_reindex_mirror : forall s,
  Uniq (map snd (ents s)) -> Wf (map snd (ents s)) ->
  exists s', reindex s = Some s' /\ Mirror (map snd (ents s)) s' /\ ents s' = ents s.
Proof. exact reindex_mirror. Qed.

(* Commit writes exactly the transaction's view into the SQLite tables, empties the overlays
   and keeps the mirror. *)
Theorem C03_commit_tables : forall s, WF s ->
  (forall k, aget k (db (n2u (commit s))) = vget k (n2u s)) /\
  (forall k, aget k (db (x2u (commit s))) = vget k (x2u s)) /\
  (forall k, aget k (db (u2s (commit s))) = vget k (u2s s)) /\
  (forall k, aget k (db (u2r (commit s))) = vget k (u2r s)) /\
  (forall k, match aget k (idb (idx (commit s))) with Some l => l | None => [] end = iget k (idx s)) /\
  ov (n2u (commit s)) = [] /\ ov (x2u (commit s)) = [] /\ ov (u2s (commit s)) = [] /\
  ov (u2r (commit s)) = [] /\ iov (idx (commit s)) = [].
Proof.
  intros s [Wi Wn Wx Ws Wr]. unfold commit. cbn [n2u x2u u2s u2r idx].
  repeat split; try (intros k; apply lflush_db; assumption).
  intros k. exact (iget_iflush _ Wi k).
Qed.
Theorem C03_commit_mirror : forall E s, WF s -> Mirror E s -> Mirror E (commit s).
Proof. exact commit_mirror. Qed.
Theorem C03_wf_preserved : forall pre post s s', WF s -> entry_index pre post s = Some s' -> WF s'.
Proof. exact WF_entry_index. Qed.

(* Under the mirror, what the tables hold is what a full scan of the stored entries finds:
   name -> uuid, external id -> uuid, uuid -> spn, uuid -> rdn, index key -> ids. *)
Theorem C03_lookup_eq_scan : forall E s, Mirror E s ->
  (forall n u, vget n (n2u s) = Some u <-> In u (scan_n2u E n)) /\
  (forall x u, vget x (x2u s) = Some u <-> In u (scan_x2u E x)) /\
  (forall u v, vget u (u2s s) = Some v <-> In v (scan_val espn E u)) /\
  (forall u v, vget u (u2r s) = Some v <-> In v (scan_val erdn E u)) /\
  (forall k i, In i (iget k (idx s)) <-> In i (scan_key E k)).
Proof.
  intros E s [Mi Mn Mx Ms Mr]. refine (conj _ (conj _ (conj _ (conj _ _)))).
  - exact (mirror_scan _ _ _ _ _ (scan_n2u_iff E) Mn).
  - exact (mirror_scan _ _ _ _ _ (scan_x2u_iff E) Mx).
  - exact (mirror_scan _ _ _ _ _ (scan_val_iff espn E) Ms).
  - exact (mirror_scan _ _ _ _ _ (scan_val_iff erdn E) Mr).
  - intros k i. rewrite scan_key_iff. apply Mi.
Qed.

(* FULL STATEMENT for lookups inside a write transaction: the cached lookup answers the
   transaction's own view.  REFUTED by the faithful model: after the transaction removed a key
   the lookup macro falls through to SQLite, answers the old value and re-inserts it clean,
   which also cancels the removal. *)
Definition C03_lookup_full_statement : Prop := lookup_full_statement.
Theorem C03_lookup_refuted : ~ C03_lookup_full_statement.
Proof. exact lookup_refuted. Qed.

(* PARTIAL (everything outside the decidable class K1 = `stale`): a lookup answers the view and
   leaves the mirror intact. *)
Theorem C03_lookup_mirror_partial : forall E s t k,
  WF s -> Mirror E s -> stale k (tget t s) = false ->
  fst (look k (tget t s)) = vget k (tget t s) /\ Mirror E (tset t (snd (look k (tget t s))) s).
Proof. intros E s t k _. apply lookup_mirror. Qed.

(* Link to C01: under the mirror every index row is EXACT in C01's sense, i.e. the hypothesis
   "every index leaf answer is sound" of C01_f2i_sound / C01_search_exact holds for the oracle
   that answers `Indexed (row k)` with truth function "entry i produces key k". (That a filter
   leaf is true of an entry iff the entry produces the corresponding key is C01's own runtime
   leaf check, not part of C03.) *)
Theorem C03_index_rows_exact_for_C01 : forall E s, Mirror E s ->
  forall k, KV.C01.Proofs.sound (map eid E) (has_key E k) (KV.C01.Model.Indexed (iget k (idx s))).
Proof. exact index_rows_exact. Qed.

(* Soundness of the run-time predicate: the executable uniqueness check implies Uniq, and in a
   history that passes pcheck every dump (raw SQLite tables read back after a transaction)
   mirrors the entries stored at that moment and every cached read equals the raw table. *)
Theorem C03_uniq_sound : forall E, uniq E = true -> Uniq E /\ Wf E.
Proof. exact uniq_sound. Qed.
Theorem C03_pcheck_sound : forall l, pcheck (CHist l) = true ->
  Forall (fun t => match t with Txn _ _ _ d =>
            uniq (d_ents d) = true -> Mirror (d_ents d) (st_of_dump d) /\ d_coh d = true end) l.
Proof. intros l H. exact (hist_ok_sound l [] H). Qed.
