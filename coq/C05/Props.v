(* PARTIAL by design: SQLite's atomic commit is assumed
   (it is how `exec` is written: statements between BEGIN and COMMIT reach the file together at
   COMMIT or not at all; statements outside a bracket reach it at once).
   Vocabulary (KV.C05.Proofs): [commit_val r d]: d with the writes of r up to its COMMIT applied;
   [commit_pos r]: the number of statements of r before its COMMIT, so COMMIT is statement
   commit_pos r + 2 of SBegin :: r; a crash "before statement k" (k from 1) has run pred k statements.
   [Inv p]: the file of process p is consistent and its persisted maximum is at most p_cidmax p;
   [valid_hop h]: the trace of a crash hop is one bracket holding the db_ts_max, RUV and id2entry writes. *)
From Coq Require Import List PeanoNat NArith Bool Lia.
Import ListNotations.
Require Import KV.C05.Model KV.C05.Proofs.
Open Scope N_scope.

(* kanidm's part, general form: ANY statement sequence of the shape BEGIN body COMMIT post*
   (one bracket, nothing outside) leaves, for a crash before ANY statement k and from ANY file
   state, either the file as it was or the file with the complete body applied. *)
Theorem C05_single_bracket_before_or_after_partial : forall l d k, single_txn l = true ->
  crash_disk k l d = d \/ crash_disk k l d = commit_val (tl l) d.
Proof. exact crash_before_or_after. Qed.

(* For the statement sequence of a server write transaction (as traced from the real code:
   it must be one bracket and contain the db_ts_max, RUV and id2entry writes), every crash
   point yields the state before or the COMPLETE state after: content, change ids of the
   entries, RUV and persisted maximum change time all together. *)
Theorem C05_recover_before_or_after_partial : forall a c tr d k,
  single_txn (stmts_of a c tr) = true -> complete_stmts (stmts_of a c tr) = true ->
  crash_disk k (stmts_of a c tr) d = d \/ crash_disk k (stmts_of a c tr) d = after_disk d a c.
Proof. exact recover_before_or_after. Qed.

(* which one: before, as long as COMMIT itself has not run; after, once every statement of the trace has
   run. (The points between, COMMIT run but post points still to come, are not covered by either;
   crash_exact in KV.C05.Proofs decides them: after.) *)
Theorem C05_crash_up_to_commit_is_before : forall r d k, body_then_commit r = true ->
  (pred k <= S (commit_pos r))%nat -> crash_disk k (SBegin :: r) d = d.
Proof.
  intros r d k H Hk. rewrite crash_exact by exact H. apply Nat.leb_le in Hk. rewrite Hk. reflexivity.
Qed.
Theorem C05_crash_after_end_is_after : forall l d k, single_txn l = true -> (length l < k)%nat ->
  crash_disk k l d = commit_val (tl l) d.
Proof.
  intros l d k H Hk. destruct l as [|[] r]; try discriminate. rewrite crash_exact by exact H.
  pose proof (commit_pos_lt r H). rewrite (proj2 (Nat.leb_gt _ _)) by (cbn [length] in Hk; lia). reflexivity.
Qed.

(* The recovered file is consistent (RUV = change ids of the stored entries, none above the
   persisted maximum) after every history of completed transactions, crashes at arbitrary
   points followed by restarts, and plain restarts, with ARBITRARY clock readings; and the
   next change id the (re)started server issues is greater than every change id it had
   committed and than the persisted maximum. (In the model a completed transaction enters its change id
   in both lists and none is ever taken out; what the theorem adds is that no crash point separates
   the two inserts and the write of the maximum.) *)
Theorem C05_recovered_consistent_and_cid_after_restart : forall h p ct,
  Inv p -> Forall valid_hop h ->
  Inv (hrun p h) /\
  Forall (fun x => x < lamport ct (p_cidmax (hrun p h))) (d_ts (p_disk (hrun p h)) :: d_cids (p_disk (hrun p h))).
Proof.
  intros h p ct Hi Hv. pose proof (hrun_inv h p Hi Hv) as H. split; [exact H|]. apply next_cid_greater. exact H.
Qed.
(* a freshly (re)started server on a consistent file satisfies the invariant *)
Theorem C05_restart_establishes_invariant : forall ct d, consistent d = true -> Inv (restart ct d).
Proof. exact restart_inv. Qed.

(* pcheck states the property on the observations, and agreement with the model implies it *)
Theorem C05_pcheck_sound : forall before ops trace k aborted ts_rel ruv_has verr view cid_ok,
  pcheck (CCrash before ops trace k aborted ts_rel ruv_has verr view cid_ok) = true ->
  verr = 0 /\ cid_ok = true /\
  ((view = before /\ ruv_has = false /\ ts_rel = 0) \/
   (apply_ops before ops = Some view /\ ruv_has = true /\ ts_rel = 1)).
Proof. exact pcheck_sound. Qed.
Theorem C05_agree_implies_property : forall c : case, agree c = true -> pcheck c = true.
Proof. exact agree_pcheck. Qed.
