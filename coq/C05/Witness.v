From Coq Require Import List NArith Bool.
Import ListNotations.
Require Import KV.C05.Model KV.C05.Proofs.
Open Scope N_scope.

Definition w0 : cells := mkcells [(0, 2); (1, 3)] false 0 [].
Definition wa : cells := mkcells [(0, 4)] false 5 [].
Definition wtr : list label := [8; 0; 0; 0; 1; 2; 3; 3; 4; 4; 4; 5; 5; 6; 7].
Definition wd : dstate := mkd w0 [3; 7] [3; 7] 7.

(* the traced shape meets the hypotheses *)
Example C05_witness_shape :
  single_txn (stmts_of wa 9 wtr) = true /\ complete_stmts (stmts_of wa 9 wtr) = true /\ consistent wd = true.
Proof. vm_compute. repeat split; reflexivity. Qed.

(* crash before COMMIT (point 14): before; crash at the point after COMMIT (15) or later: complete after state *)
Example C05_witness_points :
  crash_disk 14 (stmts_of wa 9 wtr) wd = wd /\
  crash_disk 15 (stmts_of wa 9 wtr) wd = mkd wa [3; 7; 9] [3; 7; 9] 9 /\
  crash_disk 16 (stmts_of wa 9 wtr) wd = after_disk wd wa 9.
Proof. vm_compute. repeat split; reflexivity. Qed.

(* why the single bracket matters: the same writes with db_ts_max issued OUTSIDE the bracket
   give a crash point that is neither before nor after *)
Example C05_witness_why_single_bracket :
  let l := [SWTs 9; SBegin; SWRuv 9; SWEntries wa 9; SCommit; SPost] in
  single_txn l = false /\ crash_disk 3 l wd <> wd /\ crash_disk 3 l wd <> after_disk wd wa 9.
Proof. vm_compute. repeat split; intros H; discriminate H. Qed.

(* a history with regressing clocks: crash before commit, crash after commit, restarts *)
Example C05_witness_history :
  let p0 := restart 100 wd in
  let h := [HCommit 50 [OModify 0 9]; HCrash 10 [ODelete 1] wtr 9 5; HCrash 4 [ODelete 1] wtr 15 3; HRestart 1; HCommit 2 [OCreate 3 3]] in
  Inv p0 /\ Forall valid_hop h /\
  d_cids (p_disk (hrun p0 h)) = [3; 7; 101; 103; 105] /\ d_ts (p_disk (hrun p0 h)) = 105 /\
  d_cells (p_disk (hrun p0 h)) = mkcells [(0, 9); (3, 3)] false 0 [].
Proof.
  cbn zeta. split; [apply restart_inv; reflexivity|]. split.
  - repeat constructor; intros a c; split; reflexivity.
  - vm_compute. repeat split; reflexivity.
Qed.

(* agree holds for a crash before COMMIT with the state before, and at the point after COMMIT and after
   the end with the state after; the state after claimed for point 14 disagrees with the model; a
   half-applied view fails pcheck *)
Example C05_witness_agree :
  agree (CCrash w0 [OModify 0 3; ODelete 1; ODomain 5] wtr 14 true 0 false 0 w0 true) = true /\
  agree (CCrash w0 [OModify 0 3; ODelete 1; ODomain 5] wtr 15 true 1 true 0 (mkcells [(0, 3)] false 5 []) true) = true /\
  agree (CCrash w0 [OModify 0 3; ODelete 1; ODomain 5] wtr 16 false 1 true 0 (mkcells [(0, 3)] false 5 []) true) = true /\
  agree (CCrash w0 [OModify 0 3; ODelete 1; ODomain 5] wtr 14 true 0 false 0 (mkcells [(0, 3)] false 5 []) true) = false /\
  pcheck (CCrash w0 [OModify 0 3; ODelete 1; ODomain 5] wtr 9 true 0 false 0 (mkcells [(0, 3); (1, 3)] false 0 []) true) = false.
Proof. vm_compute. repeat split; reflexivity. Qed.
