(* One induction (bracket_exact) says what the first n statements of a bracket leave in the file; the crash
   theorems are read off it. Writes that all carry the same content and change id (`uniform`) have the
   effect `after_disk`. *)
From Coq Require Import List PeanoNat NArith Bool Lia.
Import ListNotations.
Require Import KV.C05.Model.
Require KV.C07.Proofs KV.C04.Proofs.
Open Scope N_scope.

Fixpoint commit_val (r : list stmt) (x : dstate) : dstate :=
  match r with
  | [] => x
  | SCommit :: _ => x
  | s :: r' => commit_val r' (write s x)
  end.

Lemma posts_noop : forall r x n, forallb is_post r = true -> fst (exec_all (x, None) (firstn n r)) = x.
Proof.
  induction r as [|s r IH]; intros x n H; destruct n; cbn; try reflexivity.
  cbn in H. apply andb_prop in H as [Hs Hr]. destruct s; try discriminate. cbn. apply IH. exact Hr.
Qed.

Fixpoint commit_pos (r : list stmt) : nat := match r with SCommit :: _ => 0 | _ :: r' => S (commit_pos r') | [] => 0 end.

Lemma commit_pos_lt : forall r, body_then_commit r = true -> (commit_pos r < length r)%nat.
Proof.
  induction r as [|s r IH]; intros H; [discriminate|].
  destruct s; cbn in *; try discriminate; try (apply IH in H); lia.
Qed.

(* up to COMMIT every write goes to the private copy x and the file stays d; COMMIT makes the copy the
   file, and the points after it write nothing: one formula for every n *)
Lemma bracket_exact : forall r d x n, body_then_commit r = true ->
  fst (exec_all (d, Some x) (firstn n r)) = if (n <=? commit_pos r)%nat then d else commit_val r x.
Proof.
  induction r as [|s r IH]; intros d x n H; [discriminate|].
  destruct n; [reflexivity|].
  cbn [firstn]. unfold exec_all. cbn [fold_left]. fold (exec_all (exec (d, Some x) s) (firstn n r)).
  destruct s; cbn in H; try discriminate;
    try (cbn [exec commit_val commit_pos Nat.leb]; apply IH; exact H).
  (* COMMIT *)
  cbn [exec commit_val]. apply posts_noop. exact H.
Qed.

Lemma crash_exact : forall r d k, body_then_commit r = true ->
  crash_disk k (SBegin :: r) d = if (pred k <=? S (commit_pos r))%nat then d else commit_val r d.
Proof.
  intros r d k H. unfold crash_disk. destruct (pred k) as [|n]; [reflexivity|].
  cbn [firstn]. unfold exec_all. cbn [fold_left exec]. apply bracket_exact. exact H.
Qed.

Lemma crash_before_or_after : forall l d k, single_txn l = true ->
  crash_disk k l d = d \/ crash_disk k l d = commit_val (tl l) d.
Proof.
  intros l d k H. destruct l as [|[] r]; try discriminate.
  rewrite crash_exact by exact H. destruct (_ <=? _)%nat; auto.
Qed.

Definition uniform (a : cells) (c : N) (s : stmt) : Prop :=
  match s with
  | SWTs c' => c' = c | SWRuv c' => c' = c | SWEntries a' c' => a' = a /\ c' = c | _ => True
  end.
Definition eff (a : cells) (c : N) (ft fr fe : bool) (x : dstate) : dstate :=
  mkd (if fe then a else d_cells x) (if fe then nins c (d_cids x) else d_cids x)
      (if fr then nins c (d_ruv x) else d_ruv x) (if ft then c else d_ts x).

Lemma commit_val_eff : forall a c r x, Forall (uniform a c) r ->
  commit_val r x = eff a c (existsb is_ts (upto_commit r)) (existsb is_ruv (upto_commit r)) (existsb is_ent (upto_commit r)) x.
Proof.
  intros a c. induction r as [|s r IH]; intros x HF.
  - destruct x; reflexivity.
  - inversion HF as [|s' r' Hs Hr]; subst.
    destruct s; cbn [commit_val upto_commit existsb is_ts is_ruv is_ent orb];
      try (rewrite (IH _ Hr); destruct x; reflexivity);
      try (destruct x; reflexivity).
    + (* SWTs *) cbn in Hs. subst c0. rewrite (IH _ Hr). unfold eff, write. cbn.
      destruct (existsb is_ts (upto_commit r)); reflexivity.
    + (* SWRuv *) cbn in Hs. subst c0. rewrite (IH _ Hr). unfold eff, write. cbn.
      destruct (existsb is_ruv (upto_commit r)); [rewrite KV.C04.Proofs.nins_idem|]; reflexivity.
    + (* SWEntries *) cbn in Hs. destruct Hs as [-> ->]. rewrite (IH _ Hr). unfold eff, write. cbn.
      destruct (existsb is_ent (upto_commit r)); [rewrite KV.C04.Proofs.nins_idem|]; reflexivity.
Qed.

Lemma stmts_of_uniform : forall a c tr, Forall (uniform a c) (stmts_of a c tr).
Proof.
  intros a c tr. apply Forall_map, Forall_forall. intros l _. unfold stmt_of.
  destruct l as [|p]; [exact I|].
  destruct p as [p|p|]; try destruct p as [p|p|]; try destruct p as [p|p|]; try destruct p as [p|p|];
    cbn; auto.
Qed.

Lemma txn_effect : forall a c tr d, complete_stmts (stmts_of a c tr) = true ->
  commit_val (tl (stmts_of a c tr)) d = after_disk d a c.
Proof.
  intros a c tr d Hc. unfold complete_stmts in Hc.
  replace (tl (stmts_of a c tr)) with (stmts_of a c (tl tr)) in * by (destruct tr; reflexivity).
  apply andb_prop in Hc as [Hc H3]. apply andb_prop in Hc as [H1 H2].
  rewrite (commit_val_eff a c _ d (stmts_of_uniform a c (tl tr))), H1, H2, H3. reflexivity.
Qed.

Lemma recover_before_or_after : forall a c tr d k,
  single_txn (stmts_of a c tr) = true -> complete_stmts (stmts_of a c tr) = true ->
  crash_disk k (stmts_of a c tr) d = d \/ crash_disk k (stmts_of a c tr) d = after_disk d a c.
Proof.
  intros a c tr d k H1 H2. rewrite <- (txn_effect a c tr d H2). apply crash_before_or_after. exact H1.
Qed.

Lemma consistent_after : forall d a c, consistent d = true -> d_ts d < c -> consistent (after_disk d a c) = true.
Proof.
  intros d a c H Hc. unfold consistent in *. apply andb_prop in H as [H1 H2].
  apply KV.C04.Proofs.nl_eqb_eq in H1. cbn [after_disk d_ruv d_cids d_ts]. rewrite H1.
  rewrite (proj2 (KV.C04.Proofs.nl_eqb_eq _ _) eq_refl). cbn [andb]. rewrite forallb_forall in *.
  intros x Hx. apply N.leb_le. apply KV.C04.Proofs.nins_in in Hx as [->|Hx]; [lia|].
  apply H2, N.leb_le in Hx. lia.
Qed.

Definition Inv (p : proc) : Prop := consistent (p_disk p) = true /\ d_ts (p_disk p) <= p_cidmax p.

(* a, c do not bear on the shape of stmts_of a c tr; they are quantified so that hstep_inv can put in the
   transaction's own content and change id *)
Definition valid_hop (h : hop) : Prop :=
  match h with
  | HCrash ct ops tr k ct2 => forall a c, single_txn (stmts_of a c tr) = true /\ complete_stmts (stmts_of a c tr) = true
  | _ => True
  end.

(* KV.C07's fact, over this model's name for lamport *)
Lemma lamport_gt : forall ct mx, mx < lamport ct mx.
Proof. exact KV.C07.Proofs.lamport_gt. Qed.

Lemma restart_inv : forall ct d, consistent d = true -> Inv (restart ct d).
Proof. intros ct d H. split; [exact H|]. cbn. pose proof (lamport_gt ct (d_ts d)). lia. Qed.

Lemma next_consistent : forall p ct a, Inv p ->
  consistent (after_disk (p_disk p) a (lamport ct (p_cidmax p))) = true.
Proof.
  intros p ct a [Hc Ht]. apply consistent_after; [exact Hc|].
  pose proof (lamport_gt ct (p_cidmax p)). lia.
Qed.

Lemma hstep_inv : forall p h, Inv p -> valid_hop h -> Inv (hstep p h).
Proof.
  intros p h Hi Hv. pose proof Hi as [Hc Ht]. destruct h as [ct ops|ct ops tr k ct2|ct]; cbn [hstep].
  - destruct (apply_ops (d_cells (p_disk p)) ops) as [a|]; [|exact Hi].
    split; [apply next_consistent; exact Hi | apply N.le_refl].
  - destruct (apply_ops (d_cells (p_disk p)) ops) as [a|]; apply restart_inv; [|exact Hc].
    destruct (Hv a (lamport ct (p_cidmax p))) as [V1 V2].
    destruct (recover_before_or_after _ _ tr (p_disk p) k V1 V2) as [-> | ->];
      [exact Hc | apply next_consistent; exact Hi].
  - apply restart_inv. exact Hc.
Qed.

Lemma hrun_inv : forall h p, Inv p -> Forall valid_hop h -> Inv (hrun p h).
Proof.
  induction h as [|x r IH]; intros p Hi Hv; [exact Hi|].
  inversion Hv; subst. unfold hrun. cbn [fold_left]. apply IH; [apply hstep_inv|]; assumption.
Qed.

Lemma next_cid_greater : forall p ct, Inv p ->
  Forall (fun x => x < lamport ct (p_cidmax p)) (d_ts (p_disk p) :: d_cids (p_disk p)).
Proof.
  intros p ct [Hc Ht]. pose proof (lamport_gt ct (p_cidmax p)) as Hl.
  constructor; [lia|]. unfold consistent in Hc. apply andb_prop in Hc as [_ Hc].
  rewrite forallb_forall in Hc. apply Forall_forall. intros x Hx. apply Hc in Hx. apply N.leb_le in Hx. lia.
Qed.

Lemma pcheck_sound : forall before ops trace k aborted ts_rel ruv_has verr view cid_ok,
  pcheck (CCrash before ops trace k aborted ts_rel ruv_has verr view cid_ok) = true ->
  verr = 0 /\ cid_ok = true /\
  ((view = before /\ ruv_has = false /\ ts_rel = 0) \/
   (apply_ops before ops = Some view /\ ruv_has = true /\ ts_rel = 1)).
Proof.
  intros before ops trace k aborted ts_rel ruv_has verr view cid_ok H. cbn in H.
  rewrite !andb_true_iff, orb_true_iff, N.eqb_eq in H. destruct H as [[Hv Hc] H].
  split; [exact Hv|]. split; [exact Hc|]. destruct H as [H|H].
  - rewrite !andb_true_iff, KV.C04.Proofs.cells_eqb_eq, negb_true_iff, N.eqb_eq in H. tauto.
  - destruct (apply_ops before ops) as [a|]; [|discriminate].
    rewrite !andb_true_iff, KV.C04.Proofs.cells_eqb_eq, N.eqb_eq in H. destruct H as [[-> Hr] Ht]. auto.
Qed.

Lemma agree_pcheck : forall c, agree c = true -> pcheck c = true.
Proof.
  intros [before ops trace k aborted ts_rel ruv_has verr view cid_ok] H. unfold agree in H.
  destruct (apply_ops before ops) as [a|] eqn:Ha; [|discriminate].
  rewrite !andb_true_iff in H. destruct H as [[[[[[[V1 V2] _] Hv] Ht] Hr] He] Hc].
  apply KV.C04.Proofs.cells_eqb_eq in Hv. apply N.eqb_eq in Ht, He. apply Bool.eqb_prop in Hr, Hc. subst.
  unfold pcheck. rewrite Ha.
  (* the recovered file is the base file or the base file with the whole transaction; on either
     the remaining observations are computed *)
  destruct (recover_before_or_after a 1 trace (base_disk before) (N.to_nat k) V1 V2) as [E|E];
    rewrite E; cbn; rewrite (proj2 (KV.C04.Proofs.cells_eqb_eq _ _) eq_refl);
    [reflexivity | apply orb_true_r].
Qed.
