(* KV.C43.Witness — concrete, non-trivial instances of the hypotheses of the C43 theorems
   (non-vacuity), by vm_compute. *)
From Coq Require Import String List NArith ZArith Bool.
Require Import KV.C29.Hash KV.C30.Prim.
Require KV.C30.Model KV.C30.Proofs.
Require Import KV.C43.Model KV.C43.Proofs KV.C43.Props.
Import ListNotations.
Open Scope N_scope.

Definition o1 := mkO true false.
(* a user whose stacked token is used for the first Password step, who then answers an MFA
   prompt, a device-grant message and a PIN set-up with one mismatch *)
Definition h1 : handler :=
  mkH (HOk tt) (HOk (str "alice")) (HOk (Some (str "hunter2")))
      [HOk (Some (str "123456")); HOk None;
       HOk None; HOk (Some (str "1111")); HOk (Some (str "2222")); HOk None;
       HOk (Some (str "4321")); HOk (Some (str "4321"))].
Definition script1 : list devent :=
  [DStep RPassword 7; DStep RMfaCode 7; DStep (RDevice 30) 8; DStep RMfaPollWait 8;
   DStep RSetupPin 9; DStep RSuccess 9; DStep RDenied 9].

(* C43_daemon_success_iff, both sides: a six-reply conversation ending in Success *)
Example C43_witness_daemon_success :
  handler_sane h1 = true /\
  r_out (auth_connected o1 h1 script1) = ORet PAM_SUCCESS /\
  r_read (auth_connected o1 h1 script1) = firstn 6 script1 /\
  r_reqs (auth_connected o1 h1 script1) =
    [QInit (str "alice"); QPassword (str "hunter2") 7; QMfaCode (str "123456") 7; QDevice 8;
     QMfaPoll 8; QSetupPin (str "4321") 9] /\
  r_conv (auth_connected o1 h1 script1) = [5; 7; 6; 3; 4; 6; 3; 4].
Proof. vm_compute. repeat split; reflexivity. Qed.

(* C43_daemon_faults_never_success: the same conversation with an undecodable frame, a wrong
   reply kind, an Error, a disconnect or a Denied in the middle: never success, although a
   Success reply follows in the script *)
Example C43_witness_daemon_faults :
  forallb (fun bad =>
    let s := [DStep RPassword 7; DStep RMfaCode 7; bad; DStep RSuccess 9] in
    is_fault bad && existsb (fun e => is_fault e) (r_read (auth_connected o1 h1 s)) &&
    outcome_eqb (r_out (auth_connected o1 h1 s)) (ORet PAM_AUTH_ERR))
    [DGarbage; DEof; DError; DOther 0; DPamStatus (Some true); DStep RDenied 7] = true /\
  r_out (auth_connected (mkO true true) h1 [DStep RPassword 7; DStep RUnknown 7; DStep RSuccess 7])
    = ORet PAM_IGNORE.
Proof. vm_compute. split; reflexivity. Qed.

(* C43_daemon_without_success_reply: early disconnects and a zero-second device grant *)
Example C43_witness_daemon_disconnect :
  existsb is_success [DStep RPassword 1; DStep RPin 1] = false /\
  r_out (auth_connected o1 h1 [DStep RPassword 1; DStep RPin 1]) = ORet PAM_AUTH_ERR /\
  r_out (auth_connected o1 h1 []) = ORet PAM_AUTH_ERR /\
  (* expires_in = 0: the next call fails before anything is sent; the Success is never read *)
  auth_connected o1 h1 [DStep (RDevice 0) 1; DStep RSuccess 1] =
    mkrun (ORet PAM_AUTH_ERR) [QInit (str "alice")] [7] [DStep (RDevice 0) 1].
Proof. vm_compute. repeat split; reflexivity. Qed.

(* handler errors at each call site end the run with that code *)
Example C43_witness_handler_errors :
  r_out (auth_connected o1 (mkH (HErr 19) (HOk []) (HOk None) []) script1) = ORet 19 /\
  r_out (auth_connected o1 (mkH (HOk tt) (HErr 9) (HOk None) []) script1) = ORet 9 /\
  r_out (auth_connected o1 (mkH (HOk tt) (HOk []) (HErr 4) []) script1) = ORet 4 /\
  r_out (auth_connected o1 (mkH (HOk tt) (HOk []) (HOk None) [HErr 30]) script1) = ORet 30 /\
  r_out (auth_connected o1 (mkH (HOk tt) (HOk []) (HOk None) []) script1) = ORet PAM_CONV_ERR /\
  r_out (auth_connected o1 (mkH (HOk tt) (HOk []) (HOk None) [HOk None]) script1) = ORet PAM_CRED_INSUFFICIENT.
Proof. vm_compute. repeat split; reflexivity. Qed.

(* a sha256-crypt hash of "a" made by the sha-crypt crate (rounds=1000) *)
Definition hash_a : bytes := str "$5$rounds=1000$ppxHkvXTK5MIwYJa$WPtYduzN/uAN5rJJyICTeVv322EyddSk2leosnK95U/".
Definition h2 (pw : string) : handler := mkH (HOk tt) (HOk (str "dave")) (HOk (Some (str "decoy"))) [HOk (Some (str pw))].
Definition shadow2 (field : bytes) : list sent :=
  [mkS (str "bob") (str "!") None; mkS (str "dave") field (Some 20001%Z); mkS (str "dave") (str "*") None].
Definition users2 : list bytes := [str "bob"; str "dave"].
Definition day (d : Z) : Z := (d * 86400)%Z.

(* the three 1000-round digests the next example needs, each evaluated once (through
   KV.C29.HashFast); the rest of it goes by fallback_verdict and check_pw_sha, without evaluation *)
Definition salt_a : bytes := str "ppxHkvXTK5MIwYJa".
Lemma crypt_a : KV.C30.Proofs.crypt_field false (str "a") salt_a 1000
  = hex "e29693a9fe6781ce64c75d553ee57c6ab8170401f969eac144acd2f86c2d0718".
Proof. rewrite KV.C30.Proofs.crypt_field_fast. vm_compute. reflexivity. Qed.
Lemma crypt_b : KV.C30.Proofs.crypt_field false (str "b") salt_a 1000
  = hex "9ff3c310690d6405f1ea29c6e9691c647e6035eefa8a0e01137784ad69318ebd".
Proof. rewrite KV.C30.Proofs.crypt_field_fast. vm_compute. reflexivity. Qed.
Lemma crypt_decoy : KV.C30.Proofs.crypt_field false (str "decoy") salt_a 1000
  = hex "90544e60ab95e867c115afd1c4ea8c2c5524a59e42da9794d83101ec50094246".
Proof. rewrite KV.C30.Proofs.crypt_field_fast. vm_compute. reflexivity. Qed.

Lemma dave_verdict : forall o h cred,
  supplied_password o h = Some cred -> h_account h = HOk (str "dave") ->
  r_out (auth_fallback_gen tree_fixed o h (day 20001 - 1)%Z users2 (shadow2 hash_a) []) =
  ORet (if beqb (KV.C30.Proofs.crypt_field false cred salt_a 1000)
                (hex "e29693a9fe6781ce64c75d553ee57c6ab8170401f969eac144acd2f86c2d0718")
        then PAM_SUCCESS else PAM_AUTH_ERR).
Proof.
  intros o h cred Hc Ha.
  rewrite (fallback_verdict _ _ _ _ _ _ _ (mkS (str "dave") hash_a (Some 20001%Z)) cred);
    [|unfold local_entry; rewrite Ha; vm_compute; reflexivity | vm_compute; reflexivity | exact Hc].
  erewrite check_pw_sha with (is512 := false) (salt := salt_a) (r := 1000);
    [|vm_compute; reflexivity ..].
  change (firstn _ _) with (hex "e29693a9fe6781ce64c75d553ee57c6ab8170401f969eac144acd2f86c2d0718").
  destruct (beqb _ _); reflexivity.
Qed.

(* C43_fallback_success_only_when on the tree as it is, premise and conclusion ([fallback_legit]), with the
   REAL Gallina sha256-crypt: right password on the last second before expiry; wrong password; first second
   of the expiry day.  The guard conjunct of C43_fallback_success_iff, [field_guard hash_a = true], is in
   C43_witness_sha256_panic. *)
Example C43_witness_fallback_sha256 :
  handler_sane (h2 "a") = true /\
  r_out (auth_fallback_gen tree_fixed (mkO false false) (h2 "a") (day 20001 - 1)%Z users2 (shadow2 hash_a) [])
    = ORet PAM_SUCCESS /\
  fallback_legit (mkO false false) (h2 "a") (day 20001 - 1)%Z users2 (shadow2 hash_a) [] = true /\
  r_out (auth_fallback_gen tree_fixed (mkO false false) (h2 "b") (day 20001 - 1)%Z users2 (shadow2 hash_a) [])
    = ORet PAM_AUTH_ERR /\
  (* use_first_pass: the stacked token "decoy" is the password, the prompt is not used *)
  r_out (auth_fallback_gen tree_fixed (mkO true false) (h2 "a") (day 20001 - 1)%Z users2 (shadow2 hash_a) [])
    = ORet PAM_AUTH_ERR /\
  r_out (auth_fallback_gen tree_fixed (mkO false false) (h2 "a") (day 20001) users2 (shadow2 hash_a) [])
    = ORet PAM_ACCT_EXPIRED.
Proof.
  assert (Ha : r_out (auth_fallback_gen tree_fixed (mkO false false) (h2 "a") (day 20001 - 1)%Z
                        users2 (shadow2 hash_a) []) = ORet PAM_SUCCESS)
    by (rewrite (dave_verdict (mkO false false) (h2 "a") (str "a") eq_refl eq_refl), crypt_a; reflexivity).
  (* split by hand: [repeat split] would try [reflexivity] on the equations and evaluate the
     digests in the unifier; fallback_legit follows from the SUCCESS conjunct *)
  split; [reflexivity|]. split; [exact Ha|].
  split; [exact (fallback_success_only_when _ _ (h2 "a") _ _ _ _ eq_refl Ha)|].
  split; [rewrite (dave_verdict (mkO false false) (h2 "b") (str "b") eq_refl eq_refl), crypt_b; reflexivity|].
  split; [rewrite (dave_verdict (mkO true false) (h2 "a") (str "decoy") eq_refl eq_refl), crypt_decoy; reflexivity|].
  vm_compute. reflexivity.
Qed.

(* C43_locked_never / C43_unsupported_never: premises met by real-looking entries *)
Example C43_witness_locked :
  forallb (fun f =>
    match local_entry (h2 "a") users2 (shadow2 f) with
    | Some ent => negb (match hd_error (s_pw ent) with Some 36 => true | _ => false end)
    | None => false
    end &&
    outcome_eqb (r_out (auth_fallback_gen tree_fixed (mkO false false) (h2 "a") 0%Z users2 (shadow2 f) []))
                (ORet PAM_AUTH_ERR))
    [str "!" ++ hash_a; str "*" ++ hash_a; str "!"; str "*"; str "x"; []; str "!!"; str "*LK*"] = true /\
  forallb (fun f =>
    match local_entry (h2 "a") users2 (shadow2 f) with
    | Some ent => match classify (s_pw ent) with CInvalid => true | _ => false end
    | None => false
    end &&
    outcome_eqb (r_out (auth_fallback_gen tree_fixed (mkO false false) (h2 "a") 0%Z users2 (shadow2 f) []))
                (ORet PAM_AUTH_ERR))
    [str "$1$saltsalt$qjXMvbEw8oaL.CzflDtaK/"; str "$5"; str "$7$x"; str " $6$a$b"] = true.
Proof. vm_compute. split; reflexivity. Qed.

(* only the FIRST shadow entry of a name counts, and /etc/passwd must know the account *)
Example C43_witness_first_entry_and_passwd :
  r_out (auth_fallback_gen tree_fixed (mkO false false) (h2 "a") 0%Z users2
           [mkS (str "dave") (str "!") None; mkS (str "dave") hash_a None] []) = ORet PAM_AUTH_ERR /\
  r_out (auth_fallback_gen tree_fixed (mkO false false) (h2 "a") 0%Z [str "bob"] (shadow2 hash_a) [])
    = ORet PAM_USER_UNKNOWN /\
  r_out (auth_fallback_gen tree_fixed (mkO false true) (h2 "a") 0%Z users2 [] []) = ORet PAM_IGNORE.
Proof. vm_compute. repeat split; reflexivity. Qed.

(* yescrypt goes through the oracle table *)
Definition yh : bytes := str "$y$j9T$LdJMENpBABJJ3hIHjB1Bi.$GFxnbKnR8WaEdBMGMctf6JGMs56hU5dYcy6UrKGWr62".
Example C43_witness_yescrypt :
  r_out (auth_fallback_gen tree_fixed (mkO false false) (h2 "a") 0%Z users2 (shadow2 yh) [(yh, str "a")])
    = ORet PAM_SUCCESS /\
  r_out (auth_fallback_gen tree_fixed (mkO false false) (h2 "b") 0%Z users2 (shadow2 yh) [(yh, str "a")])
    = ORet PAM_AUTH_ERR /\
  r_out (auth_fallback_gen tree_fixed (mkO false false) (h2 "a") 0%Z users2 (shadow2 (removelast yh)) [(yh, str "a")])
    = ORet PAM_AUTH_ERR.
Proof. vm_compute. repeat split; reflexivity. Qed.

(* kanidm before 054a9cd (fixed = false) panics on a $5$ field whose hash field does not decode (sha-crypt
   0.5.0 decode_sha256().unwrap()); with the guard of /repo 054a9cd (/verif/fixes/C43.patch) the
   module answers PAM_AUTH_ERR.  Either way: not a success.  The $6$ twin does not panic. *)
Example C43_witness_sha256_panic :
  let bad := str "$5$rounds=1000$saltsalt$***" in
  r_out (auth_fallback_gen false (mkO false false) (h2 "a") 0%Z users2 (shadow2 bad) []) = OPanic /\
  r_out (auth_fallback_gen true (mkO false false) (h2 "a") 0%Z users2 (shadow2 bad) []) = ORet PAM_AUTH_ERR /\
  r_out (auth_fallback_gen false (mkO false false) (h2 "a") 0%Z users2
           (shadow2 (str "$6$rounds=1000$saltsalt$***")) []) = ORet PAM_AUTH_ERR /\
  tree_fixed = true /\ field_guard bad = false /\ field_guard hash_a = true.
Proof. vm_compute. repeat split; reflexivity. Qed.

(* C43_acct_success_iff, both modes, and what the refusing cases return: PAM_IGNORE for an unexpected reply,
   a disconnect or no reply, an error code otherwise *)
Example C43_witness_acct :
  r_out (acct_mgmt o1 h1 (SDaemon [DPamStatus (Some true); DError]) 0%Z) = ORet PAM_SUCCESS /\
  r_out (acct_mgmt o1 h1 (SDaemon [DPamStatus (Some false)]) 0%Z) = ORet PAM_AUTH_ERR /\
  r_out (acct_mgmt o1 h1 (SDaemon [DPamStatus None]) 0%Z) = ORet PAM_USER_UNKNOWN /\
  r_out (acct_mgmt o1 h1 (SDaemon [DStep RSuccess 1]) 0%Z) = ORet PAM_IGNORE /\
  r_out (acct_mgmt o1 h1 (SDaemon [DEof]) 0%Z) = ORet PAM_IGNORE /\
  r_out (acct_mgmt o1 h1 (SDaemon []) 0%Z) = ORet PAM_IGNORE /\
  r_out (acct_mgmt o1 (h2 "") (SFallback (Some users2) (Some (shadow2 (str "!")))) (day 20001 - 1)%Z) = ORet PAM_SUCCESS /\
  r_out (acct_mgmt o1 (h2 "") (SFallback (Some users2) (Some (shadow2 (str "!")))) (day 20001)) = ORet PAM_ACCT_EXPIRED /\
  r_out (acct_mgmt o1 (h2 "") (SFallback None (Some (shadow2 (str "!")))) 0%Z) = ORet PAM_USER_UNKNOWN.
Proof. vm_compute. repeat split; reflexivity. Qed.

(* a case of the shape the harness emits, agreeing with the model and satisfying the property *)
Example C43_witness_case :
  let c := mkcase OpAuth o1 h1 (SDaemon script1) 0%Z [] (ORet 0)
             [QInit (str "alice"); QPassword (str "hunter2") 7; QMfaCode (str "123456") 7; QDevice 8;
              QMfaPoll 8; QSetupPin (str "4321") 9] [5; 7; 6; 3; 4; 6; 3; 4] 6 in
  agree c = true /\ pcheck c = true /\
  (* an implementation that reported success after the daemon served a Denied would be caught *)
  pcheck (mkcase OpAuth o1 h1 (SDaemon [DStep RPassword 7; DStep RDenied 7]) 0%Z [] (ORet 0) [] [] 2) = false.
Proof. vm_compute. repeat split; reflexivity. Qed.
