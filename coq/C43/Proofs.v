(* When each entry path returns PAM_SUCCESS: the daemon loop (one reply: on_reply_spec), the local
   fallback (check_pw), acct_mgmt; they meet in agree_implies_pcheck. *)
From Coq Require Import List NArith ZArith Bool Lia.
Require Import KV.C29.Hash KV.C30.Prim.
Require KV.C30.Model KV.C30.Proofs.
Require Import KV.C43.Model.
Import ListNotations.
Open Scope N_scope.

Definition conv_sane (conv : list cev) : Prop := forallb sane_res conv = true.

Lemma sane_err : forall A e, @sane_res A (HErr e) = true -> e <> PAM_SUCCESS.
Proof. intros A e H. apply N.eqb_neq, negb_true_iff. exact H. Qed.

Lemma conv_sane_cons : forall x conv, conv_sane (x :: conv) ->
  match x with HErr e => e <> PAM_SUCCESS | HOk _ => conv_sane conv end.
Proof.
  intros x conv H. apply andb_true_iff in H as [Hx Hc]. destruct x; [exact Hc | exact (sane_err _ _ Hx)].
Qed.

Lemma pop_sane : forall conv, conv_sane conv ->
  match pop conv with (HErr e, _) => e <> PAM_SUCCESS | (HOk _, conv') => conv_sane conv' end.
Proof. intros [|x conv]; [discriminate | apply conv_sane_cons]. Qed.

Lemma handler_sane_parts : forall h, handler_sane h = true ->
  sane_res (h_service h) = true /\ sane_res (h_account h) = true /\
  sane_res (h_authtok h) = true /\ conv_sane (h_conv h).
Proof.
  intros h H. unfold handler_sane in H. repeat (apply andb_true_iff in H as [H ?]). repeat split; assumption.
Qed.

Lemma continuing_not_success : forall e, continuing e = true -> is_success e = false.
Proof. intros [[] sid| | | | |]; cbn; congruence. Qed.

Lemma ends_in_success_cons : forall e l,
  ends_in_success (e :: l) = match l with [] => is_success e | _ => continuing e && ends_in_success l end.
Proof. intros e [|x l]; reflexivity. Qed.

Lemma ends_in_success_continuing : forall e l,
  continuing e = true -> ends_in_success (e :: l) = ends_in_success l.
Proof.
  intros e l H. rewrite ends_in_success_cons, H. destruct l; [apply (continuing_not_success _ H) | reflexivity].
Qed.

Lemma ends_in_success_char : forall l,
  ends_in_success l = true <->
  exists pre e, l = pre ++ [e] /\ is_success e = true /\ Forall (fun x => continuing x = true) pre.
Proof.
  intro l. split.
  - induction l as [|a l IH]; [discriminate|]. rewrite ends_in_success_cons. destruct l as [|b l].
    + intro H. now exists [], a.
    + intros [Hc (pre & e & E & Hs & Hf)%IH]%andb_true_iff. exists (a :: pre), e. cbn. rewrite <- E. auto.
  - intros (pre & e & -> & Hs & Hf). induction Hf as [|p pre Hp _ IH]; [exact Hs|].
    cbn [app]. rewrite (ends_in_success_continuing _ _ Hp). exact IH.
Qed.

Lemma success_no_fault : forall l e,
  ends_in_success l = true -> In e l -> is_fault e = false.
Proof.
  intros l e H Hin. apply ends_in_success_char in H as (pre & s & -> & Hs & Hf).
  apply in_app_or in Hin as [Hin|[<-|[]]].
  - rewrite Forall_forall in Hf. unfold is_fault. rewrite (Hf _ Hin). reflexivity.
  - unfold is_fault. rewrite Hs. apply andb_false_r.
Qed.

Lemma success_has_success : forall l, ends_in_success l = true -> existsb is_success l = true.
Proof.
  intros l H. apply ends_in_success_char in H as (pre & s & -> & Hs & _).
  rewrite existsb_app. cbn. rewrite Hs. apply orb_true_iff. right. reflexivity.
Qed.

Lemma setup_pin_sane : forall conv, conv_sane conv ->
  match setup_pin conv with
  | inl (e, _) => e <> PAM_SUCCESS
  | inr (_, _, conv') => conv_sane conv'
  end.
Proof.
  (* on the length: the recursive call is on the third tail *)
  intro conv. induction conv as [conv IH] using (induction_ltof1 _ (@length _)). intro Hs.
  destruct conv as [|[[pin|]|e] c1]; cbn [setup_pin]; try discriminate; apply conv_sane_cons in Hs; [|exact Hs].
  destruct c1 as [|[[confirm|]|e] c2]; try discriminate; apply conv_sane_cons in Hs; [|exact Hs].
  destruct (beqb pin confirm); [exact Hs|].
  destruct c2 as [|[a|e] c3]; try discriminate; apply conv_sane_cons in Hs; [|exact Hs].
  specialize (IH c3 ltac:(unfold ltof; cbn; lia) Hs).
  now destruct (setup_pin c3) as [[e ks]|[[p ks] c4]].
Qed.

Lemma on_reply_spec : forall o ev stacked conv, conv_sane conv ->
  match snd (on_reply o ev stacked conv) with
  | Stop c => if is_success ev then c = PAM_SUCCESS else c <> PAM_SUCCESS
  | Next _ _ _ conv' => continuing ev = true /\ conv_sane conv'
  end.
Proof.
  intros o ev stacked conv Hs. pose proof (pop_sane conv Hs) as Hp.
  destruct ev as [[] sid| | | | |]; cbn [on_reply snd is_success continuing];
    try discriminate; try reflexivity.
  - (* Unknown *) destruct (o_ignore_unknown o); discriminate.
  - (* Password *) destruct stacked; [easy|]. now destruct (pop conv) as [[[c|]|e] conv'].
  - (* Device *) now destruct (pop conv) as [[a|e] conv'].
  - (* MfaCode *) now destruct (pop conv) as [[[c|]|e] conv'].
  - (* MfaPoll *) now destruct (pop conv) as [[a|e] conv'].
  - (* MfaPollWait *) split; [reflexivity | exact Hs].
  - (* SetupPin *) destruct (pop conv) as [[a|e] conv']; [|easy]. apply setup_pin_sane in Hp.
    now destruct (setup_pin conv') as [[e ks]|[[p ks] c4]].
  - (* Pin *) destruct stacked; [easy|]. now destruct (pop conv) as [[[c|]|e] conv'].
Qed.

Lemma auth_loop_cons : forall o ev rest q stacked conv,
  auth_loop o (ev :: rest) q false stacked conv =
  let r := match snd (on_reply o ev stacked conv) with
           | Stop c => stop c
           | Next q' tz' stacked' conv' => auth_loop o rest q' tz' stacked' conv'
           end in
  mkrun (r_out r) (q :: r_reqs r) (fst (on_reply o ev stacked conv) ++ r_conv r) (ev :: r_read r).
Proof.
  intros. cbn [auth_loop]. destruct (on_reply o ev stacked conv) as [ks s]. reflexivity.
Qed.

Lemma loop_success_iff : forall o script q tz stacked conv, conv_sane conv ->
  r_out (auth_loop o script q tz stacked conv) = ORet PAM_SUCCESS <->
  ends_in_success (r_read (auth_loop o script q tz stacked conv)) = true.
Proof.
  intros o script. induction script as [|ev rest IH]; intros q tz stacked conv Hs.
  - destruct tz; cbn; split; discriminate.
  - destruct tz; [cbn; split; discriminate|].
    rewrite auth_loop_cons. pose proof (on_reply_spec o ev stacked conv Hs) as Hr.
    destruct (snd (on_reply o ev stacked conv)) as [c|q' tz' st' conv'].
    + cbn [r_out r_read stop ends_in_success]. destruct (is_success ev).
      * subst c. split; reflexivity.
      * split; [intros [=]; contradiction | discriminate].
    + destruct Hr as [Hc Hs']. cbn [r_out r_read]. rewrite (ends_in_success_continuing _ _ Hc).
      apply IH, Hs'.
Qed.

(* [served_count] recovers what the module read: each request but a last unanswered one got the
   next event of the script *)
Lemma served_stop : forall e script,
  firstn (N.to_nat (served_count (stop e) script)) script = r_read (stop e).
Proof.
  intros e script. unfold served_count. cbn [stop r_reqs length N.of_nat]. rewrite N.min_0_l. reflexivity.
Qed.

Lemma served_cons : forall r q ks ev script,
  firstn (N.to_nat (served_count r script)) script = r_read r ->
  firstn (N.to_nat (served_count (mkrun (r_out r) (q :: r_reqs r) ks (ev :: r_read r)) (ev :: script)))
         (ev :: script) = ev :: r_read r.
Proof.
  intros r q ks ev script H. unfold served_count in *. cbn [r_reqs length].
  rewrite !Nat2N.inj_succ, <- N.succ_min_distr, N2Nat.inj_succ. cbn [firstn]. rewrite H. reflexivity.
Qed.

Lemma loop_served : forall o script q tz stacked conv,
  firstn (N.to_nat (served_count (auth_loop o script q tz stacked conv) script)) script =
  r_read (auth_loop o script q tz stacked conv).
Proof.
  intros o script. induction script as [|ev rest IH]; intros q tz stacked conv.
  - destruct tz; apply firstn_nil.
  - destruct tz; [apply served_stop|]. rewrite auth_loop_cons. apply served_cons.
    destruct (snd (on_reply o ev stacked conv)); [apply served_stop | apply IH].
Qed.

Lemma connected_success_iff : forall o h script, handler_sane h = true ->
  r_out (auth_connected o h script) = ORet PAM_SUCCESS <->
  ends_in_success (r_read (auth_connected o h script)) = true.
Proof.
  intros o h script H. destruct (handler_sane_parts h H) as (H1 & H2 & H3 & H4). unfold auth_connected.
  destruct (h_service h) as [u|e]; [|apply sane_err in H1; split; [intros [=]; contradiction | discriminate]].
  destruct (h_account h) as [a|e]; [|apply sane_err in H2; split; [intros [=]; contradiction | discriminate]].
  destruct (o_first_pass o); [destruct (h_authtok h) as [st|e]|].
  2: apply sane_err in H3; split; [intros [=]; contradiction | discriminate].
  all: apply loop_success_iff, H4.
Qed.

Lemma connected_served : forall o h script,
  firstn (N.to_nat (served_count (auth_connected o h script) script)) script =
  r_read (auth_connected o h script).
Proof.
  intros o h script. unfold auth_connected.
  destruct (h_service h); [|apply served_stop].
  destruct (h_account h); [|apply served_stop].
  destruct (o_first_pass o); [destruct (h_authtok h); [|apply served_stop]|]; apply loop_served.
Qed.

Lemma connected_read_prefix : forall o h script,
  exists rest, script = r_read (auth_connected o h script) ++ rest.
Proof.
  intros o h script. rewrite <- connected_served. eexists. symmetry. apply firstn_skipn.
Qed.

Lemma VOk_inj : forall a b, KV.C30.Model.VOk a = KV.C30.Model.VOk b -> a = b.
Proof. intros a b H. injection H as H. exact H. Qed.

Lemma sha_check_fixed : forall is512 cred f,
  KV.C30.Model.sha_check_gen true is512 cred f =
  if negb is512 && negb (KV.C30.Model.sha256_field_ok f) then KV.C30.Model.VOk false
  else KV.C30.Model.sha_check_gen false is512 cred f.
Proof.
  intros is512 cred f. unfold KV.C30.Model.sha_check_gen, KV.C30.Model.sha_prepare_gen. cbn [andb].
  destruct (negb is512 && negb (KV.C30.Model.sha256_field_ok f)); reflexivity.
Qed.

Lemma check_pw_fixed : forall yt f cred,
  check_pw_gen true yt f cred = if field_guard f then check_pw_gen false yt f cred else PwOk false.
Proof.
  intros yt f cred. unfold check_pw_gen, field_guard. destruct (classify f); try reflexivity.
  rewrite sha_check_fixed. destruct (KV.C30.Model.sha256_field_ok f); reflexivity.
Qed.

Lemma PwOk_true : forall b, PwOk b = PwOk true <-> b = true.
Proof. intro b. split; [intros [= ->] | intros ->]; reflexivity. Qed.

Lemma check_pw_true_iff : forall yt f cred,
  check_pw_gen false yt f cred = PwOk true <-> supported f = true /\ crypt_verifies yt f cred = true.
Proof.
  intros yt f cred. rewrite <- andb_true_iff.
  unfold check_pw_gen, supported, crypt_verifies, KV.C30.Model.sha_check_gen.
  destruct (classify f); cbn [andb].
  1,2: destruct (KV.C30.Model.sha_prepare_gen false _ f) as [| |salt r d]; cbv zeta.
  (* SCPanic: check_pw panics and crypt_verifies says no *)
  2,5: split; discriminate.
  (* everywhere else both sides hold the same boolean *)
  all: apply PwOk_true.
Qed.

Lemma check_pw_fixed_true_iff : forall yt f cred,
  check_pw_gen true yt f cred = PwOk true <->
  supported f = true /\ field_guard f = true /\ crypt_verifies yt f cred = true.
Proof.
  intros yt f cred. rewrite check_pw_fixed.
  destruct (field_guard f); [rewrite check_pw_true_iff; tauto | split; [discriminate | intros (_ & [=] & _)]].
Qed.

Lemma check_pw_true_only : forall fixed yt f cred,
  check_pw_gen fixed yt f cred = PwOk true -> supported f = true /\ crypt_verifies yt f cred = true.
Proof.
  intros [|] yt f cred H; [apply check_pw_fixed_true_iff in H; tauto | apply check_pw_true_iff; exact H].
Qed.

Lemma check_pw_invalid : forall fixed yt f cred,
  classify f = CInvalid -> check_pw_gen fixed yt f cred = PwOk false.
Proof. intros fixed yt f cred H. unfold check_pw_gen. rewrite H. reflexivity. Qed.

Lemma check_pw_sha : forall fixed yt f cred (is512 : bool) salt r d,
  classify f = (if is512 then CSha512 else CSha256) ->
  KV.C30.Model.sha_prepare_gen fixed is512 f = KV.C30.Model.SCCompare salt r d ->
  check_pw_gen fixed yt f cred =
  PwOk (beqb (KV.C30.Proofs.crypt_field is512 cred salt r)
             (firstn (KV.C30.Proofs.crypt_len is512) (d ++ repeat 0 (KV.C30.Proofs.crypt_len is512)))).
Proof.
  intros fixed yt f cred is512 salt r d Hc Hp. unfold check_pw_gen. rewrite Hc.
  destruct is512; rewrite (KV.C30.Proofs.sha_check_compare _ _ _ _ _ _ _ Hp); reflexivity.
Qed.

(* 36 = '$' *)
Lemma classify_no_dollar : forall f, hd_error f <> Some 36 -> classify f = CInvalid.
Proof.
  intros [|c f] H; [reflexivity|]. cbn in H.
  destruct (N.eq_dec c 36) as [->|Hn]; [congruence|].
  unfold classify. destruct c as [|p]; [reflexivity|].
  do 6 (destruct p as [p|p|]; try reflexivity). congruence.
Qed.

Lemma fallback_verdict : forall fixed o h ct users shadow yt ent cred,
  local_entry h users shadow = Some ent -> expired ct ent = false ->
  supplied_password o h = Some cred ->
  r_out (auth_fallback_gen fixed o h ct users shadow yt) =
  match check_pw_gen fixed yt (s_pw ent) cred with
  | PwOk true => ORet PAM_SUCCESS
  | PwOk false => ORet PAM_AUTH_ERR
  | PwPanic => OPanic
  end.
Proof.
  intros fixed o h ct users shadow yt ent cred He Hx Hc.
  unfold auth_fallback_gen, local_entry, supplied_password in *.
  destruct (h_account h) as [acct|]; [|discriminate].
  destruct (user_known acct users); [|discriminate]. rewrite He, Hx.
  destruct (o_first_pass o); [destruct (h_authtok h) as [[c|]|]; [injection Hc as -> | | discriminate]|];
    try (destruct (h_conv h) as [|[[c|]|] conv]; try discriminate; injection Hc as ->; cbn [pop]);
    destruct (check_pw_gen fixed yt (s_pw ent) cred) as [[|]|]; reflexivity.
Qed.

Lemma fallback_success_check : forall fixed o h ct users shadow yt, handler_sane h = true ->
  r_out (auth_fallback_gen fixed o h ct users shadow yt) = ORet PAM_SUCCESS <->
  exists ent cred, local_entry h users shadow = Some ent /\ expired ct ent = false /\
                   supplied_password o h = Some cred /\
                   check_pw_gen fixed yt (s_pw ent) cred = PwOk true.
Proof.
  intros fixed o h ct users shadow yt H. split.
  - destruct (handler_sane_parts h H) as (_ & H2 & H3 & H4).
    unfold auth_fallback_gen, local_entry, supplied_password.
    destruct (h_account h) as [acct|e]; [|apply sane_err in H2; intros [=]; contradiction].
    destruct (user_known acct users); [|destruct (o_ignore_unknown o); discriminate].
    destruct (find_shadow acct shadow) as [ent|]; [|destruct (o_ignore_unknown o); discriminate].
    destruct (expired ct ent) eqn:Ex; [discriminate|].
    (* the password is the stacked token, or the answer to the prompt (reached in two ways) *)
    destruct (o_first_pass o); [destruct (h_authtok h) as [[c|]|e]; [| |apply sane_err in H3; intros [=]; contradiction]|].
    2,3: destruct (h_conv h) as [|[[c|]|e] conv];
      [discriminate | | discriminate | apply conv_sane_cons in H4; intros [=]; contradiction].
    all: cbn [pop asked stop r_out]; destruct (check_pw_gen fixed yt (s_pw ent) c) as [[|]|] eqn:Ec;
      try discriminate; intros _; exists ent, c; auto.
  - intros (ent & cred & He & Hx & Hc & Hv). rewrite (fallback_verdict _ _ _ _ _ _ _ _ _ He Hx Hc), Hv. reflexivity.
Qed.

Lemma fallback_legit_iff : forall o h ct users shadow yt,
  fallback_legit o h ct users shadow yt = true <->
  exists ent cred, local_entry h users shadow = Some ent /\ expired ct ent = false /\
                   supplied_password o h = Some cred /\
                   supported (s_pw ent) = true /\ crypt_verifies yt (s_pw ent) cred = true.
Proof.
  intros. unfold fallback_legit.
  destruct (local_entry h users shadow) as [ent|]; [|split; [discriminate | intros (? & ? & [=] & _)]].
  destruct (supplied_password o h) as [cred|]; [|split; [discriminate | intros (? & ? & _ & _ & [=] & _)]].
  rewrite !andb_true_iff, negb_true_iff. split.
  - intros [[Hx Hs] Hv]. now exists ent, cred.
  - intros (? & ? & [= <-] & Hx & [= <-] & Hs & Hv). auto.
Qed.

Lemma fallback_success_only_when : forall fixed o h ct users shadow yt, handler_sane h = true ->
  r_out (auth_fallback_gen fixed o h ct users shadow yt) = ORet PAM_SUCCESS ->
  fallback_legit o h ct users shadow yt = true.
Proof.
  intros fixed o h ct users shadow yt H E.
  apply (fallback_success_check fixed o h ct users shadow yt H) in E as (ent & cred & H1 & H2 & H3 & H4).
  apply fallback_legit_iff. exists ent, cred. repeat split; try assumption; apply (check_pw_true_only _ _ _ _ H4).
Qed.

Definition service_ok (h : handler) : bool := match h_service h with HOk _ => true | HErr _ => false end.

Lemma acct_success_iff : forall o h src ct, handler_sane h = true ->
  r_out (acct_mgmt o h src ct) = ORet PAM_SUCCESS <->
  service_ok h = true /\
  match src with
  | SDaemon script => exists rest, script = DPamStatus (Some true) :: rest /\ exists a, h_account h = HOk a
  | SFallback users shadow =>
      exists ent, local_entry h (recs users) (recs shadow) = Some ent /\ expired ct ent = false
  end.
Proof.
  intros o h src ct H. destruct (handler_sane_parts h H) as (H1 & H2 & _).
  unfold acct_mgmt, service_ok, local_entry.
  destruct (h_service h) as [u|e]; [|apply sane_err in H1; split; [intros [=]; contradiction | intros [[=] _]]].
  destruct (h_account h) as [acct|e].
  2:{ apply sane_err in H2. split; [intros [=]; contradiction|].
      destruct src; [intros [_ (? & _ & ? & [=])] | intros [_ (? & [=] & _)]]. }
  destruct src as [script|users shadow].
  - destruct script as [|ev rest]; [split; [discriminate | intros [_ (? & [=] & _)]]|]. split.
    + intro E. split; [reflexivity|]. exists rest. split; [|now exists acct].
      destruct ev as [| |[[|]|]| | |]; try discriminate E; [reflexivity | destruct (o_ignore_unknown o); discriminate].
    + now intros [_ (? & [= -> _] & _)].
  - destruct (user_known acct (recs users)), (find_shadow acct (recs shadow)) as [ent|].
    2-4: split; [destruct (o_ignore_unknown o); discriminate | intros [_ (? & [=] & _)]].
    destruct (expired ct ent) eqn:Ex; split.
    + discriminate.
    + intros [_ (? & [= <-] & Hx)]. congruence.
    + intros _. now split; [|exists ent].
    + reflexivity.
Qed.

Lemma acct_success_legit : forall o h src ct, handler_sane h = true ->
  r_out (acct_mgmt o h src ct) = ORet PAM_SUCCESS ->
  acct_legit h src ct (r_read (acct_mgmt o h src ct)) = true.
Proof.
  intros o h src ct H E. apply (acct_success_iff o h src ct H) in E as [Hs Hl].
  unfold service_ok in Hs. unfold acct_mgmt, acct_legit. destruct (h_service h) as [u|]; [|discriminate].
  destruct src as [script|users shadow].
  - destruct Hl as (rest & -> & a & ->). reflexivity.
  - destruct Hl as (ent & -> & ->). reflexivity.
Qed.

Lemma acct_served : forall o h src ct,
  firstn (N.to_nat (served_count (acct_mgmt o h src ct) (script_of src))) (script_of src) =
  r_read (acct_mgmt o h src ct).
Proof.
  intros o h src ct. unfold acct_mgmt.
  destruct (h_service h) as [u|e]; [|apply served_stop].
  destruct (h_account h) as [a|e]; [|apply served_stop].
  destruct src as [script|users shadow]; cbn [script_of].
  - destruct script as [|ev rest]; [reflexivity|]. exact (served_cons (stop _) _ _ _ _ (served_stop _ _)).
  - destruct (user_known a (recs users)), (find_shadow a (recs shadow)) as [ent|];
      try destruct (expired ct ent); apply served_stop.
Qed.

Lemma outcome_eqb_eq : forall a b, outcome_eqb a b = true -> a = b.
Proof.
  intros [x|] [y|]; cbn; try discriminate; [|reflexivity].
  intro H. apply N.eqb_eq in H. subst. reflexivity.
Qed.

Lemma agree_implies_pcheck : forall c, agree c = true -> pcheck c = true.
Proof.
  intros c H. unfold agree in H.
  apply andb_true_iff in H as [H H4]. apply andb_true_iff in H as [H H3].
  apply andb_true_iff in H as [H1 H2]. apply outcome_eqb_eq in H1. apply N.eqb_eq in H4.
  unfold pcheck. destruct (handler_sane (c_h c)) eqn:Hs; [|reflexivity]. cbn [negb].
  destruct (i_out c) as [[|p]|] eqn:Eo; try reflexivity.
  unfold model_run in *. destruct (c_op c).
  - (* sm_authenticate *)
    unfold authenticate in *. destruct (c_src c) as [script|users shadow].
    + cbn [script_of] in H4. rewrite <- H4, connected_served.
      apply connected_success_iff; [exact Hs | exact H1].
    + apply (fallback_success_only_when tree_fixed); [exact Hs | exact H1].
  - (* acct_mgmt *)
    rewrite <- H4, acct_served. apply (acct_success_legit _ _ _ _ Hs). exact H1.
Qed.
