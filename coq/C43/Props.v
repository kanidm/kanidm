(* KV.C43.Props — PAM fails closed: the property theorems.
   All of them quantify over EVERY handler behaviour, option set, daemon script (any length), passwd and
   shadow file, current time and yescrypt oracle table.  [handler_sane h] is the PAM contract the
   property presupposes: the PAM library never reports a FAILED call with the code PAM_SUCCESS
   (pam/module.rs builds every Err from `res != PAM_SUCCESS` or a constant error code);
   C43_handler_contract_needed shows the premise cannot be dropped. *)
From Coq Require Import List NArith ZArith Bool.
Require Import KV.C29.Hash KV.C30.Prim.
Require KV.C30.Model.
Require Import KV.C43.Model KV.C43.Proofs.
Import ListNotations.
Open Scope N_scope.

(* Daemon mode.  sm_authenticate_connected returns PAM_SUCCESS exactly when the replies it read
   from the resolver are: any number of continuing replies (password / pin / MFA / device-grant
   prompts, all answered), and then, as the LAST thing read, an explicit Success reply.  What it
   read is a prefix of what the daemon had to say. *)
Theorem C43_daemon_success_iff : forall o h script, handler_sane h = true ->
  r_out (auth_connected o h script) = ORet PAM_SUCCESS <->
  exists pre sid rest,
    script = pre ++ DStep RSuccess sid :: rest /\
    r_read (auth_connected o h script) = pre ++ [DStep RSuccess sid] /\
    Forall (fun e => continuing e = true) pre.
Proof.
  intros o h script H. rewrite (connected_success_iff o h script H), ends_in_success_char.
  destruct (connected_read_prefix o h script) as [rest Hp]. split.
  - intros (pre & e & Hr & Hs & Hf). destruct e as [[] sid| | | | |]; try discriminate Hs.
    exists pre, sid, rest. repeat split; [|exact Hr | exact Hf].
    rewrite Hp at 1. rewrite Hr, <- app_assoc. reflexivity.
  - intros (pre & sid & rest' & _ & Hr & Hf). exists pre, (DStep RSuccess sid).
    repeat split; [exact Hr | exact Hf].
Qed.

(* Every error, unknown user, refusal, reply of the wrong kind, undecodable frame or disconnect
   that the module reads — at ANY point of the conversation — makes the result non-success:
   nothing that follows can turn it into a success. *)
Theorem C43_daemon_faults_never_success : forall o h script e, handler_sane h = true ->
  In e (r_read (auth_connected o h script)) -> is_fault e = true ->
  r_out (auth_connected o h script) <> ORet PAM_SUCCESS.
Proof.
  intros o h script e H Hin Hf E. apply (connected_success_iff o h script H) in E.
  rewrite (success_no_fault _ _ E Hin) in Hf. discriminate.
Qed.

(* A daemon that never says Success — whatever else it says, however it fails, however early it
   goes away (including the empty script: it accepts the connection and says nothing) — never
   yields PAM_SUCCESS. *)
Theorem C43_daemon_without_success_reply : forall o h script, handler_sane h = true ->
  existsb is_success script = false ->
  r_out (auth_connected o h script) <> ORet PAM_SUCCESS.
Proof.
  intros o h script H Hn E. apply (connected_success_iff o h script H) in E.
  apply success_has_success in E. destruct (connected_read_prefix o h script) as [rest Hp].
  rewrite Hp, existsb_app, E in Hn. discriminate.
Qed.

(* Fallback mode, "only when": with or without the sha256 hash-field guard ([fixed]), PAM_SUCCESS
   means: the account is in /etc/passwd, its FIRST /etc/shadow entry has not expired, that
   entry's password field is a $5$ / $6$ / $y$ string, and the password the user supplied (stacked
   token or prompt answer) verifies against it — for $5$ / $6$: rounds, salt and digest fields parse
   and the digest is the sha-crypt digest of the password; for $y$: the oracle. *)
Theorem C43_fallback_success_only_when : forall fixed o h ct users shadow yt, handler_sane h = true ->
  r_out (auth_fallback_gen fixed o h ct users shadow yt) = ORet PAM_SUCCESS ->
  exists ent cred,
    local_entry h users shadow = Some ent /\ expired ct ent = false /\
    supplied_password o h = Some cred /\
    supported (s_pw ent) = true /\ crypt_verifies yt (s_pw ent) cred = true.
Proof.
  intros fixed o h ct users shadow yt H E.
  apply fallback_legit_iff, (fallback_success_only_when fixed); assumption.
Qed.

(* ... and on the tree as it is (with the hash-field guard of /repo 054a9cd) the characterisation
   is exact once the guard is named: a "$5$" field must also carry a canonical 43-character hash. *)
Theorem C43_fallback_success_iff : forall o h ct users shadow yt, handler_sane h = true ->
  r_out (auth_fallback_gen true o h ct users shadow yt) = ORet PAM_SUCCESS <->
  exists ent cred,
    local_entry h users shadow = Some ent /\ expired ct ent = false /\
    supplied_password o h = Some cred /\
    supported (s_pw ent) = true /\ field_guard (s_pw ent) = true /\
    crypt_verifies yt (s_pw ent) cred = true.
Proof.
  intros o h ct users shadow yt H. rewrite (fallback_success_check true o h ct users shadow yt H).
  setoid_rewrite check_pw_fixed_true_iff. reflexivity.
Qed.

(* kanidm before 054a9cd (fixed = false: no guard; it panics on malformed "$5$" hash fields, see
   C43_witness_sha256_panic): the characterisation without the guard is exact. *)
Theorem C43_prefix_fallback_success_iff : forall o h ct users shadow yt, handler_sane h = true ->
  r_out (auth_fallback_gen false o h ct users shadow yt) = ORet PAM_SUCCESS <->
  exists ent cred,
    local_entry h users shadow = Some ent /\ expired ct ent = false /\
    supplied_password o h = Some cred /\
    supported (s_pw ent) = true /\ crypt_verifies yt (s_pw ent) cred = true.
Proof.
  intros o h ct users shadow yt H. rewrite (fallback_success_check false o h ct users shadow yt H).
  setoid_rewrite check_pw_true_iff. reflexivity.
Qed.

(* Locked and empty password fields never authenticate: if the shadow entry in force does not
   begin with '$' ("!", "*", "x", "", "!!", "*LK*", "!$6$..." — a valid hash behind a lock mark),
   the result is never PAM_SUCCESS, for every password, option and time. *)
Theorem C43_locked_never : forall fixed o h ct users shadow yt, handler_sane h = true ->
  (forall ent, local_entry h users shadow = Some ent -> hd_error (s_pw ent) <> Some 36) ->
  r_out (auth_fallback_gen fixed o h ct users shadow yt) <> ORet PAM_SUCCESS.
Proof.
  intros fixed o h ct users shadow yt H Hl E.
  apply (C43_fallback_success_only_when fixed o h ct users shadow yt H) in E
    as (ent & cred & H1 & _ & _ & H4 & _).
  unfold supported in H4. rewrite (classify_no_dollar _ (Hl ent H1)) in H4. discriminate.
Qed.

(* The same for every unsupported scheme ($1$, $2b$, ...): only the three prefixes count. *)
Theorem C43_unsupported_never : forall fixed o h ct users shadow yt, handler_sane h = true ->
  (forall ent, local_entry h users shadow = Some ent -> classify (s_pw ent) = CInvalid) ->
  r_out (auth_fallback_gen fixed o h ct users shadow yt) <> ORet PAM_SUCCESS.
Proof.
  intros fixed o h ct users shadow yt H Hl E.
  apply (C43_fallback_success_only_when fixed o h ct users shadow yt H) in E
    as (ent & cred & H1 & _ & _ & H4 & _).
  unfold supported in H4. rewrite (Hl ent H1) in H4. discriminate.
Qed.

(* Unknown users and expired accounts never authenticate locally. *)
Theorem C43_unknown_or_expired_never : forall fixed o h ct users shadow yt, handler_sane h = true ->
  (forall ent, local_entry h users shadow = Some ent -> expired ct ent = true) ->
  r_out (auth_fallback_gen fixed o h ct users shadow yt) <> ORet PAM_SUCCESS.
Proof.
  intros fixed o h ct users shadow yt H Hl E.
  apply (C43_fallback_success_only_when fixed o h ct users shadow yt H) in E
    as (ent & cred & H1 & H2 & _).
  rewrite (Hl ent H1) in H2. discriminate.
Qed.

(* acct_mgmt: PAM_SUCCESS exactly when the service information could be read and either the
   account id could be read and the daemon's one reply is PamStatus(Some(true)), or (fallback) the
   account is known to both files and its entry has not expired. *)
Theorem C43_acct_success_iff : forall o h src ct, handler_sane h = true ->
  r_out (acct_mgmt o h src ct) = ORet PAM_SUCCESS <->
  service_ok h = true /\
  match src with
  | SDaemon script => exists rest, script = DPamStatus (Some true) :: rest /\ exists a, h_account h = HOk a
  | SFallback users shadow =>
      exists ent, local_entry h (recs users) (recs shadow) = Some ent /\ expired ct ent = false
  end.
Proof. exact acct_success_iff. Qed.

(* The entry point sm_authenticate (the tree as it is, tree_fixed): success only when the daemon
   explicitly reported success, or — daemon unreachable — the local entry is supported, verifies the
   supplied password and has not expired. *)
Theorem C43_authenticate_success_only_when : forall o h src ct yt, handler_sane h = true ->
  r_out (authenticate o h src ct yt) = ORet PAM_SUCCESS ->
  match src with
  | SDaemon script =>
      exists pre sid rest, script = pre ++ DStep RSuccess sid :: rest /\
                           r_read (authenticate o h src ct yt) = pre ++ [DStep RSuccess sid] /\
                           Forall (fun e => continuing e = true) pre
  | SFallback users shadow =>
      exists ent cred,
        local_entry h (recs users) (recs shadow) = Some ent /\ expired ct ent = false /\
        supplied_password o h = Some cred /\
        supported (s_pw ent) = true /\ crypt_verifies yt (s_pw ent) cred = true
  end.
Proof.
  intros o h src ct yt H E. destruct src as [script|users shadow]; cbn [authenticate] in *.
  - apply (C43_daemon_success_iff o h script H). exact E.
  - apply (C43_fallback_success_only_when tree_fixed o h ct (recs users) (recs shadow) yt H). exact E.
Qed.

(* The PAM contract premise cannot be dropped: a handler whose failed call carries PAM_SUCCESS
   makes the module return that code without any daemon reply. *)
Theorem C43_handler_contract_needed :
  ~ (forall o h script, r_out (auth_connected o h script) = ORet PAM_SUCCESS ->
                        ends_in_success (r_read (auth_connected o h script)) = true).
Proof.
  intro H. specialize (H (mkO false false) (mkH (HErr 0) (HOk []) (HOk None) []) [] eq_refl).
  discriminate H.
Qed.

(* Bridge to the run: on every case where the model reproduces the implementation's result,
   requests, conversation calls and number of served replies, the property's predicate holds of
   what the implementation did. *)
Theorem C43_agree_implies_property : forall c, agree c = true -> pcheck c = true.
Proof. exact agree_implies_pcheck. Qed.
