(* Stated with `sound` (over `sup` and `exact`) of KV.C01.Proofs: what a candidate set has to satisfy for a
   truth function on the stored ids. *)
From Coq Require Import List NArith Bool.
Import ListNotations.
Require Import KV.Base.Filter KV.C01.Model KV.C01.Proofs.
Open Scope N_scope.

(* For ANY stored id set, ANY per-entry leaf semantics, ANY threshold and ANY index oracle whose
   leaf answers are sound (Indexed = exactly the matching stored ids, Partial = a superset,
   AllIds = no information) — i.e. any index layout, slope or statistic — and ANY user filter
   tree (unbounded nesting of AND / OR / NOT over the six leaf kinds) in which every NOT is a term
   of an AND with a positive term, the candidate set filter2idl computes is sound for the
   reference boolean semantics (NOT = complement). *)
Theorem C01_f2i_sound :
  forall (univ : list N) (sem : N -> leafsem) (orc : leafkind -> N -> N -> slope -> idl) (thres : N),
    (forall k a v s, sound univ (fun x => sem x k a v) (orc k a v s)) ->
    forall f, user_filter f = true -> unguarded f = false ->
      sound univ (fun x => ematch (sem x) f) (f2i orc thres f).
Proof. exact f2i_sound. Qed.

(* ... and the candidate set that search and exists actually start from (all ids when an AndNot
   is not guarded by a positive And term) is sound for EVERY user filter. *)
Theorem C01_cand_sound :
  forall (univ : list N) (sem : N -> leafsem) (orc : leafkind -> N -> N -> slope -> idl) (thres : N),
    (forall k a v s, sound univ (fun x => sem x k a v) (orc k a v s)) ->
    forall f, user_filter f = true ->
      sound univ (fun x => ematch (sem x) f) (cand orc thres f).
Proof. exact cand_sound. Qed.

(* Search: an explicit error, or EXACTLY the stored entries that satisfy the filter. *)
Theorem C01_search_exact :
  forall univ sem orc thres,
    (forall k a v s, sound univ (fun x => sem x k a v) (orc k a v s)) ->
    forall lim f, user_filter f = true ->
      match be_search lim univ (fun x => ematch (sem x) f) (cand orc thres f) with
      | SErr => True
      | SOk r => forall x, In x r <-> In x univ /\ ematch (sem x) f = true
      end.
Proof. exact be_search_exact. Qed.

(* Exists: an explicit error, or true iff some stored entry satisfies the filter. *)
Theorem C01_exists_exact :
  forall univ sem orc thres,
    (forall k a v s, sound univ (fun x => sem x k a v) (orc k a v s)) ->
    forall lim f, user_filter f = true ->
      (forall s, cand orc thres f = Indexed s -> forall x, In x s -> In x univ) ->
      match be_exists lim univ (fun x => ematch (sem x) f) (cand orc thres f) with
      | EErr => True
      | EOk b => b = true <-> exists x, In x univ /\ ematch (sem x) f = true
      end.
Proof. exact be_exists_exact. Qed.

(* The answer never depends on what is indexed: two sound oracles (two index layouts, two
   thresholds) over the same entries give the same members whenever both answer. *)
Theorem C01_layout_independent :
  forall univ sem orc1 orc2 th1 th2 lim1 lim2 f r1 r2,
    (forall k a v s, sound univ (fun x => sem x k a v) (orc1 k a v s)) ->
    (forall k a v s, sound univ (fun x => sem x k a v) (orc2 k a v s)) ->
    user_filter f = true ->
    be_search lim1 univ (fun x => ematch (sem x) f) (cand orc1 th1 f) = SOk r1 ->
    be_search lim2 univ (fun x => ematch (sem x) f) (cand orc2 th2 f) = SOk r2 ->
    forall x, In x r1 <-> In x r2.
Proof.
  intros univ sem orc1 orc2 th1 th2 lim1 lim2 f r1 r2 H1 H2 Hu E1 E2 x.
  pose proof (be_search_exact univ sem orc1 th1 H1 lim1 f Hu) as S1.
  pose proof (be_search_exact univ sem orc2 th2 H2 lim2 f Hu) as S2.
  unfold tru in S1, S2. rewrite E1 in S1. rewrite E2 in S2.
  rewrite (S1 x), (S2 x). tauto.
Qed.

(* Soundness of the run-time tie: on a recorded backend case whose leaf answers pass the
   soundness check, agreement of the real search answer with the model's forces the real answer
   to be exactly the reference-semantics result (so zero disagreements transfer C01_search_exact
   to every observed implementation case). *)
Theorem C01_agree_implies_search_exact :
  forall univ ls f thres lim ii isr ier itrue,
    forallb (leaf_ok univ ls) ls = true -> user_filter f = true ->
    agree (CBe univ ls f thres lim ii isr ier itrue) = true ->
    match isr with SErr => True | SOk r => set_eqb r (ref_result univ ls f) = true end.
Proof. exact agree_search_exact. Qed.
