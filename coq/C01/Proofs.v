(* Soundness of the candidate-set algebra (f2i, cand) for the reference boolean semantics, and what it gives
   for search, exists and a recorded backend case. *)
From Coq Require Import List NArith Bool.
Import ListNotations.
Require Import KV.Base.Filter KV.C01.Model.
Open Scope N_scope.

Lemma mem_In x s : mem x s = true <-> In x s.
Proof.
  unfold mem. rewrite existsb_exists. split.
  - intros [y [Hy E]]. apply N.eqb_eq in E. subst. exact Hy.
  - intros H. exists x. split; [exact H | apply N.eqb_refl].
Qed.
Lemma mem_false x s : mem x s = false <-> ~ In x s.
Proof. rewrite <- mem_In. symmetry. apply not_true_iff_false. Qed.
Lemma In_inter x a b : In x (inter_ a b) <-> In x a /\ In x b.
Proof. unfold inter_. rewrite filter_In, mem_In. tauto. Qed.
Lemma In_diff x a b : In x (diff_ a b) <-> In x a /\ ~ In x b.
Proof. unfold diff_. rewrite filter_In, negb_true_iff, mem_false. tauto. Qed.
Lemma In_union x a b : In x (union_ a b) <-> In x a \/ In x b.
Proof.
  unfold union_. rewrite in_app_iff, In_diff.
  destruct (mem x a) eqn:E; [apply mem_In in E | apply mem_false in E]; tauto.
Qed.
Lemma isnil_spec s : isnil s = true -> s = [].
Proof. destruct s; [reflexivity | discriminate]. Qed.
Lemma nonnil_iff (l : list N) (Q : N -> Prop) :
  (forall x, In x l <-> Q x) -> (negb (isnil l) = true <-> exists x, Q x).
Proof.
  intros H. destruct l as [|y r]; cbn [isnil negb]; split; try reflexivity.
  - discriminate.
  - intros [x Hx]. destruct (proj2 (H x) Hx).
  - intros _. exists y. apply H. left. reflexivity.
Qed.

Lemma existsb_false {A} (p : A -> bool) l : existsb p l = false -> forall x, In x l -> p x = false.
Proof.
  intros H x Hx. apply not_true_iff_false. intros E.
  rewrite (proj2 (existsb_exists p l)) in H by (exists x; auto). discriminate H.
Qed.
Lemma forallb_ext {A} (f g : A -> bool) l : (forall x, f x = g x) -> forallb f l = forallb g l.
Proof. intros E. induction l as [|x r IH]; cbn; [reflexivity|]. rewrite E, IH. reflexivity. Qed.
Lemma filter_of_map {A B} (p : B -> bool) (g : A -> B) l :
  filter p (map g l) = map g (filter (fun a => p (g a)) l).
Proof. induction l as [|a r IH]; cbn; [reflexivity|]. rewrite IH. destruct (p (g a)); reflexivity. Qed.

Section Sound.
  Variable univ : list N.

  Definition sup (tru : N -> bool) (s : list N) : Prop :=
    forall x, In x univ -> tru x = true -> In x s.
  Definition exact (tru : N -> bool) (s : list N) : Prop :=
    forall x, In x univ -> (In x s <-> tru x = true).
  Definition sound (tru : N -> bool) (i : idl) : Prop :=
    match i with
    | AllIds => True
    | Partial s | PartialThreshold s => sup tru s
    | Indexed s => exact tru s
    end.
  Definition imp (A C : N -> bool) : Prop := forall x, In x univ -> A x = true -> C x = true.

  Lemma exact_sup tru s : exact tru s -> sup tru s.
  Proof. intros H x Hx Ht. apply (H x Hx). exact Ht. Qed.
  Lemma sound_sup tru i : sound tru i ->
    match i with AllIds => True | Partial s | PartialThreshold s | Indexed s => sup tru s end.
  Proof. destruct i; cbn; auto using exact_sup. Qed.
  Lemma sup_weaken A C s : imp A C -> sup C s -> sup A s.
  Proof. intros HA H x Hx Ht. apply H; auto. Qed.
  Lemma sound_ext t1 t2 i : (forall x, In x univ -> t1 x = t2 x) -> sound t1 i -> sound t2 i.
  Proof.
    intros E. assert (I21 : imp t2 t1) by (intros x Hx; rewrite (E x Hx); auto).
    destruct i; cbn; eauto using sup_weaken.
    intros H x Hx. rewrite <- (E x Hx). exact (H x Hx).
  Qed.
  Lemma exact_false : exact (fun _ => false) [].
  Proof. intros x _. split; [intros [] | discriminate]. Qed.
  Lemma imp_and_l P T : imp (fun x => P x && T x) P.
  Proof. intros x _ H. apply andb_true_iff in H. apply H. Qed.
  Lemma imp_and_r P T : imp (fun x => P x && T x) T.
  Proof. intros x _ H. apply andb_true_iff in H. apply H. Qed.

  Lemma sup_union A B a b : sup A a -> sup B b -> sup (fun x => A x || B x) (union_ a b).
  Proof.
    intros Ha Hb x Hx Ht. apply In_union. apply orb_true_iff in Ht as [Ht|Ht]; [left|right]; auto.
  Qed.
  Lemma exact_union A B a b : exact A a -> exact B b -> exact (fun x => A x || B x) (union_ a b).
  Proof. intros Ha Hb x Hx. rewrite In_union, orb_true_iff, (Ha x Hx), (Hb x Hx). reflexivity. Qed.
  Lemma sup_inter A B a b : sup A a -> sup B b -> sup (fun x => A x && B x) (inter_ a b).
  Proof.
    intros Ha Hb x Hx Ht. apply andb_true_iff in Ht as [H1 H2]. apply In_inter. split; auto.
  Qed.
  Lemma exact_inter A B a b : exact A a -> exact B b -> exact (fun x => A x && B x) (inter_ a b).
  Proof. intros Ha Hb x Hx. rewrite In_inter, andb_true_iff, (Ha x Hx), (Hb x Hx). reflexivity. Qed.
  (* only an exactly known set may be subtracted *)
  Lemma sup_diff A B a b : sup A a -> exact B b -> sup (fun x => A x && negb (B x)) (diff_ a b).
  Proof.
    intros Ha Hb x Hx Ht. apply andb_true_iff in Ht as [H1 H2]. apply negb_true_iff in H2.
    apply In_diff. split; [auto|]. rewrite (Hb x Hx), H2. discriminate.
  Qed.
  Lemma exact_diff A B a b : exact A a -> exact B b -> exact (fun x => A x && negb (B x)) (diff_ a b).
  Proof.
    intros Ha Hb x Hx.
    rewrite In_diff, andb_true_iff, negb_true_iff, (Ha x Hx), (Hb x Hx), not_true_iff_false. reflexivity.
  Qed.

  (* `or_comb [] acc p t` is the accumulator read as a candidate set. *)
  Lemma or_step_sound A B acc p t i :
    sound A (or_comb [] acc p t) -> sound B i -> sound (fun x => A x || B x) (or_comb [i] acc p t).
  Proof.
    intros Ha Hb. pose proof (sound_sup _ _ Ha) as Sa. pose proof (sound_sup _ _ Hb) as Sb.
    destruct i, p, t; cbn in *; auto using sup_union, exact_union.
  Qed.

  Lemma or_comb_sound {A} (T : A -> N -> bool) (J : A -> idl) l :
    Forall (fun a => sound (T a) (J a)) l ->
    forall acc p t tacc, sound tacc (or_comb [] acc p t) ->
      sound (fun x => tacc x || existsb (fun a => T a x) l) (or_comb (map J l) acc p t).
  Proof.
    induction 1 as [|a r Ha _ IH]; intros acc p t tacc Hacc; cbn [map existsb].
    - apply (sound_ext tacc); [intros x _; symmetry; apply orb_false_r | exact Hacc].
    - apply (sound_ext (fun x => (tacc x || T a x) || existsb (fun a => T a x) r));
        [intros x _; symmetry; apply orb_assoc |].
      pose proof (or_step_sound _ _ _ _ _ _ Hacc Ha) as Hs.
      destruct (J a); cbn [or_comb]; [exact I | apply IH; exact Hs ..].
  Qed.

  (* And: an early `return` is followed by no further intersection, yet the conjunction has
     more terms: it must be sound for everything that implies the conjunction C reached so far. *)
  Definition early_ok (C : N -> bool) (ret : idl) : Prop := forall A, imp A C -> sound A ret.
  Definition step_ok (C : N -> bool) (r : idl + idl) : Prop :=
    match r with inl ret => early_ok C ret | inr c => sound C c end.

  Lemma early_ok_sup C s : sup C s -> early_ok C (PartialThreshold s).
  Proof. intros H A HA. exact (sup_weaken A C s HA H). Qed.
  Lemma early_ok_nil C s : sup C s -> isnil s = true -> early_ok C (Indexed []).
  Proof.
    intros H E A HA x Hx. apply isnil_spec in E. subst s.
    split; [intros [] | intros Ht; destruct (H x Hx (HA x Hx Ht))].
  Qed.
  Lemma early_ok_weaken C C' ret : imp C C' -> early_ok C' ret -> early_ok C ret.
  Proof. intros HC H A HA. apply H. intros x Hx Ht. apply HC, HA; assumption. Qed.
  Lemma step_ok_ext C C' r : (forall x, In x univ -> C x = C' x) -> step_ok C r -> step_ok C' r.
  Proof.
    intros E. destruct r; cbn [step_ok]; [apply early_ok_weaken | apply sound_ext, E].
    intros x Hx. rewrite (E x Hx). auto.
  Qed.

  Lemma thr_ret_ok C thres cnt r k : sup C r -> sound C (k r) -> step_ok C (thr_ret thres cnt r k).
  Proof.
    intros Hs Hk. unfold thr_ret.
    destruct (below thres r && (0 <? cnt)); [exact (early_ok_sup C r Hs) | exact Hk].
  Qed.

  Lemma and_step_ok P T thres cnt cand inter :
    sound P cand -> sound T inter -> step_ok (fun x => P x && T x) (and_step thres cnt cand inter).
  Proof.
    intros Hc Hi. pose proof (sound_sup _ _ Hc) as Sc. pose proof (sound_sup _ _ Hi) as Si.
    destruct cand as [|a|a|a], inter as [|b|b|b]; cbn [and_step step_ok sound] in *;
      try exact I;
      try exact (sup_weaken _ _ _ (imp_and_l P T) Sc);                (* inter = AllIds *)
      try exact (sup_weaken _ _ _ (imp_and_r P T) Si);                (* cand = AllIds *)
      try (apply thr_ret_ok; exact (sup_inter _ _ _ _ Sc Si)).        (* one of them a superset *)
    (* both exact *)
    pose proof (sup_inter _ _ _ _ Sc Si) as Hsup.
    destruct (below thres (inter_ a b) && (0 <? cnt)); [exact (early_ok_sup _ _ Hsup)|].
    destruct (isnil (inter_ a b)) eqn:En; [exact (early_ok_nil _ _ Hsup En) | exact (exact_inter _ _ _ _ Hc Hi)].
  Qed.

  Lemma andnot_step_ok P T thres cnt cand inter :
    sound P cand -> sound T inter -> step_ok (fun x => P x && negb (T x)) (andnot_step thres cnt cand inter).
  Proof.
    intros Hc Hi. pose proof (sound_sup _ _ Hc) as Sc.
    destruct cand as [|a|a|a], inter as [|b|b|b]; cbn [andnot_step step_ok sound] in *;
      try exact I;
      try (apply thr_ret_ok; exact (sup_diff _ _ _ _ Sc Hi));         (* negated term exact *)
      try (apply thr_ret_ok; exact (sup_weaken _ _ _ (imp_and_l P _) Sc)).  (* a superset: cand kept *)
    exact (exact_diff _ _ _ _ Hc Hi).
  Qed.

  Definition lit (neg b : bool) : bool := if neg then negb b else b.
  Definition fin (r : idl + idl * N) : idl + idl :=
    match r with inl ret => inl ret | inr (c, _) => inr c end.

  Lemma loop_ok (neg : bool) (step : N -> idl -> idl -> idl + idl)
        (Hstep : forall P T cnt cand inter, sound P cand -> sound T inter ->
                   step_ok (fun x => P x && lit neg (T x)) (step cnt cand inter))
        {A} (T : A -> N -> bool) (J : A -> idl) l :
    Forall (fun a => sound (T a) (J a)) l ->
    forall P cnt cand, sound P cand ->
      step_ok (fun x => P x && forallb (fun a => lit neg (T a x)) l) (fin (loop step cnt cand (map J l))).
  Proof.
    induction 1 as [|a r Ha _ IH]; intros P cnt cand Hc; cbn [map loop forallb].
    - apply (sound_ext P); [intros x _; symmetry; apply andb_true_r | exact Hc].
    - specialize (Hstep P (T a) (cnt - 1) cand (J a) Hc Ha).
      destruct (step (cnt - 1) cand (J a)) as [ret|c]; cbn [fin step_ok] in *.
      + refine (early_ok_weaken _ _ ret _ Hstep). intros x _ Ht.
        rewrite andb_assoc in Ht. apply andb_true_iff in Ht. apply Ht.
      + refine (step_ok_ext _ _ _ _ (IH _ (cnt - 1) c Hstep)). intros x _. symmetry. apply andb_assoc.
  Qed.

  Lemma lits_split {A} (T : A -> N -> bool) (ng : A -> bool) l x :
    forallb (fun a => lit (ng a) (T a x)) l =
    forallb (fun a => T a x) (filter (fun a => negb (ng a)) l) && forallb (fun a => negb (T a x)) (filter ng l).
  Proof.
    induction l as [|a r IH]; [reflexivity|]. cbn [forallb filter]. rewrite IH.
    destruct (ng a); cbn [negb lit forallb]; rewrite !andb_assoc; [f_equal; apply andb_comm | reflexivity].
  Qed.

  (* the exits of and_comb before its loops, taken on the first positive term alone *)
  Lemma first_exit C F thres cnt i main : sound C i -> imp F C -> sound F main ->
    sound F match (match i with
                   | Indexed s | Partial s | PartialThreshold s =>
                       if below thres s && (0 <? cnt) then Some (PartialThreshold s)
                       else if isnil s then Some (Indexed []) else None
                   | AllIds => None
                   end) with Some r => r | None => main end.
  Proof.
    intros Hi HF Hmain. pose proof (sound_sup _ _ Hi) as Si.
    destruct i as [|s|s|s]; [exact Hmain | ..];
      (destruct (below thres s && (0 <? cnt)); [exact (early_ok_sup _ _ Si _ HF)|];
       destruct (isnil s) eqn:En; [exact (early_ok_nil _ _ Si En _ HF) | exact Hmain]).
  Qed.

  (* children of an And: ng a = the child is an AndNot, T a / J a = truth / candidate set of the
     term UNDER the not *)
  Lemma and_comb_sound thres {A} (T : A -> N -> bool) (ng : A -> bool) (J : A -> idl) l :
    Forall (fun a => sound (T a) (J a)) l -> existsb (fun a => negb (ng a)) l = true ->
    sound (fun x => forallb (fun a => lit (ng a) (T a x)) l) (and_comb thres (map (fun a => (ng a, J a)) l)).
  Proof.
    intros HF Hpos.
    apply (sound_ext (fun x => forallb (fun a => T a x) (filter (fun a => negb (ng a)) l)
                               && forallb (fun a => negb (T a x)) (filter ng l)));
      [intros x _; symmetry; apply lits_split |].
    unfold and_comb. rewrite !filter_of_map, !map_map. cbn [fst snd].
    pose proof (incl_Forall (incl_filter (fun a => negb (ng a)) l) HF) as HFp.
    pose proof (incl_Forall (incl_filter ng l) HF) as HFn.
    destruct (filter (fun a => negb (ng a)) l) as [|a1 rest] eqn:Ep.
    { apply existsb_exists in Hpos as [a Ha].
      apply (proj2 (filter_In (fun a => negb (ng a)) a l)) in Ha. rewrite Ep in Ha. destruct Ha. }
    apply Forall_cons_iff in HFp as [H1 H2]. cbn [map forallb]. cbv zeta.
    set (cnt0 := _ - 1). clearbody cnt0.
    set (C1 := fun x => T a1 x && forallb (fun a => T a x) rest).
    apply (first_exit (T a1)); [exact H1 | intros x _ Ht; rewrite !andb_true_iff in Ht; apply Ht |].
    (* the And loop over the other positive terms, then the AndNot loop *)
    pose proof (loop_ok false _ (fun P T => and_step_ok P T thres) T J rest H2 (T a1) cnt0 (J a1) H1) as L1.
    destruct (loop (and_step thres) cnt0 (J a1) (map J rest)) as [ret|[c cnt1]]; cbn [fin step_ok] in L1.
    - exact (L1 _ (imp_and_l C1 _)).
    - pose proof (loop_ok true _ (fun P T => andnot_step_ok P T thres) T J _ HFn C1 cnt1 c L1) as L2.
      destruct (loop (andnot_step thres) cnt1 c (map J (filter ng l))) as [ret|[c2 n2]]; cbn [fin step_ok] in L2.
      + apply L2. intros x _ Ht. exact Ht.
      + exact L2.
  Qed.

  (* the list be_search builds from candidate set i *)
  Definition retest (t : N -> bool) (i : idl) : list N :=
    match i with
    | AllIds => filter t univ
    | Partial s | PartialThreshold s => filter t (filter (fun x => mem x s) univ)
    | Indexed s => filter (fun x => mem x s) univ
    end.

  Lemma retest_exact t i : sound t i -> forall x, In x (retest t i) <-> In x univ /\ t x = true.
  Proof.
    intros Hs x. pose proof (sound_sup _ _ Hs) as Ss.
    destruct i; cbn [retest sound] in *; rewrite ?filter_In, ?mem_In;
      try specialize (Ss x); try specialize (Hs x); tauto.
  Qed.

  Lemma be_search_sound lim t i : sound t i ->
    match be_search lim univ t i with
    | SErr => True
    | SOk r => forall x, In x r <-> In x univ /\ t x = true
    end.
  Proof.
    intros Hs. unfold be_search.
    destruct (match i with AllIds => _ | _ => _ end); [exact I|].
    destruct (_ <? _); [exact I | exact (retest_exact t i Hs)].
  Qed.

  (* For a fully indexed answer exists consults the candidate list itself, so its ids must be stored ids. *)
  Lemma be_exists_sound lim t i : sound t i ->
    (forall s, i = Indexed s -> forall x, In x s -> In x univ) ->
    match be_exists lim univ t i with
    | EErr => True
    | EOk b => b = true <-> exists x, In x univ /\ t x = true
    end.
  Proof.
    intros Hs Hsub. unfold be_exists.
    destruct (match i with AllIds => _ | _ => _ end); [exact I|].
    destruct i as [|s|s|s]; cbv iota; apply nonnil_iff;
      [exact (retest_exact t AllIds Hs) | exact (retest_exact t (Partial s) Hs)
       | exact (retest_exact t (PartialThreshold s) Hs) |].
    intros x. specialize (Hs x). specialize (Hsub s eq_refl x). tauto.
  Qed.

  Variable sem : N -> leafsem.
  Variable orc : leafkind -> N -> N -> slope -> idl.
  Variable thres : N.
  Hypothesis leaf_sound : forall k a v s, sound (fun x => sem x k a v) (orc k a v s).

  Definition tru (f : filt) (x : N) : bool := ematch (sem x) f.

  Definition sound_at (f : filt) : Prop :=
    user_filter f = true -> unguarded f = false -> sound (tru f) (f2i orc thres f).
  (* the term an And consults for its child c *)
  Definition under_not (c : filt) : filt := match c with FAndNot g _ => g | _ => c end.

  Lemma sound_at_under_not f : sound_at (under_not f) -> sound_at f.
  Proof. destruct f; try exact (fun H => H). intros _ _ Hg. discriminate Hg. Qed.

  (* The induction speaks of the term under a not, because that is what the enclosing And needs. *)
  Lemma f2i_sound_under_not : forall f, sound_at (under_not f).
  Proof.
    induction f as [k a v s | l s IH | l s IH | a | l s IH | g s IH] using filt_ind';
      cbn [under_not]; [| | | | | exact (sound_at_under_not g IH)];
      intros Hu Hg; cbn [user_filter unguarded f2i] in *.
    - apply leaf_sound.
    - (* Or *)
      refine (or_comb_sound tru (f2i orc thres) l _ [] false false (fun _ => false) exact_false).
      rewrite Forall_forall in *. rewrite forallb_forall in Hu. intros c Hc.
      exact (sound_at_under_not c (IH c Hc) (Hu c Hc) (existsb_false _ _ Hg c Hc)).
    - (* And *)
      apply orb_false_iff in Hg as [Hpos Hg]. apply negb_false_iff in Hpos.
      rewrite (map_ext _ (fun c => (is_andnot c, f2i orc thres (under_not c)))) by (intros []; reflexivity).
      refine (sound_ext _ _ _ _ (and_comb_sound thres (fun c => tru (under_not c)) is_andnot _ l _ Hpos)).
      + intros x _. apply forallb_ext. intros []; reflexivity.
      + rewrite Forall_forall in *. rewrite forallb_forall in Hu. intros c Hc.
        specialize (Hu c Hc). apply (existsb_false _ _ Hg) in Hc as Hgc.
        apply (IH c Hc); destruct c; assumption.
    - (* Invalid *) exact exact_false.
    - (* Inclusion: not a user filter *) discriminate Hu.
  Qed.

  Theorem f2i_sound : forall f, user_filter f = true -> unguarded f = false ->
    sound (tru f) (f2i orc thres f).
  Proof. intros f. exact (sound_at_under_not f (f2i_sound_under_not f)). Qed.

  Theorem cand_sound : forall f, user_filter f = true -> sound (tru f) (cand orc thres f).
  Proof.
    intros f Hu. unfold cand. destruct (unguarded f) eqn:E; [exact I | apply f2i_sound; assumption].
  Qed.

  Theorem be_search_exact lim f :
    user_filter f = true ->
    match be_search lim univ (tru f) (cand orc thres f) with
    | SErr => True
    | SOk r => forall x, In x r <-> In x univ /\ tru f x = true
    end.
  Proof. intros Hu. exact (be_search_sound lim _ _ (cand_sound f Hu)). Qed.

  Theorem be_exists_exact lim f :
    user_filter f = true ->
    (forall s, cand orc thres f = Indexed s -> forall x, In x s -> In x univ) ->
    match be_exists lim univ (tru f) (cand orc thres f) with
    | EErr => True
    | EOk b => b = true <-> exists x, In x univ /\ tru f x = true
    end.
  Proof. intros Hu. exact (be_exists_sound lim _ _ (cand_sound f Hu)). Qed.
End Sound.

Lemma leafkind_eqb_eq a b : leafkind_eqb a b = true -> a = b.
Proof. destruct a, b; cbn; intros H; try discriminate; reflexivity. Qed.

Lemma find_leaf_spec ls k a v idx r :
  find_leaf ls k a v idx = Some r -> In r ls /\ lr_k r = k /\ lr_a r = a /\ lr_v r = v.
Proof.
  induction ls as [|r0 t IH]; cbn [find_leaf]; [discriminate|].
  destruct (key_eqb r0 k a v idx) eqn:E.
  - intros [= <-]. unfold key_eqb in E. rewrite !andb_true_iff, !N.eqb_eq in E.
    destruct E as [[[Ek Ea] Ev] _]. apply leafkind_eqb_eq in Ek. split; [left; reflexivity | auto].
  - intros H. destruct (IH H) as [Hin H1]. split; [right; exact Hin | exact H1].
Qed.

Lemma leaves_ok_sound univ ls :
  forallb (leaf_ok univ ls) ls = true ->
  forall k a v s, sound univ (fun x => sem_of ls x k a v) (orc_of ls k a v s).
Proof.
  intros Hall k a v s. unfold orc_of. destruct (find_leaf ls k a v (is_some s)) as [r|] eqn:E; [|exact I].
  apply find_leaf_spec in E as (Hin & <- & <- & <-).
  pose proof (proj1 (forallb_forall _ _) Hall r Hin) as Hr. apply andb_true_iff in Hr as [_ Hr].
  destruct (lr_idl r) as [|t|t|t]; [exact I | ..]; rewrite forallb_forall in Hr; intros x Hx; specialize (Hr x Hx).
  1, 2: intros Ht; rewrite Ht in Hr; apply mem_In, Hr.
  apply eqb_prop in Hr. rewrite <- Hr. symmetry. apply mem_In.
Qed.

Lemma set_eqb_spec a b : set_eqb a b = true <-> (forall x, In x a <-> In x b).
Proof.
  unfold set_eqb. rewrite andb_true_iff, !forallb_forall. split.
  - intros [H1 H2] x. split; intros H; apply mem_In; auto.
  - intros H. split; intros x Hx; apply mem_In; apply H; exact Hx.
Qed.

Theorem agree_search_exact univ ls f thres lim ii isr ier itrue :
  forallb (leaf_ok univ ls) ls = true -> user_filter f = true ->
  agree (CBe univ ls f thres lim ii isr ier itrue) = true ->
  match isr with SErr => True | SOk r => set_eqb r (ref_result univ ls f) = true end.
Proof.
  intros Hl Hu Ha. cbn [agree] in Ha. rewrite !andb_true_iff in Ha. destruct Ha as [[_ Hs] _].
  pose proof (be_search_exact univ (sem_of ls) (orc_of ls) 0 (leaves_ok_sound univ ls Hl) lim f Hu) as Hex.
  unfold tru in Hex.
  destruct (be_search lim univ (fun id => ematch (sem_of ls id) f) (cand (orc_of ls) 0 f)) as [|r'];
    destruct isr as [|r]; try discriminate Hs; [exact I|].
  apply set_eqb_spec. intros x. rewrite <- (proj1 (set_eqb_spec _ _) Hs x), (Hex x).
  unfold ref_result. rewrite filter_In. reflexivity.
Qed.
