(* Non-vacuity on a store of three entries: a guarded and an unguarded negation answered right, and why the
   guard is needed. *)
From Coq Require Import List NArith Bool.
Import ListNotations.
Require Import KV.Base.Filter KV.C01.Model.
Open Scope N_scope.

(* three entries 1,2,3 with gid 3000, 7000, 9000 (attribute 7); names ga, gb, gc (attribute 1) *)
Definition univ := [1; 2; 3].
Definition sem (x : N) : leafsem := fun k a v =>
  match k, a with
  | KPres, 7 => true
  | KLt, 7 => (match x with 1 => 3000 | 2 => 7000 | _ => 9000 end) <? v
  | KEq, 1 => x =? v
  | _, _ => false
  end.
(* an index layout: presence(7) indexed, LessThan(7) served from the presence index as a
   superset, equality(1) indexed *)
Definition orc : leafkind -> N -> N -> slope -> idl := fun k a v _ =>
  match k, a with
  | KPres, 7 => Indexed [1; 2; 3]
  | KLt, 7 => Partial [1; 2; 3]
  | KEq, 1 => Indexed (filter (fun x => x =? v) univ)
  | _, _ => AllIds
  end.

(* pres gid AND NOT (gid < 5000)  — the image of SCIM `gid ge 5000` *)
Definition f_ge := FAnd [FLeaf KPres 7 0 (Some 1); FAndNot (FLeaf KLt 7 5000 (Some 1)) None] None.
(* name = 1 OR NOT name = 2 *)
Definition f_or := FOr [FLeaf KEq 1 1 (Some 1); FAndNot (FLeaf KEq 1 2 (Some 1)) None] None.
Definition lim := mklim true 1000 1000.

Example C01_witness_ge :
  user_filter f_ge = true /\
  unguarded f_ge = false /\
  be_search lim univ (fun x => ematch (sem x) f_ge) (cand orc 0 f_ge) = SOk [2; 3].
Proof. vm_compute. repeat split; reflexivity. Qed.

Example C01_witness_or_not :
  user_filter f_or = true /\
  unguarded f_or = true /\
  be_search lim univ (fun x => ematch (sem x) f_or) (cand orc 0 f_or) = SOk [1; 3].
Proof. vm_compute. repeat split; reflexivity. Qed.

(* the guard is necessary: the raw candidate algebra is NOT sound on an unguarded NOT (it
   resolves `name = 1 OR NOT name = 2` to exactly {1}); this is why search must not use it there *)
Example C01_witness_unguarded_f2i_unsound :
  f2i orc 0 f_or = Indexed [1] /\ ematch (sem 3) f_or = true.
Proof. vm_compute. split; reflexivity. Qed.

(* the oracle above satisfies the leaf hypothesis on the two leaves of f_ge (checked pointwise: the
   Indexed answer exactly, the Partial one as a superset) *)
Example C01_witness_leaves_sound :
  forallb (fun x => Bool.eqb (mem x [1;2;3]) (sem x KPres 7 0)) univ = true /\
  forallb (fun x => implb (sem x KLt 7 5000) (mem x [1;2;3])) univ = true.
Proof. vm_compute. split; reflexivity. Qed.
