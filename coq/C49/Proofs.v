(* [outsideb] is the negation of the inclusive gate, and every front end but RADIUS is [gate_then] of the
   inclusive gate at some instant, or a plain refusal; so [partial], through which every refusal theorem of
   Props.v goes, is one case analysis.  The two flows gated at their first step and the RADIUS path before
   the fix are exactly the classes of [known_gen]. *)
From Coq Require Import NArith Bool.
Require Import KV.C49.Model.
Open Scope N_scope.

(* an absent bound admits every instant in the gates and no instant in [outsideb] *)
Lemma bound_all (f : N -> bool) (P : N -> Prop) (o : otime) :
  (forall x, f x = true <-> P x) ->
  match o with Some x => f x | None => true end = true <-> (forall x, o = Some x -> P x).
Proof.
  intros H. destruct o as [x|].
  - rewrite H. split; [intros Hx y [= <-]; exact Hx | intros Hx; apply Hx; reflexivity].
  - split; [intros _ y [=] | reflexivity].
Qed.

Lemma bound_ex (f : N -> bool) (P : N -> Prop) (o : otime) :
  (forall x, f x = true <-> P x) ->
  match o with Some x => f x | None => false end = true <-> (exists x, o = Some x /\ P x).
Proof.
  intros H. destruct o as [x|].
  - rewrite H. split; [intros Hx; exists x; auto | intros [y [[= <-] Hy]]; exact Hy].
  - split; [discriminate | intros [y [[=] _]]].
Qed.

Lemma within_le_spec : forall ct w,
  within_le ct w = true <->
  (forall v, w_vf w = Some v -> v <= ct) /\ (forall e, w_ex w = Some e -> ct <= e).
Proof.
  intros ct w. unfold within_le.
  rewrite andb_true_iff, (bound_all _ _ _ (fun v => N.leb_le v ct)), (bound_all _ _ _ (fun e => N.leb_le ct e)).
  reflexivity.
Qed.

Lemma within_lt_spec : forall ct w,
  within_lt ct w = true <->
  (forall v, w_vf w = Some v -> v < ct) /\ (forall e, w_ex w = Some e -> ct < e).
Proof.
  intros ct w. unfold within_lt.
  rewrite andb_true_iff, (bound_all _ _ _ (fun v => N.ltb_lt v ct)), (bound_all _ _ _ (fun e => N.ltb_lt ct e)).
  reflexivity.
Qed.

Lemma outside_spec : forall ct w,
  outsideb ct w = true <->
  (exists v, w_vf w = Some v /\ ct < v) \/ (exists e, w_ex w = Some e /\ e < ct).
Proof.
  intros ct w. unfold outsideb.
  rewrite orb_true_iff, (bound_ex _ _ _ (fun v => N.ltb_lt ct v)), (bound_ex _ _ _ (fun e => N.ltb_lt e ct)).
  reflexivity.
Qed.

(* bound by bound, [a <? b] negates [b <=? a] *)
Lemma outsideb_negb_le : forall ct w, outsideb ct w = negb (within_le ct w).
Proof.
  intros ct w. unfold outsideb, within_le. rewrite negb_andb.
  destruct (w_vf w), (w_ex w); rewrite ?N.ltb_antisym; reflexivity.
Qed.

Lemma outside_not_le : forall ct w, outsideb ct w = true -> within_le ct w = false.
Proof. intros ct w H. apply negb_true_iff. rewrite <- outsideb_negb_le. exact H. Qed.

Lemma lt_implies_le : forall ct w, within_lt ct w = true -> within_le ct w = true.
Proof.
  intros ct w [Hv He]%within_lt_spec. apply within_le_spec.
  split; intros x Ex; apply N.lt_le_incl; [apply Hv | apply He]; exact Ex.
Qed.

Lemma outside_not_lt : forall ct w, outsideb ct w = true -> within_lt ct w = false.
Proof.
  intros ct w H. destruct (within_lt ct w) eqn:E; [|reflexivity].
  apply lt_implies_le in E. rewrite (outside_not_le ct w H) in E. discriminate E.
Qed.

Lemma reduce_full : forall rd w, rd_vf rd = true -> rd_ex rd = true -> reduce rd w = w.
Proof. intros rd [vf ex] Hv He. unfold reduce. rewrite Hv, He. reflexivity. Qed.

Lemma reduce_none : forall rd w, rd_vf rd = false -> rd_ex rd = false -> reduce rd w = mkwin None None.
Proof. intros rd [vf ex] Hv He. unfold reduce. rewrite Hv, He. reflexivity. Qed.

Lemma gate_then_grant : forall g ok o, o <> OGrant ->
  is_grant (gate_then g ok o) = g && ok.
Proof. intros [] [] [] Ho; try reflexivity; contradiction Ho; reflexivity. Qed.

Lemma gate_closed : forall g ok o, g = false -> o <> OGrant -> is_grant (gate_then g ok o) = false.
Proof. intros g ok o Hg Ho. rewrite gate_then_grant by exact Ho. rewrite Hg. reflexivity. Qed.

(* the two flows that are gated at their FIRST step (t) and completed at ct *)
Lemma login_grant : forall fx t hc pw w ct,
  is_grant (run_gen fx (PLogin t hc pw) w ct) = within_le t w && (hc && pw).
Proof. intros. apply gate_then_grant. discriminate. Qed.

Lemma exchange_grant : forall fx t s w ct,
  is_grant (run_gen fx (POExchange t s) w ct) = within_le t w && (s && code_live t ct).
Proof. intros. apply gate_then_grant. discriminate. Qed.

Lemma radius_grant : forall fx rd hs w ct,
  is_grant (radius_gen fx rd hs w ct) =
  rd_vis rd && rd_class rd && (rd_secret rd && hs) && rd_name rd && rd_dn rd &&
  (negb fx || within_le ct w) && within_lt ct (reduce rd w).
Proof.
  intros fx rd hs w ct. unfold radius_gen.
  (* the early exits, in the order of the code: each one makes both sides false *)
  destruct (rd_vis rd); [|reflexivity]. destruct (rd_class rd); [|reflexivity].
  destruct (rd_secret rd); [|reflexivity]. destruct hs; [|reflexivity].
  destruct (rd_name rd); [|reflexivity]. destruct (rd_dn rd); [|reflexivity].
  destruct fx, (within_le ct w), (within_lt ct (reduce rd w)); reflexivity.
Qed.

Lemma partial : forall fx p w ct,
  outsideb ct w = true -> known_gen fx p w ct = false -> is_grant (run_gen fx p w ct) = false.
Proof.
  intros fx p w ct Ho Hk. pose proof (outside_not_le ct w Ho) as Hle.
  unfold known_gen in Hk. apply orb_false_iff in Hk as [Hr Hc].
  destruct p; try (cbn [run_gen]; apply gate_closed; [exact Hle | discriminate]).
  - (* PLogin *) cbn [continuation_class] in Hc. rewrite Ho, andb_true_r in Hc.
    rewrite login_grant, Hc. reflexivity.
  - (* POExchange *) cbn [continuation_class] in Hc. rewrite Ho, andb_true_r in Hc.
    rewrite exchange_grant, Hc. reflexivity.
  - (* PRadius: the inclusive gate is closed, so a grant needs the unrepaired tree and a reduced
       entry that passes, which is the class excluded by Hr *)
    cbn [radius_class] in Hr. rewrite Ho in Hr. cbn [andb] in Hr.
    cbn [run_gen]. rewrite radius_grant, Hle, orb_false_r, <- andb_assoc, Hr. apply andb_false_r.
  - (* PUnixTok *) destruct vis; [|reflexivity]. cbn [run_gen]. apply gate_closed; [exact Hle | discriminate].
Qed.

Definition single_call (p : path) : bool :=
  match p with PLogin _ _ _ | POExchange _ _ | PRadius _ _ _ => false | _ => true end.

Lemma div_lt_add : forall g k a b, g <> 0 -> a / g < b / g + k -> a < b + k * g.
Proof.
  (* a < g * succ (a / g) <= g * (b / g + k) = g * (b / g) + k * g <= b + k * g *)
  intros g k a b Hg H%N.le_succ_l.
  apply N.lt_le_trans with (g * N.succ (a / g)); [apply N.mul_succ_div_gt; exact Hg|].
  apply N.le_trans with (g * (b / g + k)); [apply N.mul_le_mono_l; exact H|].
  rewrite N.mul_add_distr_l, (N.mul_comm g k). apply N.add_le_mono_r, N.mul_div_le. exact Hg.
Qed.

Lemma code_live_bound : forall t ct, code_live t ct = true -> ct < t + 60 * G.
Proof. intros t ct H%N.ltb_lt. apply div_lt_add; [discriminate | exact H]. Qed.

Lemma outcome_eqb_eq : forall a b, outcome_eqb a b = true -> a = b.
Proof. intros [] [] H; try reflexivity; discriminate H. Qed.

Lemma agree_pcheck_gen : forall fx p w ct o,
  agree_gen fx (CQ p w ct o) = true -> known_gen fx p w ct = false -> pcheck (CQ p w ct o) = true.
Proof.
  intros fx p w ct o [<-%outcome_eqb_eq _]%andb_true_iff Hk. unfold pcheck.
  destruct (outsideb ct w) eqn:Ho; [|reflexivity].
  rewrite (partial fx p w ct Ho Hk). reflexivity.
Qed.
