From Coq Require Import List NArith Bool.
Import ListNotations.
Require Import KV.C49.Model KV.C49.Proofs.
Open Scope N_scope.

(* Both gate functions of the tree (the inclusive one of Account, the exclusive one of
   RadiusAccount) refuse every instant at which the valid-from time has not arrived or the
   expiry has passed — for every window, incl. one-sided, empty and single-instant windows. *)
Theorem C49_gates_refuse_outside : forall ct w,
  ((exists v, w_vf w = Some v /\ ct < v) \/ (exists e, w_ex w = Some e /\ e < ct)) ->
  within_le ct w = false /\ within_lt ct w = false.
Proof.
  intros ct w H. apply outside_spec in H. split; [apply outside_not_le | apply outside_not_lt]; exact H.
Qed.

(* The inclusive gate (Account) admits exactly the instants from valid-from to expiry, both included. *)
Theorem C49_gate_le_spec : forall ct w,
  within_le ct w = true <->
  (forall v, w_vf w = Some v -> v <= ct) /\ (forall e, w_ex w = Some e -> ct <= e).
Proof. exact within_le_spec. Qed.

(* The exclusive gate (RadiusAccount) admits exactly the instants strictly between the two. *)
Theorem C49_gate_lt_spec : forall ct w,
  within_lt ct w = true <->
  (forall v, w_vf w = Some v -> v < ct) /\ (forall e, w_ex w = Some e -> ct < e).
Proof. exact within_lt_spec. Qed.

(* They differ AT a bound: the instant that is both the valid-from and the expiry passes the inclusive
   gate, fails the exclusive one, and is not outside the window. *)
Theorem C49_boundary_instants : forall ct,
  within_le ct (mkwin (Some ct) (Some ct)) = true /\ within_lt ct (mkwin (Some ct) (Some ct)) = false /\
  outsideb ct (mkwin (Some ct) (Some ct)) = false.
Proof.
  intros ct. rewrite outsideb_negb_le. unfold within_le, within_lt. cbn [w_vf w_ex].
  rewrite N.leb_refl, N.ltb_irrefl. repeat split; reflexivity.
Qed.

(* THE PROPERTY, at full strength: whatever the front end, whatever the requester and whatever
   its reduced view of the account, whatever the other inputs (right password, live session ...),
   nothing is granted at an instant outside the account's window. *)
Definition C49_full_statement : Prop :=
  forall p w ct, outsideb ct w = true -> is_grant (run p w ct) = false.

(* It does NOT hold of the code: a login whose Init step fell inside the window is completed after
   the expiry (KNOWN finding class=continuation). *)
Theorem C49_refuted : ~ C49_full_statement.
Proof.
  intros H. specialize (H (PLogin 5 true true) (mkwin None (Some 10)) 20 eq_refl).
  vm_compute in H. discriminate H.
Qed.

(* RADIUS secret release (HEAD, fix ed71ad3): gated for EVERY requester and EVERY reduced view of
   the account, i.e. for every set of access profiles — whatever the requester may or may not
   read, an account outside its window does not get its secret released.  (The requester enters
   only through its reduced view rd: [run_gen] does not look at k.) *)
Theorem C49_radius_full : forall k rd hs w ct,
  outsideb ct w = true -> is_grant (run (PRadius k rd hs) w ct) = false.
Proof. intros k rd hs w ct H. apply (partial true); [exact H | reflexivity]. Qed.

(* ... and it is still served inside the window.  The exact condition of a grant: the requester
   can read class, secret, name and displayname, the account has a secret, the unreduced window
   holds (inclusive) and the reduced one holds (exclusive). *)
Theorem C49_radius_granted_iff : forall k rd hs w ct,
  is_grant (run (PRadius k rd hs) w ct) =
  rd_vis rd && rd_class rd && (rd_secret rd && hs) && rd_name rd && rd_dn rd &&
  within_le ct w && within_lt ct (reduce rd w).
Proof. intros k rd hs w ct. exact (radius_grant true rd hs w ct). Qed.

(* BEFORE the fix the full RADIUS statement failed: a member of idm_radius_servers, with exactly
   the attributes the SHIPPED profile lets it read, received the secret of an account that had
   expired (or was not yet valid). *)
Theorem C49_prefix_radius_refuted :
  exists w ct, outsideb ct w = true /\
    is_grant (run_gen false (PRadius KRadSrv (allowed KRadSrv) true) w ct) = true.
Proof. exists (mkwin (Some 50) (Some 100)), 200. vm_compute. split; reflexivity. Qed.

(* The pre-fix RADIUS path released the secret exactly when the ACCESS-REDUCED entry passed the
   (exclusive) gate: validity attributes the requester may not read did not count. *)
Theorem C49_prefix_radius_reads_reduced_entry : forall rd hs w ct,
  is_grant (radius_gen false rd hs w ct) =
  rd_vis rd && rd_class rd && (rd_secret rd && hs) && rd_name rd && rd_dn rd && within_lt ct (reduce rd w).
Proof. intros rd hs w ct. rewrite radius_grant. cbn [negb orb]. rewrite andb_true_r. reflexivity. Qed.

(* ... so requesters that can read both attributes (the account itself, people admins) were refused *)
Theorem C49_prefix_radius_gated_when_readable : forall rd hs w ct,
  rd_vf rd = true -> rd_ex rd = true ->
  outsideb ct w = true -> is_grant (radius_gen false rd hs w ct) = false.
Proof.
  intros rd hs w ct Hv He H. rewrite radius_grant, (reduce_full rd w Hv He), (outside_not_lt ct w H).
  apply andb_false_r.
Qed.

(* PARTIAL (HEAD): everything outside the one recorded class is gated — for every front end,
   window, instant, requester, reduced view and other input:
   continuation = login / OAuth2 code exchange whose FIRST step was inside the window.
   Missing for the full statement: refusal at the COMPLETION step of these two flows. *)
Theorem C49_partial : forall p w ct,
  outsideb ct w = true -> continuation_class p w ct = false -> is_grant (run p w ct) = false.
Proof. intros p w ct Ho Hc. apply (partial true); [exact Ho|]. unfold known_gen. rewrite Hc. reflexivity. Qed.

(* the tree before the fix had the second class radius-reduced-validity (every violated bound
   hidden from the requester) *)
Theorem C49_prefix_partial : forall p w ct,
  outsideb ct w = true -> known_gen false p w ct = false -> is_grant (run_gen false p w ct) = false.
Proof. intros p w ct. exact (partial false p w ct). Qed.

(* Every single-call front end — POSIX password check, LDAP password / anonymous / application
   bind, LDAP session revalidation, LDAP token binds, user auth token, API token, OAuth2
   authorisation, refresh, introspection, userinfo, POSIX token validity flag — refuses outside the
   window whatever the other inputs are. *)
Theorem C49_single_call_front_ends : forall fx p w ct,
  single_call p = true -> outsideb ct w = true -> is_grant (run_gen fx p w ct) = false.
Proof.
  intros fx p w ct Hs Ho. apply partial; [exact Ho|]. unfold known_gen.
  destruct p; try discriminate Hs; cbn [radius_class continuation_class]; rewrite andb_false_r; reflexivity.
Qed.

(* Login and code exchange done in one instant are gated too. *)
Theorem C49_same_instant : forall fx w ct hc pw s,
  outsideb ct w = true ->
  is_grant (run_gen fx (PLogin ct hc pw) w ct) = false /\ is_grant (run_gen fx (POExchange ct s) w ct) = false.
Proof.
  intros fx w ct hc pw s Ho. rewrite login_grant, exchange_grant, (outside_not_le ct w Ho).
  split; reflexivity.
Qed.

(* PARTIAL (missing: refusal at COMPLETION time): a login or code exchange that is granted was
   started at an instant inside the window with every other factor right, and an authorisation code
   is honoured for less than 60 s; what it hands out is refused on use by C49_single_call_front_ends. *)
Theorem C49_continuation_partial : forall fx w ct,
  (forall t hc pw, is_grant (run_gen fx (PLogin t hc pw) w ct) = true ->
     within_le t w = true /\ hc = true /\ pw = true) /\
  (forall t s, is_grant (run_gen fx (POExchange t s) w ct) = true ->
     within_le t w = true /\ s = true /\ ct < t + 60 * G).
Proof.
  intros fx w ct. split.
  - intros t hc pw. rewrite login_grant. intros [H1 [H2 H3]%andb_true_iff]%andb_true_iff. auto.
  - intros t s. rewrite exchange_grant.
    intros [H1 [H2 H3%code_live_bound]%andb_true_iff]%andb_true_iff. auto.
Qed.

(* the recorded classes never cover an instant inside the window *)
Theorem C49_known_only_outside : forall fx p w ct, known_gen fx p w ct = true -> outsideb ct w = true.
Proof.
  intros fx p w ct [[_ H]%andb_true_iff|H]%orb_true_iff.
  - destruct p; try discriminate H. apply andb_true_iff in H as [H _]. exact H.
  - destruct p; try discriminate H; apply andb_true_iff in H as [_ H]; exact H.
Qed.

(* Soundness of the run-time tie: where the implementation's answer agrees with the model and the
   case is outside the recorded classes, the property's predicate holds of the answer. *)
Theorem C49_agree_implies_property : forall c : case,
  agree c = true -> known c = false -> pcheck c = true.
Proof. intros [p w ct o]. apply agree_pcheck_gen. Qed.
