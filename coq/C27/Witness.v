(* Non-vacuity: concrete sessions meeting the hypotheses of the theorems. *)
From Coq Require Import List NArith Bool.
Import ListNotations.
Require Import KV.C27.Model KV.C27.Proofs.
Open Scope N_scope.

(* password + TOTP + backup codes + a passkey, valid from 100 to 900 *)
Definition acct_mfa := mkacct (Some 100) (Some 900) false (PMfa true false true) true false false false.
Definition acct_pw := mkacct None None false PPw false false false false.

(* hypothesis of C27_success_needs_all / C27_token_exactly: a token at step 4, after an ignored
   credential step before the choice, a previous-window TOTP, an ignored second Begin, the password *)
Example C27_witness_token :
  run_session acct_mfa 100 false
    [SCred (CPassword true) false; SBegin MPasswordTotp false; SCred (CTotp KPrev) false;
     SBegin MPassword false; SCred (CPassword true) false; SCred (CPassword true) false]
  = [OErr EInvalidState; OContinue [ATotp] false; OContinue [APassword] false;
     OErr EInvalidAuthState; OSuccess (Some (TPasswordTotp, ScPrivilegeCapable, true));
     OErr EInvalidState].
Proof. vm_compute. reflexivity. Qed.

(* the offer of that account: no password-only mechanism (hypothesis mfa_configured = true) *)
Example C27_witness_mfa_offer :
  mfa_configured acct_mfa = true /\
  snd (new_session 500 acct_mfa) = OChoose [MPasswordTotp; MPasswordBackupCode; MPasskey].
Proof. vm_compute. split; reflexivity. Qed.

(* trying to skip the second factor: choosing Password is refused and kills the session;
   presenting the password first is denied; both are final *)
Example C27_witness_skip_refused :
  run_session acct_mfa 500 false [SBegin MPassword false; SBegin MPasswordTotp false; SCred (CPassword true) false]
  = [OErr EInvalidState; OErr EInvalidState; OErr EInvalidState] /\
  run_session acct_mfa 500 false [SBegin MPasswordTotp false; SCred (CPassword true) false;
                                  SCred (CTotp KCur) false; SCred (CPassword true) false]
  = [OContinue [ATotp] false; ODenied RBadAuthType; OErr EInvalidState; OErr EInvalidState].
Proof. vm_compute. split; reflexivity. Qed.

(* a TOTP of two windows ago is denied; a right backup code (its removal is queued) followed by a
   password step under the soft lock is Denied(locked); the same steps without the lock succeed *)
Example C27_witness_denials :
  run_session acct_mfa 500 true [SBegin MPasswordTotp false; SCred (CTotp KOld) false] = [OContinue [ATotp] false; ODenied RBadTotp] /\
  run_session acct_mfa 500 true [SBegin MPasswordBackupCode false; SCred (CBackup true) false; SCred (CPassword true) true]
  = [OContinue [ABackupCode] false; OContinue [APassword] true; ODenied RLocked] /\
  run_session acct_mfa 500 true [SBegin MPasswordBackupCode false; SCred (CBackup true) false; SCred (CPassword true) false]
  = [OContinue [ABackupCode] false; OContinue [APassword] true; OSuccess (Some (TPasswordBackupCode, ScReadWrite, true))].
Proof. vm_compute. repeat split; reflexivity. Qed.

(* hypothesis of C27_invalid_window_never: one nanosecond before valid_from / after expire *)
Example C27_witness_outside_window :
  within 99 acct_mfa = false /\ within 901 acct_mfa = false /\ within 100 acct_mfa = true /\ within 900 acct_mfa = true /\
  run_session acct_mfa 901 false [SBegin MPasswordTotp false; SCred (CTotp KCur) false]
  = [OErr EInvalidSessionState; OErr EInvalidSessionState].
Proof. vm_compute. repeat split; reflexivity. Qed.

(* hypotheses of C27_absorbing / C27_denial_is_final: a denied step at position 1 and later steps *)
Example C27_witness_final :
  let outs := run_session acct_pw 5 false
      [SBegin MPassword false; SCred (CPassword false) false; SCred (CPassword true) false; SBegin MPassword false] in
  nth_error outs 1 = Some (ODenied RBadPassword) /\ is_final (ODenied RBadPassword) = true /\
  nth_error outs 2 = Some (OErr EInvalidState) /\ nth_error outs 3 = Some (OErr EInvalidState) /\
  absorbing SDenied = true.
Proof. vm_compute. repeat split; reflexivity. Qed.

(* the declarative condition is not constantly None, and distinguishes position *)
Example C27_witness_spec :
  spec_token acct_pw 5 true [SCred CAnonymous true; SBegin MPassword false; SCred (CPassword true) false]
  = Some (OSuccess (Some (TPassword, ScReadWrite, true))) /\
  spec_token acct_pw 5 true [SBegin MPassword false; SCred (CPassword true) false; SBegin MPassword false] = None /\
  spec_token acct_pw 5 true [SBegin MPassword false; SCred (CPassword true) true] = None /\
  spec_token acct_pw 5 true [SBegin MPasskey false; SCred (CPassword true) false] = None.
Proof. vm_compute. repeat split; reflexivity. Qed.

(* hypothesis of C27_agree_implies_property: a case that agrees *)
Example C27_witness_agree :
  agree (CSess acct_pw (mksess 5 false (OChoose [MPassword])
      [(SBegin MPassword false, OContinue [APassword] false);
       (SCred (CPassword true) false, OSuccess (Some (TPassword, ScPrivilegeCapable, true)));
       (SCred (CPassword true) false, OErr EInvalidState)])) = true.
Proof. vm_compute. reflexivity. Qed.

(* pcheck is not trivially true: a token after a wrong TOTP, a password-only offer to an MFA
   account, a Continue after Denied, an offer outside the window, and Denied(expired) or
   Denied(invalid credential state) inside the window of an account with mechanisms to offer are
   each rejected; Denied(expired) outside the window followed by an error passes *)
Example C27_witness_pcheck_rejects :
  pcheck (CSess acct_mfa (mksess 500 false (OChoose [MPasswordTotp; MPasswordBackupCode; MPasskey])
      [(SBegin MPasswordTotp false, OContinue [ATotp] false);
       (SCred (CTotp KWrong) false, OContinue [APassword] false);
       (SCred (CPassword true) false, OSuccess (Some (TPasswordTotp, ScPrivilegeCapable, true)))])) = false /\
  pcheck (CSess acct_mfa (mksess 500 false (OChoose [MPassword; MPasswordTotp; MPasswordBackupCode; MPasskey]) [])) = false /\
  pcheck (CSess acct_pw (mksess 5 false (OChoose [MPassword])
      [(SBegin MPassword false, OContinue [APassword] false);
       (SCred (CPassword false) false, ODenied RBadPassword);
       (SCred (CPassword true) false, OContinue [APassword] false)])) = false /\
  pcheck (CSess acct_mfa (mksess 901 false (OChoose [MPasswordTotp; MPasswordBackupCode; MPasskey]) [])) = false /\
  (* a refusal at Init must be the right one: expired only outside the window *)
  pcheck (CSess acct_mfa (mksess 500 false (ODenied RExpired) [])) = false /\
  pcheck (CSess acct_mfa (mksess 500 false (ODenied RInvalidCredState) [])) = false /\
  pcheck (CSess acct_mfa (mksess 901 false (ODenied RExpired) [(SBegin MPasskey false, OErr EInvalidSessionState)])) = true.
Proof. vm_compute. repeat split; reflexivity. Qed.
