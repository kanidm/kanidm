(* C27: an authentication session issues a token only after every factor required by the chosen
   mechanism has been presented in order and verified within that session; an account whose
   password credential has a second factor is never offered password-only login; an account
   outside its validity window never succeeds; once a step is denied, or after success, the
   session accepts no further steps.
   All theorems are about `run_session a ct priv steps` (KV.C27.Model): Init at time ct on
   account a, then ANY list of Begin/Cred steps (no length bound), with arbitrary oracle bits. *)
From Coq Require Import List NArith Bool Lia.
Import ListNotations.
Require Import KV.C27.Model KV.C27.Proofs.
Open Scope N_scope.

(* EXACT characterisation: the k-th step is answered with a token if and only if the declarative
   condition `spec_token` holds of the steps up to and including k (session begun inside the
   validity window; first chosen mechanism is offered; the credential steps after it are exactly
   one verifying presentation of each required factor, in order, ending at step k; the soft lock
   refused none of them) — and then the token's session record is the mechanism's. *)
Theorem C27_token_exactly : forall a ct priv steps k, (k < length steps)%nat ->
  token_of (nth_error (run_session a ct priv steps) k) = spec_token a ct priv (firstn (S k) steps).
Proof. exact token_nth. Qed.

(* The "only if" direction in plain logical form. *)
Theorem C27_success_needs_all : forall a ct priv steps k rec,
  nth_error (run_session a ct priv steps) k = Some (OSuccess rec) ->
  within ct a = true /\
  exists pre m lk rest,
    firstn (S k) steps = pre ++ SBegin m lk :: rest /\
    forallb is_cred pre = true /\                      (* nothing but ignored steps before the choice *)
    In m (offered_spec a) /\                           (* the mechanism is one the account is offered *)
    Forall2 (fun f c => verifies a f c = true) (required a m) (creds_of rest) /\
                                                       (* every required factor, in order, each verified,
                                                          and no other credential step *)
    last_is_cred rest = true /\
    softlockable_mech m && (lk || existsb locked_of rest) = false /\
    rec = record_of (authtype_of_mech a m) priv.
Proof.
  intros a ct priv steps k rec H.
  assert (Hk : (k < length steps)%nat).
  { assert (Hs : nth_error (run_session a ct priv steps) k <> None) by (rewrite H; discriminate).
    apply nth_error_Some in Hs. unfold run_session in Hs. rewrite run_length in Hs. exact Hs. }
  pose proof (token_nth a ct priv steps k Hk) as Ht. rewrite H in Ht. cbn [token_of] in Ht.
  unfold spec_token in Ht. destruct (within ct a); [|discriminate Ht]. split; [reflexivity|].
  destruct (split_begin (firstn (S k) steps)) as [[[m lk] rest]|] eqn:Es; [|discriminate Ht].
  destruct (split_begin_app _ _ _ _ Es) as [pre [Hl Hp]].
  destruct (mem_mech m (offered_spec a) && _ && _ && _) eqn:E; [|discriminate Ht].
  rewrite !andb_true_iff, negb_true_iff in E. destruct E as [[[E1 E2] E3] E4]. injection Ht as Ht.
  exists pre, m, lk, rest. repeat split; try assumption.
  - apply mem_mech_In. exact E1.
  - apply forall2b_Forall2. exact E2.
Qed.

(* What Init offers is exactly the declarative list, and only inside the validity window. *)
Theorem C27_offered_exactly : forall a ct ms,
  snd (new_session ct a) = OChoose ms -> within ct a = true /\ ms = offered_spec a.
Proof.
  intros a ct ms H. rewrite new_session_out in H. destruct (within ct a); [|discriminate H].
  destruct (offered_spec a); [discriminate H|]. injection H as <-. split; reflexivity.
Qed.

(* An account whose password credential has a second factor is never offered password-only
   login, and no run of any session ever issues it a password-only token. *)
Theorem C27_no_pw_only_with_mfa : forall a, mfa_configured a = true ->
  (forall ct ms, snd (new_session ct a) = OChoose ms -> ~ In MPassword ms) /\
  (forall ct priv steps k t sc b,
     nth_error (run_session a ct priv steps) k = Some (OSuccess (Some (t, sc, b))) ->
     t <> TPassword /\ t <> TGeneratedPassword).
Proof.
  intros a Hm. pose proof (mfa_no_password a Hm) as Hn. split.
  - intros ct ms H Hin. apply C27_offered_exactly in H as [_ ->].
    apply mem_mech_In in Hin. rewrite Hin in Hn. discriminate Hn.
  - intros ct priv steps k t sc b H.
    apply C27_success_needs_all in H as (_ & pre & m & lk & rest & _ & _ & Hin & _ & _ & _ & Hr).
    assert (Hne : m <> MPassword).
    { intros ->. apply mem_mech_In in Hin. rewrite Hin in Hn. discriminate Hn. }
    unfold record_of in Hr. destruct m; cbn in Hr; try contradiction; try discriminate Hr;
      try (injection Hr as -> _ _; split; discriminate).
    destruct (a_attpolicy a); injection Hr as -> _ _; split; discriminate.
Qed.

(* An account outside its validity window at Init never succeeds: Init answers Denied(expired),
   no session exists, and every later step is answered with an error. *)
Theorem C27_invalid_window_never : forall a ct, within ct a = false ->
  snd (new_session ct a) = ODenied RExpired /\
  forall priv steps o, In o (run_session a ct priv steps) -> o = OErr EInvalidSessionState.
Proof.
  intros a ct H. split.
  - rewrite new_session_out, H. reflexivity.
  - intros priv steps o. unfold run_session, new_session. rewrite H. apply run_nosession.
Qed.

(* Denied, Success (and "no session") are absorbing: every further step is refused with an
   error and the state is unchanged. *)
Theorem C27_absorbing : forall a priv st s, absorbing st = true ->
  exists e, auth_step (a_pwbad a) priv st s = (st, OErr e).
Proof. exact step_absorbing. Qed.

(* A Denied or Success answer always puts the session into an absorbing state. *)
Theorem C27_final_answer_absorbs : forall a priv st s st' o,
  auth_step (a_pwbad a) priv st s = (st', o) -> is_final o = true -> absorbing st' = true.
Proof. exact final_absorbing. Qed.

(* In every run, after a Denied or Success answer all later answers are errors (no Continue, no
   token). *)
Theorem C27_denial_is_final : forall a ct priv steps i j o o', (i < j)%nat ->
  nth_error (run_session a ct priv steps) i = Some o -> is_final o = true ->
  nth_error (run_session a ct priv steps) j = Some o' -> is_err o' = true.
Proof.
  intros a ct priv steps i j o o' Hij Hi Hf Hj.
  exact (final_ok_nth _ i j o o' (run_final_ok a priv steps _) Hij Hi Hf Hj).
Qed.

(* A token is a final answer, so a session issues at most one. *)
Theorem C27_at_most_one_token : forall a ct priv steps,
  (length (filter is_token (run_session a ct priv steps)) <= 1)%nat.
Proof. intros a ct priv steps. apply final_ok_one_token. apply run_final_ok. Qed.

(* Soundness of the run-time tie: when the real server's answers agree with the model on a
   case, the property's executable predicate (exact token condition at every position, offered
   mechanisms, finality) holds of those answers. *)
Theorem C27_agree_implies_property : forall c : case, agree c = true -> pcheck c = true.
Proof. exact agree_pcheck. Qed.
