(* The token theorem is proved forwards along the steps: `tok st l`, the token that answers the last
   step of l, has one step equation (`tok_step`); the condition of `spec_token` unfolds along the
   same steps; the two meet in `inprogress_token` (after the choice of a mechanism) and `init_token`
   (before it).  Finality is a separate invariant of `run` from any state (`run_final_ok`). *)
From Coq Require Import List NArith Bool Lia.
Import ListNotations.
Require Import KV.C27.Model.
Open Scope N_scope.

Lemma last_opt_cons : forall {A} (o : A) l,
  last_opt (o :: l) = match l with [] => Some o | _ => last_opt l end.
Proof. intros A o l. destruct l; reflexivity. Qed.

Lemma last_opt_spec : forall {A} (l : list A),
  match last_opt l with Some x => In x l | None => l = [] end.
Proof.
  induction l as [|x r IH]; [reflexivity|]. rewrite last_opt_cons.
  destruct r as [|y r']; [left; reflexivity|].
  destruct (last_opt (y :: r')); [right; exact IH | discriminate IH].
Qed.

Lemma last_firstn_nth : forall {A} (l : list A) k, (k < length l)%nat ->
  last_opt (firstn (S k) l) = nth_error l k.
Proof.
  induction l as [|x r IH]; intros k Hk; [cbn in Hk; lia|].
  destruct k as [|k'].
  - cbn. destruct r; reflexivity.
  - cbn [length] in Hk. change (firstn (S (S k')) (x :: r)) with (x :: firstn (S k') r).
    rewrite last_opt_cons. cbn [nth_error]. rewrite <- IH by lia.
    destruct r as [|y r']; [cbn in Hk; lia|]. reflexivity.
Qed.

Lemma forall2b_Forall2 : forall {A B} (p : A -> B -> bool) x y,
  forall2b p x y = true -> Forall2 (fun u v => p u v = true) x y.
Proof.
  induction x as [|u x IH]; intros [|v y] H; cbn in H; try discriminate; [constructor|].
  apply andb_true_iff in H as [H1 H2]. constructor; [exact H1 | apply IH; exact H2].
Qed.

Lemma last_is_cred_cons : forall s r,
  last_is_cred (s :: r) = match r with [] => is_cred s | _ => last_is_cred r end.
Proof. intros s [|s2 r]; reflexivity. Qed.

Lemma creds_nil_last : forall r, creds_of r = [] -> last_is_cred r = false.
Proof.
  induction r as [|s r IH]; intros H; [reflexivity|]. destruct s as [m lk|c lk]; [|discriminate H].
  rewrite last_is_cred_cons. destruct r; [reflexivity | apply IH; exact H].
Qed.

Lemma mech_code_inj : forall x y, mech_code x = mech_code y -> x = y.
Proof. intros x y H. destruct x, y; try reflexivity; discriminate H. Qed.
Lemma allowed_code_inj : forall x y, allowed_code x = allowed_code y -> x = y.
Proof. intros x y H. destruct x, y; try reflexivity; discriminate H. Qed.
Lemma authtype_code_inj : forall x y, authtype_code x = authtype_code y -> x = y.
Proof. intros x y H. destruct x, y; try reflexivity; discriminate H. Qed.
Lemma scope_code_inj : forall x y, scope_code x = scope_code y -> x = y.
Proof. intros x y H. destruct x, y; try reflexivity; discriminate H. Qed.
Lemma reason_code_inj : forall x y, reason_code x = reason_code y -> x = y.
Proof. intros x y H. destruct x, y; try reflexivity; discriminate H. Qed.
Lemma err_code_inj : forall x y, err_code x = err_code y -> x = y.
Proof. intros x y H. destruct x, y; try reflexivity; discriminate H. Qed.

Lemma code_eqb_eq : forall {A} (code : A -> N), (forall x y, code x = code y -> x = y) ->
  forall x y, (code x =? code y) = true <-> x = y.
Proof. intros A code Hinj x y. rewrite N.eqb_eq. split; [apply Hinj | intros ->; reflexivity]. Qed.

Lemma list_eqb_eq : forall {A} (e : A -> A -> bool), (forall u v, e u v = true <-> u = v) ->
  forall x y, list_eqb e x y = true <-> x = y.
Proof.
  intros A e He. induction x as [|u x IH]; intros [|v y]; cbn; try (split; discriminate); [tauto|].
  rewrite andb_true_iff, He, IH. split; [intros [-> ->]; reflexivity | intros [= -> ->]; auto].
Qed.

Lemma mech_eqb_eq : forall x y, mech_eqb x y = true <-> x = y.
Proof. exact (code_eqb_eq mech_code mech_code_inj). Qed.

Lemma mem_mech_In : forall m l, mem_mech m l = true <-> In m l.
Proof.
  intros m l. unfold mem_mech. rewrite existsb_exists. split.
  - intros [x [Hin He]]. apply mech_eqb_eq in He. subst x. exact Hin.
  - intros Hin. exists m. split; [exact Hin | apply mech_eqb_eq; reflexivity].
Qed.

Lemma rec_eqb_eq : forall x y, rec_eqb x y = true <-> x = y.
Proof.
  intros [[[t s] b]|] [[[t' s'] b']|]; cbn; try (split; discriminate); [|tauto].
  rewrite !andb_true_iff, (code_eqb_eq _ authtype_code_inj), (code_eqb_eq _ scope_code_inj), Bool.eqb_true_iff.
  split; [intros [[-> ->] ->]; reflexivity | intros [= -> -> ->]; auto].
Qed.

Lemma out_eqb_eq : forall x y, out_eqb x y = true <-> x = y.
Proof.
  intros x y. destruct x, y; cbn; try (split; discriminate).
  - rewrite (list_eqb_eq _ mech_eqb_eq). split; [intros -> | intros [= ->]]; reflexivity.
  - rewrite andb_true_iff, (list_eqb_eq _ (code_eqb_eq _ allowed_code_inj)), Bool.eqb_true_iff.
    split; [intros [-> ->] | intros [= -> ->]]; auto.
  - rewrite (code_eqb_eq _ reason_code_inj). split; [intros -> | intros [= ->]]; reflexivity.
  - rewrite rec_eqb_eq. split; [intros -> | intros [= ->]]; reflexivity.
  - rewrite (code_eqb_eq _ err_code_inj). split; [intros -> | intros [= ->]]; reflexivity.
Qed.

Lemma oout_eqb_refl : forall x, oout_eqb x x = true.
Proof. intros [x|]; cbn; [apply out_eqb_eq|]; reflexivity. Qed.

Lemma can_proceed_allows : forall h m, can_proceed h m = true <-> allows_mech h = m.
Proof.
  intros h m. split.
  - intros H. destruct h, m; cbn in H; try discriminate; reflexivity.
  - intros <-. destruct h; reflexivity.
Qed.

Lemma softlockable_mech_eq : forall h, softlockable h = softlockable_mech (allows_mech h).
Proof. intros h. destruct h; reflexivity. Qed.

(* what a handler still needs, in order; None = a state from which every step is denied *)
Definition remaining (h : handler) : option (list factor) :=
  match h with
  | HAnonymous => Some [FAnon]
  | HPassword _ => Some [FPw]
  | HPwTotp VInit VInit => Some [FTotp; FPw]
  | HPwTotp VSuccess VInit => Some [FPw]
  | HPwBackup VInit VInit => Some [FBackup; FPw]
  | HPwBackup VSuccess VInit => Some [FPw]
  | HPwSecKey VInit VInit => Some [FSecKey; FPw]
  | HPwSecKey VSuccess VInit => Some [FPw]
  | HPasskey VInit => Some [FPasskey]
  | HAttested VInit => Some [FAttested]
  | _ => None
  end.
(* the authentication type a handler reports on success *)
Definition htype (h : handler) : authtype :=
  match h with
  | HAnonymous => TAnonymous
  | HPassword g => if g then TGeneratedPassword else TPassword
  | HPwTotp _ _ => TPasswordTotp
  | HPwBackup _ _ => TPasswordBackupCode
  | HPwSecKey _ _ => TPasswordSecurityKey
  | HPasskey _ => TPasskey
  | HAttested _ => TAttestedPasskey
  end.

Lemma remaining_nonempty : forall h, remaining h <> Some [].
Proof. intros [| |[] []|[] []|[] []|[]|[]]; discriminate. Qed.

Definition is_token (o : out) : bool := match o with OSuccess _ => true | _ => false end.

Section Acct.
Variable a : account.
Variable pr : bool.
Let pb := a_pwbad a.

(* the whole table of CredHandler::validate on a handler that still needs f and then fs *)
Lemma validate_cases : forall h f fs c, remaining h = Some (f :: fs) ->
  match validate pb h c with
  | (_, CSSuccess t, _) => verifies a f c = true /\ fs = [] /\ t = htype h
  | (h', CSContinue _, _) => verifies a f c = true /\ remaining h' = Some fs
                             /\ htype h' = htype h /\ softlockable h' = softlockable h
  | (_, CSDenied _, _) => verifies a f c = false
  end.
Proof.
  intros h f fs c Hr. subst pb.
  destruct h as [|g|m p|m p|m p|s|s]; try destruct m; try destruct p; try destruct s;
    cbn in Hr; try discriminate; injection Hr as <- <-;
    destruct c as [|[]|k|[]|[]|[]]; cbn; try destruct (totp_ok k); try destruct (a_pwbad a);
    cbn; repeat split; try reflexivity; discriminate.
Qed.

Definition absorbing (st : sstate) : bool :=
  match st with SNone | SSuccess | SDenied => true | _ => false end.

Lemma step_absorbing : forall st s, absorbing st = true ->
  exists e, auth_step pb pr st s = (st, OErr e).
Proof. intros st s H. destruct st; try discriminate; destruct s; cbn; eauto. Qed.

Lemma run_absorbing : forall l st, absorbing st = true -> forallb is_err (run pb pr st l) = true.
Proof.
  induction l as [|s r IH]; intros st H; [reflexivity|]. cbn [run].
  destruct (step_absorbing st s H) as [e ->]. cbn. apply IH. exact H.
Qed.

Lemma run_nosession : forall l o, In o (run pb pr SNone l) -> o = OErr EInvalidSessionState.
Proof.
  induction l as [|s r IH]; intros o H; [destruct H|].
  destruct s; destruct H as [<-|H]; try reflexivity; apply IH; exact H.
Qed.

(* For a mechanism that is not offered start_session denies, and `get_credential_uuid()?` on the
   Denied state then turns the answer into the error EInvalidState: the session is dead although
   the answer is not Denied. *)
Lemma step_choose : forall hs m lk, auth_step pb pr (SInit hs) (SBegin m lk) =
  match last_opt (filter (fun h => can_proceed h m) hs) with
  | Some h => if softlockable h && lk then (SDenied, ODenied RLocked) else (SInProgress h, next_auth_state h)
  | None => (SDenied, OErr EInvalidState)
  end.
Proof. intros hs m lk. cbn. destruct (last_opt _); reflexivity. Qed.

Lemma step_inprogress : forall h s, auth_step pb pr (SInProgress h) s =
  if softlockable h && locked_of s then (SDenied, ODenied RLocked)
  else match s with
       | SBegin _ _ => (SInProgress h, OErr EInvalidAuthState)
       | SCred c _ => validate_creds pb pr (SInProgress h) c
       end.
Proof. intros h [m lk|c lk]; reflexivity. Qed.

Lemma final_absorbing : forall st s st' o, auth_step pb pr st s = (st', o) -> is_final o = true ->
  absorbing st' = true.
Proof.
  intros st s st' o H Hf. destruct st as [|hs|h| |], s as [m lk|c lk]; cbn in H;
    try destruct (last_opt _) as [h|]; cbn in H; try destruct (softlockable h && lk);
    try destruct (validate pb h c) as [[h' [t|al|r]] b];
    injection H as <- <-; first [reflexivity | discriminate Hf].
Qed.

Lemma run_final_ok : forall l st, final_ok (run pb pr st l) = true.
Proof.
  induction l as [|s r IH]; intros st; [reflexivity|]. cbn [run].
  destruct (auth_step pb pr st s) as [st' o] eqn:E. cbn [final_ok].
  destruct (is_final o) eqn:Ef; [|apply IH].
  apply run_absorbing. exact (final_absorbing _ _ _ _ E Ef).
Qed.

Lemma final_ok_nth : forall l i j o o', final_ok l = true -> (i < j)%nat ->
  nth_error l i = Some o -> is_final o = true -> nth_error l j = Some o' -> is_err o' = true.
Proof.
  induction l as [|x r IH]; intros i j o o' Hf Hij Hi Hfin Hj; [destruct i; discriminate Hi|].
  destruct j as [|j']; [lia|]. cbn [nth_error] in Hj. cbn [final_ok] in Hf.
  destruct (is_final x) eqn:Ex.
  - rewrite forallb_forall in Hf. apply Hf. eapply nth_error_In. exact Hj.
  - destruct i as [|i']; [cbn in Hi; injection Hi as ->; rewrite Hfin in Ex; discriminate Ex|].
    cbn [nth_error] in Hi. apply (IH i' j' o o' Hf); [lia | exact Hi | exact Hfin | exact Hj].
Qed.

Lemma final_ok_one_token : forall l, final_ok l = true -> (length (filter is_token l) <= 1)%nat.
Proof.
  induction l as [|x r IH]; intros Hf; [cbn; lia|]. cbn [final_ok] in Hf. cbn [filter].
  destruct (is_final x) eqn:Ex.
  - assert (Hn : filter is_token r = []).
    { clear IH. induction r as [|y r IH]; [reflexivity|]. cbn [forallb] in Hf. apply andb_true_iff in Hf as [Hy Hr].
      cbn [filter]. destruct y; try discriminate Hy. cbn. apply IH. exact Hr. }
    rewrite Hn. destruct (is_token x); cbn; lia.
  - destruct x; try discriminate Ex; cbn; apply IH; exact Hf.
Qed.

Lemma run_length : forall l st, length (run pb pr st l) = length l.
Proof.
  induction l as [|s r IH]; intros st; [reflexivity|]. cbn [run].
  destruct (auth_step pb pr st s) as [st' o]. cbn. rewrite IH. reflexivity.
Qed.

Lemma run_firstn : forall l st n, run pb pr st (firstn n l) = firstn n (run pb pr st l).
Proof.
  induction l as [|s r IH]; intros st n; [destruct n; reflexivity|].
  destruct n as [|n']; [reflexivity|]. cbn [firstn run].
  destruct (auth_step pb pr st s) as [st' o]. cbn [firstn]. rewrite IH. reflexivity.
Qed.

Lemma run_nth : forall l st k, (k < length l)%nat ->
  nth_error (run pb pr st l) k = last_opt (run pb pr st (firstn (S k) l)).
Proof.
  intros l st k Hk. rewrite run_firstn. symmetry. apply last_firstn_nth. rewrite run_length. exact Hk.
Qed.

Definition tok (st : sstate) (l : list step) : option out := token_of (last_opt (run pb pr st l)).

Lemma tok_absorbing : forall st l, absorbing st = true -> tok st l = None.
Proof.
  intros st l Ha. unfold tok. pose proof (last_opt_spec (run pb pr st l)) as Hin.
  destruct (last_opt (run pb pr st l)) as [o|]; [|reflexivity].
  pose proof (run_absorbing l st Ha) as He. rewrite forallb_forall in He. apply He in Hin.
  destruct o; try discriminate Hin; reflexivity.
Qed.

(* a token can only answer the last step, since it ends the session; any other answer is skipped *)
Lemma tok_step : forall {st s st' o r}, auth_step pb pr st s = (st', o) ->
  tok st (s :: r) = if is_token o then match r with [] => Some o | _ => None end else tok st' r.
Proof.
  intros st s st' o r E. unfold tok at 1. cbn [run]. rewrite E, last_opt_cons.
  destruct r as [|s2 r']; [destruct o; reflexivity|].
  replace (match run pb pr st' (s2 :: r') with [] => Some o | _ => last_opt (run pb pr st' (s2 :: r')) end)
    with (last_opt (run pb pr st' (s2 :: r'))) by (cbn [run]; destruct (auth_step pb pr st' s2); reflexivity).
  destruct (is_token o) eqn:Et; [|reflexivity].
  apply tok_absorbing. apply (final_absorbing _ _ _ _ E). destruct o; try discriminate Et; reflexivity.
Qed.

Definition matches (fs : list factor) (l : list step) : bool :=
  forall2b (verifies a) fs (creds_of l) && last_is_cred l.

Lemma matches_begin : forall fs m lk r, matches fs (SBegin m lk :: r) = matches fs r.
Proof. intros fs m lk r. unfold matches. destruct r; reflexivity. Qed.

Lemma matches_cred : forall f fs c lk r,
  matches (f :: fs) (SCred c lk :: r) =
  verifies a f c && match fs with [] => match r with [] => true | _ => false end | _ => matches fs r end.
Proof.
  intros f fs c lk r. unfold matches. cbn [creds_of forall2b]. rewrite <- andb_assoc. f_equal.
  rewrite last_is_cred_cons. destruct r as [|s2 r'].
  - destruct fs; reflexivity.
  - destruct fs as [|f' fs']; [|reflexivity].
    (* no factor left: a further credential is one too many, and without one the last step is a Begin *)
    destruct (creds_of (s2 :: r')) eqn:Ec; [apply creds_nil_last; exact Ec | reflexivity].
Qed.

Lemma nolock_cons : forall sl lk e, negb (sl && (lk || e)) = negb (sl && lk) && negb (sl && e).
Proof. intros [] [] e; reflexivity. Qed.

Lemma inprogress_token : forall rest h fs, remaining h = Some fs ->
  tok (SInProgress h) rest =
  if negb (softlockable h && existsb locked_of rest) && matches fs rest
  then Some (OSuccess (record_of (htype h) pr)) else None.
Proof.
  induction rest as [|s r IH]; intros h fs Hr; [unfold matches; rewrite !andb_false_r; reflexivity|].
  pose proof (step_inprogress h s) as E. cbn [existsb]. rewrite nolock_cons, <- andb_assoc.
  destruct (softlockable h && locked_of s); cbn [negb andb].
  { rewrite (tok_step E). apply tok_absorbing. reflexivity. }
  destruct s as [m lk|c lk].
  - rewrite (tok_step E), matches_begin. apply IH. exact Hr.
  - destruct fs as [|f fs]; [destruct (remaining_nonempty _ Hr)|]. rewrite matches_cred.
    pose proof (validate_cases h f fs c Hr) as Hv. cbn [validate_creds] in E.
    destruct (validate pb h c) as [[h' [t|al|rr]] b]; rewrite (tok_step E); cbn [is_token].
    + destruct Hv as (-> & -> & ->). destruct r; cbn [existsb andb]; rewrite andb_false_r; reflexivity.
    + destruct Hv as (-> & Hr' & <- & <-). destruct fs; [destruct (remaining_nonempty _ Hr')|]. apply IH. exact Hr'.
    + rewrite Hv, andb_false_r. apply tok_absorbing. reflexivity.
Qed.

Lemma offered_eq : offered_spec a = map allows_mech (handlers a).
Proof.
  destruct a as [vf ex an p pk at_ po pw]. unfold offered_spec, handlers, primary_handlers, passkey_handlers.
  cbn [a_anon a_primary a_passkeys a_attested a_attpolicy].
  destruct an; [reflexivity|].
  destruct p as [| | |t s b]; try destruct t, s, b; destruct po, pk, at_; reflexivity.
Qed.

Lemma handlers_remaining : forall h, In h (handlers a) ->
  remaining h = Some (required a (allows_mech h)) /\ htype h = authtype_of_mech a (allows_mech h).
Proof.
  destruct a as [vf ex an p pk at_ po pw]. unfold handlers. cbn [a_anon a_primary].
  intros h H. destruct an; [destruct H as [<-|[]]; split; reflexivity|].
  apply in_app_or in H as [H|H].
  - destruct p as [| | |[] [] []]; cbn in H;
      repeat (destruct H as [<-|H]; [split; reflexivity|]); destruct H.
  - destruct po, pk, at_; cbn in H; try (destruct H as [<-|[]]; split; reflexivity); destruct H.
Qed.

Lemma mfa_no_password : mfa_configured a = true -> mem_mech MPassword (offered_spec a) = false.
Proof.
  destruct a as [vf ex an p pk at_ po pw]. unfold mfa_configured, offered_spec. cbn.
  destruct p as [| | |t s b]; try discriminate. intros _.
  destruct an; [reflexivity|]. destruct t, s, b, po, pk, at_; reflexivity.
Qed.

Lemma new_session_out : forall ct, snd (new_session ct a) =
  if within ct a then match offered_spec a with [] => ODenied RInvalidCredState | ms => OChoose ms end
  else ODenied RExpired.
Proof.
  intros ct. unfold new_session. rewrite offered_eq. destruct (within ct a); [|reflexivity].
  destruct (handlers a); reflexivity.
Qed.

(* start_session's pick for m agrees with the declarative side *)
Lemma chosen : forall m,
  match last_opt (filter (fun h => can_proceed h m) (handlers a)) with
  | Some h => mem_mech m (offered_spec a) = true /\ remaining h = Some (required a m)
              /\ htype h = authtype_of_mech a m /\ softlockable h = softlockable_mech m
  | None => mem_mech m (offered_spec a) = false
  end.
Proof.
  intros m. pose proof (last_opt_spec (filter (fun h => can_proceed h m) (handlers a))) as H.
  destruct (last_opt _) as [h|].
  - apply filter_In in H as [Hin Hc]. apply can_proceed_allows in Hc. subst m.
    destruct (handlers_remaining h Hin) as [Hr Ht].
    repeat split; [|exact Hr|exact Ht|apply softlockable_mech_eq].
    apply mem_mech_In. rewrite offered_eq. apply in_map. exact Hin.
  - destruct (mem_mech m (offered_spec a)) eqn:E; [|reflexivity].
    apply mem_mech_In in E. rewrite offered_eq in E. apply in_map_iff in E as [h [Hh Hin]].
    assert (Hf : In h (filter (fun h => can_proceed h m) (handlers a)))
      by (apply filter_In; split; [exact Hin | apply can_proceed_allows; exact Hh]).
    rewrite H in Hf. destruct Hf.
Qed.

Lemma init_token : forall ct l, within ct a = true ->
  tok (SInit (handlers a)) l = spec_token a ct pr l.
Proof.
  intros ct l Hw. unfold spec_token. rewrite Hw.
  induction l as [|s r IH]; [reflexivity|]. destruct s as [m lk|c lk]; cbn [split_begin].
  - pose proof (step_choose (handlers a) m lk) as E. pose proof (chosen m) as Hc.
    destruct (last_opt (filter (fun h => can_proceed h m) (handlers a))) as [h|].
    + destruct Hc as (-> & Hr & <- & <-). rewrite nolock_cons.
      destruct (softlockable h && lk); rewrite (tok_step E); cbn [is_token negb andb].
      * rewrite andb_false_r. apply tok_absorbing. reflexivity.
      * rewrite (inprogress_token _ h _ Hr). unfold matches.
        rewrite andb_assoc, (andb_comm (negb _)). reflexivity.
    + rewrite Hc, (tok_step E). apply tok_absorbing. reflexivity.
  - (* a credential before any choice is refused and changes nothing *)
    rewrite (@tok_step _ _ (SInit (handlers a)) (OErr EInvalidState)) by reflexivity. exact IH.
Qed.

End Acct.

Theorem token_last : forall a ct pr l,
  token_of (last_opt (run_session a ct pr l)) = spec_token a ct pr l.
Proof.
  intros a ct pr l. change (tok a pr (fst (new_session ct a)) l = spec_token a ct pr l). unfold new_session.
  destruct (within ct a) eqn:Hw.
  - destruct (handlers a) as [|h0 hs] eqn:Eh; cbn [fst].
    + (* no handler: no session, and nothing is offered *)
      rewrite tok_absorbing by reflexivity. unfold spec_token. rewrite Hw, offered_eq, Eh.
      destruct (split_begin l) as [[[m lk] rest]|]; reflexivity.
    + rewrite <- Eh. apply init_token. exact Hw.
  - cbn [fst]. rewrite tok_absorbing by reflexivity. unfold spec_token. rewrite Hw. reflexivity.
Qed.

Theorem token_nth : forall a ct pr l k, (k < length l)%nat ->
  token_of (nth_error (run_session a ct pr l) k) = spec_token a ct pr (firstn (S k) l).
Proof.
  intros a ct pr l k Hk. unfold run_session. rewrite run_nth by exact Hk. apply token_last.
Qed.

Lemma split_begin_app : forall l m lk rest, split_begin l = Some (m, lk, rest) ->
  exists pre, l = pre ++ SBegin m lk :: rest /\ forallb is_cred pre = true.
Proof.
  induction l as [|s r IH]; intros m lk rest H; [discriminate|]. destruct s as [m' lk'|c lk'].
  - injection H as -> -> ->. exists []. split; reflexivity.
  - cbn in H. destruct (IH _ _ _ H) as [pre [-> Hp]]. exists (SCred c lk' :: pre). split; [reflexivity|exact Hp].
Qed.

Lemma init_ok_model : forall a ct, init_ok a ct (snd (new_session ct a)) = true.
Proof.
  intros a ct. rewrite new_session_out. destruct (within ct a) eqn:Ew; [|cbn [init_ok]; rewrite Ew; reflexivity].
  destruct (offered_spec a) as [|m ms] eqn:Eo; cbn [init_ok]; rewrite Ew, ?Eo; [reflexivity|].
  rewrite (proj2 (list_eqb_eq _ mech_eqb_eq _ _) eq_refl), <- Eo.
  destruct (mfa_configured a) eqn:Em; [rewrite (mfa_no_password a Em)|]; reflexivity.
Qed.

Lemma tokens_ok_model : forall a ct pr l, tokens_ok a ct pr l (run_session a ct pr l) = true.
Proof.
  intros a ct pr l. unfold tokens_ok. apply andb_true_iff. split.
  - unfold run_session. rewrite run_length. apply N.eqb_refl.
  - apply forallb_forall. intros k Hk. apply in_seq in Hk. rewrite token_nth by lia. apply oout_eqb_refl.
Qed.

Lemma final_ok_model : forall a ct pr l,
  final_ok (match snd (new_session ct a) with ODenied r => [ODenied r] | _ => [] end ++ run_session a ct pr l) = true.
Proof.
  intros a ct pr l. unfold run_session, new_session. destruct (within ct a).
  - destruct (handlers a) as [|h0 hs]; cbn [fst snd app final_ok is_final].
    + apply run_absorbing. reflexivity.
    + apply run_final_ok.
  - cbn [fst snd app final_ok is_final]. apply run_absorbing. reflexivity.
Qed.

Lemma agree_sess_pcheck : forall a s, agree_sess a s = true -> pcheck_sess a s = true.
Proof.
  intros a [ct pr ini evs] H. unfold agree_sess in H. cbn [s_ct s_priv s_init s_evs] in H.
  apply andb_true_iff in H as [H1 H2]. apply out_eqb_eq in H1.
  apply (list_eqb_eq _ out_eqb_eq) in H2.
  unfold pcheck_sess. cbn [s_ct s_priv s_init s_evs]. rewrite <- H1, <- H2.
  rewrite init_ok_model, tokens_ok_model, final_ok_model. reflexivity.
Qed.

Theorem agree_pcheck : forall c, agree c = true -> pcheck c = true.
Proof.
  intros [a s|a s0 s1 ord] H; cbn in *.
  - apply agree_sess_pcheck. exact H.
  - apply andb_true_iff in H as [H0 H1]. rewrite (agree_sess_pcheck _ _ H0), (agree_sess_pcheck _ _ H1). reflexivity.
Qed.
