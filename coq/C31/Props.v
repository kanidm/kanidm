(* A password is its list of grapheme clusters; `ok_pw cf pw` is the property's
   sentence for one account configuration: at least the account's effective minimum (spec_min: the largest
   minimum of its account-policy groups, never below 10, and never below 15 unless a group demands MFA) and at
   most 128 grapheme clusters, and not equal to any badlist entry after lowercasing both. *)
From Coq Require Import List NArith Bool Lia.
Import ListNotations.
Require Import KV.C31.Model KV.C31.Proofs.
Open Scope N_scope.

(* The minimum the code resolves (fold over the groups + single-factor bump) IS the declarative effective
   minimum, for any number of groups in any order. *)
Theorem C31_effective_minimum : forall pols, fst (resolve pols) = spec_min pols.
Proof. exact resolve_min. Qed.
(* ... which respects every group's minimum, and is at least 15 when no group demands MFA *)
Theorem C31_effective_minimum_bounds : forall pols,
  PW_MFA_MIN <= spec_min pols /\ (forall p, In p pols -> pol_min p <= spec_min pols) /\
  ((forall p, In p pols -> pol_cred p < CT_MFA) -> PW_SFA_MIN <= spec_min pols).
Proof. intro pols. split; [apply spec_min_ge|]. split; [apply spec_min_ge_group | apply spec_min_sfa]. Qed.

(* The credential-update gate accepts a password IF AND ONLY IF it is within the bounds in grapheme clusters,
   contains neither the RADIUS secret nor a related input, scores 4 with zxcvbn and is not badlisted
   (case-insensitively). *)
Theorem C31_cu_accept_iff : forall pmin pmax bad rel radius zx pw,
  quality_cu pmin pmax bad rel radius zx pw = ROk <-> cu_accepts pmin pmax bad rel radius zx pw.
Proof. exact quality_cu_ok_iff. Qed.

(* Sessions of ANY length: whatever primary / POSIX password a committed session stores comes from a
   set-request of that kind in the session whose password satisfies the property, and every accepted request
   (including the quality-check endpoint) carries such a password. *)
Theorem C31_cu_sessions : forall cf ops rs cm stp stu,
  run_sess cf ops = (rs, cm, stp, stu) ->
  stored_from cf ops true stp /\ stored_from cf ops false stu /\ accepted_all cf ops rs.
Proof. intros cf ops rs cm stp stu H. exact (sess_pcheck_spec _ _ _ _ _ _ (run_sess_ok _ _ _ _ _ _ H)). Qed.

(* THE FULL STATEMENT (C31_statement, Proofs.v): no accepted direct POSIX password change and no credential
   update session stores or accepts a password outside ok_pw.  It is stated per tree variant; the current tree
   (Model.tree_fixed = true, /repo commit cec32bc) is the variant `true`. *)
Definition C31_full_statement : Prop := C31_statement tree_fixed.

(* HEADLINE: the full statement holds for the current tree: every path — direct POSIX change, session primary,
   session POSIX, quality-check endpoint, commit — for all configurations, passwords and session lengths.  (The
   direct POSIX half asks for pwd_wf, no empty cluster: the statement is shared with the pre-fix variant, whose
   byte window needs it; this variant does not.) *)
Theorem C31_full_fixed_tree : C31_statement true.
Proof.
  split; [|exact C31_cu_sessions]. intros cf pw zx Hwf H.
  destruct (posix_ok_or_known true cf pw zx Hwf H) as [Hok|[Hf _]]; [exact Hok | discriminate].
Qed.
Theorem C31_full : C31_full_statement.
Proof. exact C31_full_fixed_tree. Qed.

(* Bridge: on every case where the implementation agrees with the model, the property's executable predicate
   holds of the IMPLEMENTATION's answers (there is no known class). *)
Theorem C31_agree_implies_property : forall c, agree c = true -> pcheck c = true.
Proof. exact agree_implies_property_fixed. Qed.

(* The tree before fix commit cec32bc violated the statement: account policy minimum 30, the 18 character password
   "eiK7ohvie4Aeph9Eix" was accepted and stored by set_unix_account_password. *)
Theorem C31_prefix_refuted : ~ C31_statement false.
Proof. intros [H _]. revert H. apply (short_accepted_refutes w_cfg_policy30 w_pw_18 4); reflexivity. Qed.
(* Independently of any policy: 9 grapheme clusters (27 bytes) passed the 15 BYTE check of the POSIX path. *)
Theorem C31_prefix_refuted_graphemes :
  ~ (forall cf pw zx, pwd_wf pw = true -> posix_op_gen false cf pw zx = ROk -> ok_pw cf pw).
Proof. apply (short_accepted_refutes w_cfg_default w_pw_comb 4); reflexivity. Qed.
(* what did hold before the fix: everything except KnownClass = { POSIX account, >= 15 bytes, fewer grapheme
   clusters than the effective minimum } *)
Theorem C31_prefix_partial :
  (forall cf pw zx, pwd_wf pw = true -> posix_op_gen false cf pw zx = ROk -> ~ KnownClass cf pw -> ok_pw cf pw) /\
  (forall cf ops rs cm stp stu, run_sess cf ops = (rs, cm, stp, stu) ->
     stored_from cf ops true stp /\ stored_from cf ops false stu /\ accepted_all cf ops rs).
Proof.
  split; [|exact C31_cu_sessions]. intros cf pw zx Hwf H Hk.
  destruct (posix_ok_or_known false cf pw zx Hwf H) as [Hok|[_ Hk']]; [exact Hok | contradiction].
Qed.
(* what an accepted pre-fix POSIX change still guaranteed: POSIX account, the 15..128 window in BYTES (hence at
   most 128 clusters), not badlisted, score 4; the effective minimum only if the cluster count happens to reach it *)
Theorem C31_prefix_posix_guarantees : forall cf pw zx,
  pwd_wf pw = true -> posix_op_gen false cf pw zx = ROk ->
  c_posix cf = true /\ PW_SFA_MIN <= bytes pw /\ bytes pw <= PW_MAX /\ graphemes pw <= PW_MAX /\
  ~ badlist_hit (c_bad cf) (flat pw) /\ 4 <= zx /\ (spec_min (c_pols cf) <= graphemes pw -> ok_pw cf pw).
Proof.
  intros cf pw zx Hwf H. apply posix_op_ok_iff in H as [Hp H]. apply quality_posix_ok_iff in H as [H1 [H2 [_ [H4 H3]]]].
  pose proof (graphemes_le_bytes pw Hwf) as Hg. unfold ok_pw. repeat split; try assumption; lia.
Qed.
(* the pre-fix bridge: agreement with the pre-fix model outside its known class gave the property *)
Theorem C31_prefix_agree_implies_property : forall c,
  agree_gen false c = true -> known_gen false c = false -> pcheck c = true.
Proof. exact (agree_implies_property_gen false). Qed.

(* pcheck says what it should: for a direct POSIX change, acceptance or a changed stored credential imply
   ok_pw; for a session, the stored credentials and accepted requests do. *)
Theorem C31_pcheck_sound_posix : forall cf pw zx impl chg items,
  pcheck (CGroup cf items) = true -> In (IPosix pw zx impl chg) items ->
  (impl = ROk -> ok_pw cf pw) /\ (chg <> 0 -> chg = 1 /\ ok_pw cf pw).
Proof. intros cf pw zx impl chg items H Hin. exact (posix_pcheck_spec _ _ _ _ _ (pcheck_item _ _ _ H Hin)). Qed.
Theorem C31_pcheck_sound_session : forall cf ops impl commit stp stu items,
  pcheck (CGroup cf items) = true -> In (ISess ops impl commit stp stu) items ->
  stored_from cf ops true stp /\ stored_from cf ops false stu /\ accepted_all cf ops impl.
Proof. intros cf ops impl commit stp stu items H Hin. exact (sess_pcheck_spec _ _ _ _ _ _ (pcheck_item _ _ _ H Hin)). Qed.
