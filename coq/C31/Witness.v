(* Non-vacuity: concrete non-trivial values meet the hypotheses of the implication theorems. *)
From Coq Require Import List NArith Bool.
Import ListNotations.
Require Import KV.C31.Model KV.C31.Proofs.
Open Scope N_scope.

Definition asc (l : list N) : pwd := map (fun c => [c]) l.
(* "Tr7-kq9!zvWx2#Lm" (16), "Tr7-kq9!zvWx2#Lm+Qb8" (20) *)
Definition pw16 : pwd := asc [84;114;55;45;107;113;57;33;122;118;87;120;50;35;76;109].
Definition pw20 : pwd := asc [84;114;55;45;107;113;57;33;122;118;87;120;50;35;76;109;43;81;98;56].
(* two groups: minimum 18 and MFA-with-minimum-12; badlist entry submitted in upper case *)
Definition cfgw : cfg :=
  mkcfg [(Some 18, None); (Some 12, Some 10)] [map (fun c => if (97 <=? c) && (c <=? 122) then c - 32 else c) (flat pw20)]
        [[97;108;105;99;101]] (Some [115;101;99;114;101;116]) true true.
Definition cfgw_nobad : cfg := mkcfg [(Some 18, None); (Some 12, Some 10)] [] [[97;108;105;99;101]] None true true.

(* C31_effective_minimum: MFA group present, so no bump; largest group minimum wins *)
Example C31_witness_minimum : resolve (c_pols cfgw) = (18, 10) /\ spec_min (c_pols cfgw) = 18.
Proof. vm_compute. split; reflexivity. Qed.
Example C31_witness_minimum_sfa : resolve [(Some 12, Some 0); (None, None)] = (15, 0).
Proof. vm_compute. reflexivity. Qed.

(* C31_cu_sessions / C31_cu_accept_iff: a session that refuses a too-short, a badlisted (other case), a related
   and a score-3 password, accepts one primary and one POSIX password, and stores exactly those (no request
   contains the RADIUS secret of cfgw) *)
Example C31_witness_session :
  run_sess cfgw [SSetPrimary pw16 4; SSetUnix pw20 4; SSetPrimary (pw20 ++ asc [33]) 4; SCheck (asc [97;108;105;99;101] ++ pw20) 4;
                 SSetUnix (pw20 ++ asc [63;63]) 4; SSetPrimary (pw20 ++ asc [35]) 3]
  = ([RTooShort 18; RBadListed; ROk; RRelated; ROk; RWeak], 0, 3, 5).
Proof. vm_compute. reflexivity. Qed.
Example C31_witness_session_not_committed :
  run_sess (mkcfg [(None, Some 10)] [] [] None true false) [SSetPrimary pw16 4] = ([ROk], E_CU0004, 0, 0).
Proof. vm_compute. reflexivity. Qed.

(* C31_full_fixed_tree: hypothesis met (accepted) on the fixed variant; refused where the pre-fix tree accepts *)
Example C31_witness_posix_fixed :
  posix_op_gen true cfgw_nobad pw20 4 = ROk /\ posix_op_gen true cfgw_nobad pw16 4 = RTooShort 18 /\
  posix_op_gen false cfgw_nobad pw16 4 = ROk.
Proof. vm_compute. repeat split; reflexivity. Qed.
(* C31_prefix_partial: an accepted POSIX change outside KnownClass *)
Example C31_witness_prefix_posix_outside_class :
  posix_op_gen false cfgw_nobad pw20 4 = ROk /\ pwd_wf pw20 = true /\
  (graphemes pw20 <? spec_min (c_pols cfgw_nobad)) = false.
Proof. vm_compute. repeat split; reflexivity. Qed.
(* C31_prefix_refuted: the refuting inputs are accepted by the pre-fix POSIX path and lie in KnownClass *)
Example C31_witness_prefix_refuted :
  posix_op_gen false w_cfg_policy30 w_pw_18 4 = ROk /\ spec_min (c_pols w_cfg_policy30) = 30 /\ graphemes w_pw_18 = 18 /\
  posix_op_gen false w_cfg_default w_pw_comb 4 = ROk /\ graphemes w_pw_comb = 9 /\ bytes w_pw_comb = 27.
Proof. vm_compute. repeat split; reflexivity. Qed.

(* C31_prefix_agree_implies_property: a case that agrees, is not known, and is non-trivial (one stored, one refused) *)
Example C31_witness_prefix_agree :
  let c := CGroup cfgw_nobad
     [IPosix pw20 4 ROk 1; IPosix (asc [97;98;99]) 0 (RTooShort 15) 0;
      ISess [SSetUnix pw16 4; SSetPrimary pw20 4] [RTooShort 18; ROk] 0 2 0] in
  agree_gen false c = true /\ known_gen false c = false /\ pcheck c = true.
Proof. vm_compute. repeat split; reflexivity. Qed.
(* C31_agree_implies_property (current tree): a non-trivial agreeing case *)
Example C31_witness_agree :
  let c := CGroup cfgw_nobad
     [IPosix pw20 4 ROk 1; IPosix pw16 4 (RTooShort 18) 0;
      ISess [SSetUnix pw16 4; SSetPrimary pw20 4] [RTooShort 18; ROk] 0 2 0] in
  agree c = true /\ known c = false /\ pcheck c = true.
Proof. vm_compute. repeat split; reflexivity. Qed.
(* the known class is recognised on the pre-fix variant and is a model disagreement on the fixed variant *)
Example C31_witness_prefix_known :
  let c := CGroup w_cfg_policy30 [IPosix w_pw_18 4 ROk 1] in
  agree_gen false c = true /\ pcheck c = false /\ known_gen false c = true /\ agree_gen true c = false /\ known_gen true c = false.
Proof. vm_compute. repeat split; reflexivity. Qed.
(* string functions: U+0130 lowercases to two scalars; a ZWJ family is one cluster of 11 bytes *)
Example C31_witness_strings :
  lower [304; 201; 937; 1071; 1025; 223] = [105; 775; 233; 969; 1103; 1105; 223] /\
  bytes [[128104; 8205; 128105]; [101; 769]] = 14 /\ graphemes [[128104; 8205; 128105]; [101; 769]] = 2.
Proof. vm_compute. repeat split; reflexivity. Qed.
