(* The resolved policy is the declarative minimum; each quality gate accepts exactly when none of its tests
   refuses; sessions by induction over the request list, keeping the two stored indices justified; agreement
   with the model transfers the property to the implementation's answers. *)
From Coq Require Import List NArith Bool Lia.
Import ListNotations.
Require Import KV.C31.Model.
Open Scope N_scope.
Arguments N.add : simpl never.
Arguments N.sub : simpl never.
Arguments N.ltb : simpl never.
Arguments N.leb : simpl never.
Arguments N.eqb : simpl never.
Arguments N.max : simpl never.
Arguments N.of_nat : simpl never.

Lemma str_eqb_eq : forall a b, str_eqb a b = true <-> a = b.
Proof.
  induction a as [|x a IH]; destruct b as [|y b]; cbn [str_eqb]; split; intro H; try reflexivity; try discriminate.
  - apply andb_true_iff in H as [H1 H2]. apply N.eqb_eq in H1. apply IH in H2. subst. reflexivity.
  - injection H as -> ->. apply andb_true_iff. split; [apply N.eqb_refl | apply IH; reflexivity].
Qed.
Lemma res_eqb_eq : forall a b, res_eqb a b = true -> a = b.
Proof.
  intros a b H. destruct a, b; cbn in H; try discriminate; try reflexivity; apply N.eqb_eq in H; subst; reflexivity.
Qed.
Lemma res_list_eqb_eq : forall a b, res_list_eqb a b = true -> a = b.
Proof.
  induction a as [|x a IH]; destruct b as [|y b]; cbn [res_list_eqb]; intro H; try reflexivity; try discriminate.
  apply andb_true_iff in H as [H1 H2]. apply res_eqb_eq in H1. apply IH in H2. subst. reflexivity.
Qed.
Lemma is_ok_eq : forall r, is_ok r = true <-> r = ROk.
Proof. intro r. destruct r; cbn; split; intro H; try reflexivity; discriminate. Qed.
Lemma ifmax : forall a b, (if a <? b then b else a) = N.max a b.
Proof. intros a b. destruct (N.ltb_spec a b); lia. Qed.
Lemma leb_max : forall c a b, (c <=? N.max a b) = (c <=? a) || (c <=? b).
Proof. intros c a b. apply eq_true_iff_eq. rewrite orb_true_iff, !N.leb_le. apply N.max_le_iff. Qed.
Lemma existsb_false : forall (A : Type) (f : A -> bool) l, existsb f l = false <-> forall x, In x l -> f x = false.
Proof.
  intros A f l. rewrite <- not_true_iff_false, existsb_exists. split.
  - intros H x Hin. apply not_true_is_false. intro Hx. apply H. exists x. split; assumption.
  - intros H [x [Hin Hx]]. rewrite (H x Hin) in Hx. discriminate.
Qed.

Lemma cp_bytes_pos : forall c, 1 <= cp_bytes c.
Proof. intro c. unfold cp_bytes. destruct (c <? 128), (c <? 2048), (c <? 65536); lia. Qed.
Lemma str_bytes_app : forall a b, str_bytes (a ++ b) = str_bytes a + str_bytes b.
Proof. induction a as [|x a IH]; intro b; cbn [app str_bytes]; [lia | rewrite IH; lia]. Qed.
(* a grapheme cluster holds at least one scalar value of at least one byte *)
Lemma graphemes_le_bytes : forall p, pwd_wf p = true -> graphemes p <= bytes p.
Proof.
  unfold graphemes, bytes, flat. induction p as [|[|x c] p IH]; cbn [pwd_wf forallb andb]; intro H; [cbn; lia | discriminate |].
  specialize (IH H). pose proof (cp_bytes_pos x). cbn [concat length str_bytes app].
  rewrite str_bytes_app, Nat2N.inj_succ. lia.
Qed.

Definition maxover (f : polattr -> N) (b : N) (l : list polattr) : N := fold_right (fun p m => N.max (f p) m) b l.
(* maxover pol_cred 0, written out *)
Definition gcred (pols : list polattr) : N := fold_right (fun p m => N.max (pol_cred p) m) 0 pols.

Lemma maxover_base : forall f l a b, maxover f (N.max a b) l = N.max a (maxover f b l).
Proof. unfold maxover. intros f l a b. induction l as [|p l IH]; cbn [fold_right]; [reflexivity | rewrite IH; lia]. Qed.
Lemma maxover_ge_base : forall f l b, b <= maxover f b l.
Proof. unfold maxover. intros f l b. induction l as [|p l IH]; cbn [fold_right]; lia. Qed.
Lemma maxover_ge_member : forall f l b p, In p l -> f p <= maxover f b l.
Proof.
  unfold maxover. intros f l b p. induction l as [|q l IH]; cbn [fold_right In]; [contradiction|].
  intros [->|Hin]; [|specialize (IH Hin)]; lia.
Qed.
Lemma existsb_maxover : forall f c l b, b < c -> existsb (fun p => c <=? f p) l = (c <=? maxover f b l).
Proof.
  unfold maxover. intros f c l b Hb. induction l as [|p l IH]; cbn [existsb fold_right].
  - symmetry. apply N.leb_gt. exact Hb.
  - rewrite leb_max, IH. reflexivity.
Qed.

Lemma fold_pstep : forall pols m c, fold_left pstep pols (m, c) = (maxover pol_min m pols, maxover pol_cred c pols).
Proof.
  induction pols as [|p t IH]; intros m c; cbn [fold_left]; [reflexivity|].
  unfold pstep at 2. cbn [fst snd]. rewrite !ifmax, IH, (N.max_comm m), (N.max_comm c), !maxover_base. reflexivity.
Qed.
Lemma spec_min_eq : forall pols,
  spec_min pols = N.max (maxover pol_min PW_MFA_MIN pols) (if CT_MFA <=? gcred pols then PW_MFA_MIN else PW_SFA_MIN).
Proof. intro pols. unfold spec_min. rewrite (existsb_maxover pol_cred CT_MFA pols 0) by reflexivity. reflexivity. Qed.
Lemma resolve_spec : forall pols, resolve pols = (spec_min pols, gcred pols).
Proof.
  intro pols. unfold resolve. rewrite spec_min_eq, fold_pstep. cbn [fst snd]. change (maxover pol_cred 0 pols) with (gcred pols).
  pose proof (maxover_ge_base pol_min pols PW_MFA_MIN) as Hg. unfold PW_MFA_MIN, PW_SFA_MIN, CT_MFA in *.
  destruct (N.ltb_spec (gcred pols) 10) as [Hc|Hc]; cbn [andb].
  - rewrite (proj2 (N.leb_gt _ _) Hc). destruct (N.ltb_spec (maxover pol_min 10 pols) 15); f_equal; lia.
  - rewrite (proj2 (N.leb_le _ _) Hc). f_equal; lia.
Qed.
Lemma resolve_min : forall pols, fst (resolve pols) = spec_min pols.
Proof. intro pols. rewrite resolve_spec. reflexivity. Qed.
Lemma resolve_cred : forall pols, snd (resolve pols) = gcred pols.
Proof. intro pols. rewrite resolve_spec. reflexivity. Qed.
Lemma spec_min_ge : forall pols, PW_MFA_MIN <= spec_min pols.
Proof. intro pols. rewrite spec_min_eq. pose proof (maxover_ge_base pol_min pols PW_MFA_MIN). lia. Qed.
Lemma spec_min_ge_group : forall pols p, In p pols -> pol_min p <= spec_min pols.
Proof. intros pols p Hin. rewrite spec_min_eq. pose proof (maxover_ge_member pol_min pols PW_MFA_MIN p Hin). lia. Qed.
Lemma spec_min_sfa : forall pols, (forall p, In p pols -> pol_cred p < CT_MFA) -> PW_SFA_MIN <= spec_min pols.
Proof.
  intros pols H. unfold spec_min. rewrite (proj2 (existsb_false _ _ pols)); [lia|].
  intros p Hin. apply N.leb_gt. exact (H p Hin).
Qed.

Definition badlist_hit (bad : list str) (s : str) : Prop := exists b, In b bad /\ lower b = lower s.
Definition ok_pw (cf : cfg) (pw : pwd) : Prop :=
  spec_min (c_pols cf) <= graphemes pw /\ graphemes pw <= PW_MAX /\ ~ badlist_hit (c_bad cf) (flat pw).

Lemma badlisted_spec : forall bad s, badlisted bad s = true <-> badlist_hit bad s.
Proof.
  intros bad s. unfold badlisted, badlist_hit. rewrite existsb_exists.
  split; intros [b [Hin H]]; exists b; (split; [exact Hin | apply str_eqb_eq; exact H]).
Qed.
Lemma badlisted_false : forall bad s, badlisted bad s = false <-> ~ badlist_hit bad s.
Proof. intros bad s. rewrite <- badlisted_spec, not_true_iff_false. reflexivity. Qed.
Lemma ok_pwb_spec : forall cf pw, ok_pwb cf pw = true <-> ok_pw cf pw.
Proof.
  intros cf pw. unfold ok_pwb, ok_pw. fold (badlisted (c_bad cf) (flat pw)).
  rewrite !andb_true_iff, negb_true_iff, !N.leb_le, badlisted_false. tauto.
Qed.

(* both gates are chains `if test then error else ...` ending in ROk; in one step of such a chain P reads
   "the test does not fire" and Q reads the rest *)
Lemma gate_step : forall (b : bool) (e r : res) (P Q : Prop),
  e <> ROk -> (b = false <-> P) -> (r = ROk <-> Q) -> ((if b then e else r) = ROk <-> P /\ Q).
Proof.
  intros [|] e r P Q He HP HQ; split.
  - intro H. destruct (He H).
  - intros [H _]. apply HP in H. discriminate.
  - intro H. split; [apply HP; reflexivity | apply HQ; exact H].
  - intros [_ H]. apply HQ. exact H.
Qed.
Lemma gate_last : forall (b : bool) (e : res) (P : Prop),
  e <> ROk -> (b = false <-> P) -> ((if b then e else ROk) = ROk <-> P).
Proof.
  intros [|] e P He HP; split; intro H; try reflexivity.
  - destruct (He H).
  - apply HP in H. discriminate.
  - apply HP. reflexivity.
Qed.

Definition cu_accepts (pmin pmax : N) (bad rel : list str) (radius : option str) (zx : N) (pw : pwd) : Prop :=
  pmin <= graphemes pw /\ graphemes pw <= pmax /\
  (forall r, radius = Some r -> containsb (flat pw) r = false) /\
  (forall r, In r rel -> containsb (flat pw) r = false) /\
  4 <= zx /\ ~ badlist_hit bad (flat pw).

Lemma radius_clear : forall (radius : option str) s,
  match radius with Some r => containsb s r | None => false end = false <-> forall r, radius = Some r -> containsb s r = false.
Proof.
  intros [r|] s; split; intro H.
  - intros r' [= <-]. exact H.
  - exact (H r eq_refl).
  - discriminate.
  - reflexivity.
Qed.
Lemma quality_cu_ok_iff : forall pmin pmax bad rel radius zx pw,
  quality_cu pmin pmax bad rel radius zx pw = ROk <-> cu_accepts pmin pmax bad rel radius zx pw.
Proof.
  intros pmin pmax bad rel radius zx pw. unfold quality_cu, cu_accepts.
  apply gate_step; [discriminate | apply N.ltb_ge |].
  apply gate_step; [discriminate | apply N.ltb_ge |].
  apply gate_step; [discriminate | apply radius_clear |].
  apply gate_step; [discriminate | apply existsb_false |].
  apply gate_step; [discriminate | apply N.ltb_ge |].
  apply gate_last; [discriminate | apply badlisted_false].
Qed.

Lemma cu_quality_ok : forall cf zx pw, cu_quality cf zx pw = ROk -> ok_pw cf pw.
Proof.
  intros cf zx pw H. unfold cu_quality in H. apply quality_cu_ok_iff in H as [H1 [H2 [_ [_ [_ H6]]]]].
  rewrite resolve_min in H1. repeat split; assumption.
Qed.
Lemma cu_quality_okb : forall cf zx pw, is_ok (cu_quality cf zx pw) = true -> ok_pwb cf pw = true.
Proof. intros cf zx pw H. apply ok_pwb_spec, (cu_quality_ok cf zx), is_ok_eq, H. Qed.

(* zxcvbn refuses below 3 and at 3 with different errors, so the chain has two score tests: 3 <= zx is implied
   by 4 <= zx and stands here only because each conjunct reads one test of the chain *)
Lemma quality_posix_ok_iff : forall fixed pmin bad zx pw,
  quality_posix_gen fixed pmin bad zx pw = ROk <->
  (if fixed then N.max pmin PW_SFA_MIN else PW_SFA_MIN) <= (if fixed then graphemes pw else bytes pw) /\
  (if fixed then graphemes pw else bytes pw) <= PW_MAX /\ 3 <= zx /\ 4 <= zx /\ ~ badlist_hit bad (flat pw).
Proof.
  intros fixed pmin bad zx pw. unfold quality_posix_gen.
  apply gate_step; [discriminate | apply N.ltb_ge |].
  apply gate_step; [discriminate | apply N.ltb_ge |].
  apply gate_step; [discriminate | apply N.ltb_ge |].
  apply gate_step; [discriminate | apply N.ltb_ge |].
  apply gate_last; [discriminate | apply badlisted_false].
Qed.
Lemma posix_op_ok_iff : forall fixed cf pw zx,
  posix_op_gen fixed cf pw zx = ROk <->
  c_posix cf = true /\ quality_posix_gen fixed (spec_min (c_pols cf)) (c_bad cf) zx pw = ROk.
Proof.
  intros fixed cf pw zx. unfold posix_op_gen. rewrite resolve_min.
  destruct (c_posix cf); cbn [negb]; intuition discriminate.
Qed.

(* Model.item_known_gen false, as a Prop *)
Definition KnownClass (cf : cfg) (pw : pwd) : Prop :=
  c_posix cf = true /\ PW_SFA_MIN <= bytes pw /\ graphemes pw < spec_min (c_pols cf).

Lemma posix_ok_or_known : forall fixed cf pw zx,
  pwd_wf pw = true -> posix_op_gen fixed cf pw zx = ROk -> ok_pw cf pw \/ (fixed = false /\ KnownClass cf pw).
Proof.
  intros fixed cf pw zx Hwf H. apply posix_op_ok_iff in H as [Hp H]. apply quality_posix_ok_iff in H as [H1 [H2 [_ [_ H3]]]].
  unfold ok_pw, KnownClass. destruct fixed; [left; repeat split; try assumption; lia|].
  (* the pre-fix window is in bytes: only here the well-formedness of the clusters matters *)
  pose proof (graphemes_le_bytes pw Hwf) as Hg.
  destruct (N.le_gt_cases (spec_min (c_pols cf)) (graphemes pw)); [left | right]; repeat split; try assumption; lia.
Qed.

Lemma stored_ok_zero : forall cf ops b, stored_ok cf ops b 0 = true.
Proof. reflexivity. Qed.

(* request number i (0-based) leaves the index i + 1 in the session state *)
Lemma stored_ok_new : forall cf all i o primary, nth_error all (N.to_nat i) = Some o ->
  stored_ok cf all primary (i + 1) =
  match o with
  | SSetPrimary pw _ => primary && ok_pwb cf pw
  | SSetUnix pw _ => negb primary && ok_pwb cf pw
  | SCheck _ _ => false
  end.
Proof.
  intros cf all i o primary H. unfold stored_ok. rewrite N.add_sub, H.
  destruct (N.eqb_spec (i + 1) 0); [lia | reflexivity].
Qed.

Lemma sess_step_inv : forall cf all i sp su o r i' sp' su',
  nth_error all (N.to_nat i) = Some o ->
  sess_step cf (i, sp, su) o = (r, (i', sp', su')) ->
  stored_ok cf all true sp = true -> stored_ok cf all false su = true ->
  i' = i + 1 /\ stored_ok cf all true sp' = true /\ stored_ok cf all false su' = true /\
  (is_ok r = true -> ok_pwb cf (sop_pw o) = true).
Proof.
  intros cf all i sp su o r i' sp' su' Hn H Hp Hu.
  pose proof (fun primary => stored_ok_new cf all i o primary Hn) as Hnew.
  destruct o as [pw zx | pw zx | pw zx]; cbn [sess_step sop_pw] in H |- *.
  - destruct (CT_MFA <? snd (resolve (c_pols cf))); injection H as <- <- <- <-.
    + repeat split; try assumption. discriminate.
    + repeat split; try assumption; [|apply cu_quality_okb].
      destruct (is_ok (cu_quality cf zx pw)) eqn:E; [|exact Hp]. rewrite Hnew. exact (cu_quality_okb cf zx pw E).
  - destruct (negb (c_posix cf)); injection H as <- <- <- <-.
    + repeat split; try assumption. discriminate.
    + repeat split; try assumption; [|apply cu_quality_okb].
      destruct (is_ok (cu_quality cf zx pw)) eqn:E; [|exact Hu]. rewrite Hnew. exact (cu_quality_okb cf zx pw E).
  - injection H as <- <- <- <-. repeat split; try assumption. apply cu_quality_okb.
Qed.

Lemma nth_error_mid : forall (pre : list sop) o t, nth_error (pre ++ o :: t) (length pre) = Some o.
Proof. induction pre as [|x pre IH]; intros o t; [reflexivity | exact (IH o t)]. Qed.

Lemma run_from_inv : forall cf ops pre sp0 su0 rs i sp su,
  run_from cf (N.of_nat (length pre), sp0, su0) ops = (rs, (i, sp, su)) ->
  stored_ok cf (pre ++ ops) true sp0 = true -> stored_ok cf (pre ++ ops) false su0 = true ->
  stored_ok cf (pre ++ ops) true sp = true /\ stored_ok cf (pre ++ ops) false su = true /\
  accepted_ok cf ops rs = true.
Proof.
  intros cf ops. induction ops as [|o t IH]; intros pre sp0 su0 rs i sp su H Hp Hu; cbn [run_from] in H.
  - injection H as <- <- <- <-. repeat split; assumption.
  - destruct (sess_step cf (N.of_nat (length pre), sp0, su0) o) as [r [[i1 sp1] su1]] eqn:Es.
    destruct (run_from cf (i1, sp1, su1) t) as [rs' st''] eqn:Er. injection H as <- ->.
    assert (Hn : nth_error (pre ++ o :: t) (N.to_nat (N.of_nat (length pre))) = Some o).
    { rewrite Nat2N.id. apply nth_error_mid. }
    destruct (sess_step_inv _ _ _ _ _ _ _ _ _ _ Hn Es Hp Hu) as [-> [Hp1 [Hu1 Hr]]].
    (* the remaining requests continue the list pre ++ [o] *)
    replace (N.of_nat (length pre) + 1) with (N.of_nat (length (pre ++ [o]))) in Er by (rewrite app_length; apply Nat2N.inj_add).
    replace (pre ++ o :: t) with ((pre ++ [o]) ++ t) in * by (rewrite <- app_assoc; reflexivity).
    destruct (IH _ _ _ _ _ _ _ Er Hp1 Hu1) as [A [B C]].
    cbn [accepted_ok]. rewrite C, andb_true_r. repeat split; try assumption.
    destruct (is_ok r); [exact (Hr eq_refl) | reflexivity].
Qed.

Lemma run_sess_ok : forall cf ops rs cm stp stu,
  run_sess cf ops = (rs, cm, stp, stu) -> item_pcheck cf (ISess ops rs cm stp stu) = true.
Proof.
  intros cf ops rs cm stp stu H. unfold run_sess in H.
  destruct (run_from cf (0, 0, 0) ops) as [rs' [[i sp] su]] eqn:Er.
  destruct (run_from_inv cf ops [] 0 0 rs' i sp su Er (stored_ok_zero _ _ _) (stored_ok_zero _ _ _)) as [A [B C]].
  cbn [app] in A, B. cbn [item_pcheck].
  destruct (can_commit cf); injection H as <- <- <- <-; rewrite C; [rewrite A, B|]; reflexivity.
Qed.

Definition stored_from (cf : cfg) (ops : list sop) (primary : bool) (k : N) : Prop :=
  k = 0 \/ exists pw zx, nth_error ops (N.to_nat (k - 1)) = Some ((if primary then SSetPrimary else SSetUnix) pw zx) /\ ok_pw cf pw.
Lemma stored_ok_spec : forall cf ops primary k, stored_ok cf ops primary k = true -> stored_from cf ops primary k.
Proof.
  intros cf ops primary k H. unfold stored_ok in H. destruct (N.eqb_spec k 0) as [Hk0|Hk]; [left; exact Hk0|]. right.
  destruct (nth_error ops (N.to_nat (k - 1))) as [[pw zx|pw zx|pw zx]|]; try discriminate;
    apply andb_true_iff in H as [H1 H2]; destruct primary; try discriminate; exists pw, zx; split; try reflexivity; apply ok_pwb_spec; exact H2.
Qed.
Definition accepted_all (cf : cfg) (ops : list sop) (rs : list res) : Prop :=
  forall n o, nth_error ops n = Some o -> nth_error rs n = Some ROk -> ok_pw cf (sop_pw o).
Lemma accepted_ok_spec : forall cf ops rs, accepted_ok cf ops rs = true -> accepted_all cf ops rs.
Proof.
  intros cf. induction ops as [|o t IH]; intros rs H n o' Ho Hr.
  - destruct n; discriminate.
  - destruct rs as [|r rs']; [destruct n; discriminate|]. cbn [accepted_ok] in H. apply andb_true_iff in H as [H1 H2].
    destruct n as [|n]; cbn [nth_error] in Ho, Hr.
    + injection Ho as <-. injection Hr as ->. cbn [is_ok] in H1. apply ok_pwb_spec. exact H1.
    + exact (IH rs' H2 n o' Ho Hr).
Qed.

Lemma sess_pcheck_spec : forall cf ops rs cm stp stu,
  item_pcheck cf (ISess ops rs cm stp stu) = true ->
  stored_from cf ops true stp /\ stored_from cf ops false stu /\ accepted_all cf ops rs.
Proof.
  intros cf ops rs cm stp stu H. cbn [item_pcheck] in H. apply andb_true_iff in H as [H Hu]. apply andb_true_iff in H as [Ha Hp].
  split; [apply stored_ok_spec; exact Hp|]. split; [apply stored_ok_spec; exact Hu | apply accepted_ok_spec; exact Ha].
Qed.
Lemma posix_pcheck_spec : forall cf pw zx impl chg,
  item_pcheck cf (IPosix pw zx impl chg) = true ->
  (impl = ROk -> ok_pw cf pw) /\ (chg <> 0 -> chg = 1 /\ ok_pw cf pw).
Proof.
  intros cf pw zx impl chg H. cbn [item_pcheck] in H. apply andb_true_iff in H as [H1 H2]. split.
  - intros ->. apply ok_pwb_spec. exact H1.
  - intro Hc. destruct (N.eqb_spec chg 0) as [|_]; [contradiction|]. apply andb_true_iff in H2 as [Ha Hb].
    apply N.eqb_eq in Ha. split; [exact Ha | apply ok_pwb_spec; exact Hb].
Qed.
Lemma pcheck_item : forall cf items it, pcheck (CGroup cf items) = true -> In it items -> item_pcheck cf it = true.
Proof. intros cf items it H. exact (proj1 (forallb_forall _ _) H it). Qed.

(* the property for one variant of the tree (Model.tree_fixed): accepted direct POSIX changes, then sessions;
   Props.v proves it for `true` and refutes it for `false` *)
Definition C31_statement (fixed : bool) : Prop :=
  (forall cf pw zx, pwd_wf pw = true -> posix_op_gen fixed cf pw zx = ROk -> ok_pw cf pw) /\
  (forall cf ops rs cm stp stu, run_sess cf ops = (rs, cm, stp, stu) ->
     stored_from cf ops true stp /\ stored_from cf ops false stu /\ accepted_all cf ops rs).

(* two inputs the pre-fix POSIX path accepts below the effective minimum: policy minimum 30 with the 18
   characters "eiK7ohvie4Aeph9Eix", and the default policy with 9 clusters of a letter and U+0301, 27 bytes *)
Definition w_cfg_policy30 : cfg := mkcfg [(Some 30, None); (None, None)] [] [] None true true.
Definition w_pw_18 : pwd := map (fun c => [c]) [101;105;75;55;111;104;118;105;101;52;65;101;112;104;57;69;105;120].
Definition w_cfg_default : cfg := mkcfg [(None, None)] [] [] None true true.
Definition w_pw_comb : pwd := map (fun c => [c; 769]) [107;113;122;118;119;120;106;112;103].

Lemma short_accepted_refutes : forall cf pw zx,
  pwd_wf pw = true -> posix_op_gen false cf pw zx = ROk -> graphemes pw < spec_min (c_pols cf) ->
  ~ (forall cf' pw' zx', pwd_wf pw' = true -> posix_op_gen false cf' pw' zx' = ROk -> ok_pw cf' pw').
Proof. intros cf pw zx Hwf Hacc Hlt H. destruct (H cf pw zx Hwf Hacc) as [Hmin _]. lia. Qed.

Lemma item_known_spec : forall cf pw zx impl chg,
  KnownClass cf pw -> item_known_gen false cf (IPosix pw zx impl chg) = true.
Proof.
  intros cf pw zx impl chg [Hp [Hb Hg]]. apply N.leb_le in Hb. apply N.ltb_lt in Hg.
  cbn [item_known_gen negb andb]. rewrite Hp, Hb, Hg. reflexivity.
Qed.

Lemma item_bridge : forall fixed cf it,
  item_agree_gen fixed cf it = true -> item_pcheck cf it || item_known_gen fixed cf it = true.
Proof.
  intros fixed cf it H. unfold item_agree_gen in H. apply andb_true_iff in H as [Hwf H].
  destruct it as [pw zx impl chg | ops impl commit stp stu].
  - apply andb_true_iff in H as [Hr Hc]. apply res_eqb_eq in Hr. apply N.eqb_eq in Hc. subst impl chg.
    cbn [item_wf] in Hwf. cbn [item_pcheck]. destruct (is_ok (posix_op_gen fixed cf pw zx)) eqn:Eok; [|reflexivity].
    destruct (posix_ok_or_known fixed cf pw zx Hwf (proj1 (is_ok_eq _) Eok)) as [Hok|[-> Hk]].
    + apply ok_pwb_spec in Hok. rewrite Hok. reflexivity.
    + rewrite (item_known_spec cf pw zx _ _ Hk). apply orb_true_r.
  - destruct (run_sess cf ops) as [[[rs cm] sp] su] eqn:Er.
    apply andb_true_iff in H as [H Hu]. apply andb_true_iff in H as [H Hp]. apply andb_true_iff in H as [Hrs Hcm].
    apply res_list_eqb_eq in Hrs. apply N.eqb_eq in Hcm, Hp, Hu. subst.
    rewrite (run_sess_ok _ _ _ _ _ _ Er). reflexivity.
Qed.

Lemma agree_implies_property_gen : forall fixed c,
  agree_gen fixed c = true -> known_gen fixed c = false -> pcheck c = true.
Proof.
  intros fixed c Ha Hk. destruct c as [cf items | l]; [|reflexivity]. cbn [agree_gen known_gen pcheck] in *.
  assert (Hall : forallb (fun it => item_pcheck cf it || item_known_gen fixed cf it) items = true).
  { apply forallb_forall. intros it Hin. apply item_bridge. rewrite forallb_forall in Ha. exact (Ha it Hin). }
  rewrite Hall, andb_true_r in Hk. apply negb_false_iff in Hk. exact Hk.
Qed.
(* on the fixed tree nothing is known: agreement alone gives the property *)
Lemma agree_implies_property_fixed : forall c, agree_gen true c = true -> pcheck c = true.
Proof.
  intros c Ha. destruct c as [cf items | l]; [|reflexivity]. cbn [agree_gen pcheck] in *.
  apply forallb_forall. intros it Hin. rewrite forallb_forall in Ha. pose proof (item_bridge true cf it (Ha it Hin)) as H.
  unfold item_known_gen in H. cbn [negb andb] in H. rewrite orb_false_r in H. exact H.
Qed.
