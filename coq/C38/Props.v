(* What an answer of check_oauth2_authorisation that hands out a grant guarantees. *)
From Coq Require Import List NArith ZArith Bool.
Import ListNotations.
Require Import KV.C38.Model KV.C38.Proofs.
Open Scope N_scope.

(* the answer `o` hands out grant `g`: an exchange code directly (Permitted), or a consent token
   (ConsentRequested) that check_oauth2_authorise_permit turns into a code *)
Definition issues (o : outcome) (g : grant) : Prop :=
  o = OPermitted g \/ exists pii, o = OConsent g pii.

Lemma issues_grant_of o g : issues o g -> grant_of o = Some g.
Proof. intros [->|[pii ->]]; reflexivity. Qed.

(* C38, main statement. For EVERY client entry, identity, request and time: if
   check_oauth2_authorisation answers with a code or a consent token, then (Terms)
   - the redirect URI equals a registered http(s) URI (fragment-free, as registration strips it),
     or the client is public with localhost redirects enabled and the URI's host is loopback,
     or it equals a registered non-http(s) ("app") URI;
   - if any registered URI is https, the redirect URI is https, loopback or a registered app URI;
   - a client with that id exists, an identity is present and it is not the anonymous account;
   - at least one scope is requested and the user holds EVERY requested scope through a scope
     map of a group they are a member of;
   - if the client requires PKCE (public, or basic without the disable flag) the request carries
     an S256 challenge; the grant records exactly the request's S256 challenge (or none);
   - the granted scopes are exactly the requested ones plus the supplementary scopes the user
     holds, nothing else;
   - the grant is bound to the request's redirect URI, the user's account and session. *)
Theorem C38_code_only_if : forall ce id q ct g,
  issues (authorise ce id q ct) g ->
  exists e i, ce = Some e /\ id = Some i /\ Terms e i q g.
Proof.
  intros ce id q ct g H. apply terms_met_sound, (authorise_terms _ _ _ ct), issues_grant_of, H.
Qed.

(* the granted scope set, as a set and as the canonical list the code carries *)
Theorem C38_granted_exact : forall e i q ct g,
  issues (authorise (Some e) (Some i) q ct) g ->
  (forall s, In s (g_scopes g) <-> In s (q_scope q) \/ Holds (e_sup_maps e) i s) /\
  g_scopes g = collect (held (e_sup_maps e) i ++ q_scope q).
Proof.
  intros e i q ct g H. apply issues_grant_of in H.
  destruct (on_grant_of _ _ _ (authorise_inv _ _ _ _) H) as [life E%Issued_scopes].
  split; [|exact E]. intros s. rewrite E. apply granted_In.
Qed.

(* codes and consent tokens are short lived: 60 s / 300 s from the request time *)
Theorem C38_grant_expiry : forall ce id q ct g,
  (authorise ce id q ct = OPermitted g -> g_expiry g = ct + 60) /\
  (forall pii, authorise ce id q ct = OConsent g pii -> g_expiry g = ct + 300).
Proof.
  intros ce id q ct g. pose proof (authorise_inv ce id q ct) as H.
  split; [intros E | intros pii E]; rewrite E in H; exact (Issued_expiry _ _ _ _ _ _ H).
Qed.

(* check_oauth2_authorise_permit: a code is issued only to the identity and session the consent
   token is bound to, before the token expires, for an existing client; and the code carries
   exactly the token's scopes, redirect URI and PKCE challenge *)
Theorem C38_permit_carries_consent : forall g i b ct g',
  permit g i b ct = Some g' ->
  b = true /\ g_acct g = i_acct i /\ g_session g = i_session i /\ ct < g_expiry g /\
  g_scopes g' = g_scopes g /\ g_redirect g' = g_redirect g /\ g_challenge g' = g_challenge g /\
  g_acct g' = i_acct i /\ g_session g' = i_session i /\ g_expiry g' = ct + 60.
Proof.
  intros g i b ct g' H. apply permit_inv in H as [H1 [H2 [H3 [H4 ->]]]].
  repeat split; assumption.
Qed.

(* the whole flow: EVERY exchange code — issued directly, or through a consent token presented
   to permit by any identity at any time — meets the terms for the ORIGINAL request and user *)
Theorem C38_code_from_flow : forall ce id q ct code,
  (authorise ce id q ct = OPermitted code \/
   exists g pii i' b ct', authorise ce id q ct = OConsent g pii /\ permit g i' b ct' = Some code) ->
  exists e i, ce = Some e /\ id = Some i /\ Terms e i q code.
Proof.
  intros ce id q ct code [H|[g [pii [i' [b [ct' [H P]]]]]]].
  - apply C38_code_only_if with (ct := ct). left. exact H.
  - apply terms_met_sound, (permit_terms _ _ _ _ _ _ _ _ P), (authorise_terms _ _ _ ct). rewrite H. reflexivity.
Qed.

(* no client with that id, no identity, or the anonymous account: nothing is handed out *)
Theorem C38_never_without_client_or_user : forall id q ct g,
  ~ issues (authorise None id q ct) g /\
  (forall ce, ~ issues (authorise ce None q ct) g) /\
  (forall ce i, i_acct i = 0 -> ~ issues (authorise ce (Some i) q ct) g).
Proof.
  intros id q ct g. repeat split.
  - intros H. destruct (C38_code_only_if _ _ _ _ _ H) as [e [i [H1 _]]]. discriminate.
  - intros ce H. destruct (C38_code_only_if _ _ _ _ _ H) as [e [i [_ [H1 _]]]]. discriminate.
  - intros ce i Hi H. destruct (C38_code_only_if _ _ _ _ _ H) as [e [i' [_ [[= <-] T]]]].
    exact (t_not_anonymous _ _ _ _ T Hi).
Qed.

(* which hosts count as loopback: 127.0.0.0/8, ::1, and the name "localhost" — nothing else *)
Theorem C38_loopback_hosts : forall h,
  host_is_local h = true <->
  (exists b c d, h = HV4 127 b c d) \/ h = HV6 [0; 0; 0; 0; 0; 0; 0; 1] \/ h = HDomain localhost_bytes.
Proof.
  intros h. split.
  - destruct h as [|d|a b c d|s]; cbn [host_is_local]; [discriminate|..]; intros H.
    + apply leqb_eq in H as ->. right; right. reflexivity.
    + apply N.eqb_eq in H as ->. left. exists b, c, d. reflexivity.
    + apply leqb_eq in H as ->. right; left. reflexivity.
  - intros [[b [c [d ->]]]|[->| ->]]; reflexivity.
Qed.

(* transfer to the implementation: on every case where the real code's answer equals the model's,
   the property's executable predicate holds of the real answer ... *)
Theorem C38_agree_implies_property : forall c, agree c = true -> pcheck c = true.
Proof.
  intros [ce id q ct impl fu]. unfold agree, pcheck. intros H.
  apply andb_true_iff in H as [H1 H2]. apply outcome_eqb_eq in H1. subst impl.
  apply andb_true_intro. split; [apply out_ok_authorise|].
  destruct fu as [f|]; [|reflexivity].
  destruct (consent_grant (authorise ce id q ct)) as [g|]; [|discriminate].
  apply andb_true_iff in H2 as [H2 _]. apply ogrant_eqb_eq in H2. rewrite <- H2. apply permit_ok_permit.
Qed.

(* ... and the executable predicate means the terms above, whatever produced the answer *)
Theorem C38_pcheck_sound : forall ce id q ct impl fu,
  pcheck (CAuth ce id q ct impl fu) = true ->
  (forall g, issues impl g -> exists e i, ce = Some e /\ id = Some i /\ Terms e i q g) /\
  (forall f g code, fu = Some f -> consent_grant impl = Some g -> p_result f = Some code ->
     g_acct g = i_acct (p_ident f) /\ g_session g = i_session (p_ident f) /\ p_ct f < g_expiry g /\
     g_scopes code = g_scopes g /\ g_redirect code = g_redirect g /\ g_challenge code = g_challenge g /\
     g_acct code = g_acct g /\ g_session code = g_session g).
Proof.
  intros ce id q ct impl fu H. unfold pcheck in H. apply andb_true_iff in H as [H1 H2]. split.
  - intros g Hi. apply terms_met_sound. destruct Hi as [->|[pii ->]]; exact H1.
  - intros f g code -> Hg Hr. rewrite Hg in H2. unfold permit_ok in H2. rewrite Hr in H2.
    apply andb_prop in H2 as [[[[[[[[K1 K2]%andb_prop K3]%andb_prop K4]%andb_prop K5]%andb_prop K6]%andb_prop
                                   K7]%andb_prop K8]%andb_prop K9].
    apply N.eqb_eq in K1, K2, K4, K5, K7. apply N.ltb_lt in K3. apply oeqb_eq in K6, K8. apply leqb_eq in K9.
    repeat split; try assumption. apply injective_projections; assumption.
Qed.
