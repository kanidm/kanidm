(* authorise_inv follows check_oauth2_authorisation once and records, in terms of the client entry (through the load_*
   equations), what a handed-out grant rests on; authorise_terms turns that into the executable terms_ok, which
   agree => pcheck needs, and terms_ok_sound reads terms_ok as Terms. *)
From Coq Require Import List NArith ZArith Bool.
Import ListNotations.
Require Import KV.C38.Model.
Open Scope N_scope.

Lemma mem_In x l : mem x l = true <-> In x l.
Proof.
  unfold mem. rewrite existsb_exists. split.
  - intros [y [Hy ->%N.eqb_eq]]. exact Hy.
  - intros H. exists x. split; [exact H | apply N.eqb_refl].
Qed.

Lemma mem_app x a b : mem x (a ++ b) = mem x a || mem x b.
Proof. apply existsb_app. Qed.

Lemma ins_In s x l : In s (ins x l) <-> In s (x :: l).
Proof.
  induction l as [|y t IH]; cbn [ins]; [reflexivity|].
  destruct (x <? y); [reflexivity|].
  destruct (x =? y) eqn:E.
  - apply N.eqb_eq in E as ->. cbn [In]. tauto.
  - cbn [In]. rewrite IH. cbn [In]. tauto.
Qed.

Lemma collect_In s l : In s (collect l) <-> In s l.
Proof.
  unfold collect. induction l as [|x t IH]; cbn [fold_right]; [reflexivity|].
  rewrite ins_In. cbn [In]. rewrite IH. reflexivity.
Qed.

Lemma subset_spec a b : subset a b = true <-> forall x, In x a -> In x b.
Proof.
  unfold subset. rewrite forallb_forall. split; intros H x Hx; apply mem_In, H, Hx.
Qed.

Lemma leqb_eq a : forall b, leqb a b = true <-> a = b.
Proof.
  induction a as [|x a IH]; destruct b as [|y b]; cbn [leqb]; try (split; discriminate).
  - split; reflexivity.
  - rewrite andb_true_iff, N.eqb_eq, IH. split.
    + intros [-> ->]. reflexivity.
    + intros [= -> ->]. split; reflexivity.
Qed.
Lemma leqb_refl a : leqb a a = true.
Proof. apply leqb_eq. reflexivity. Qed.

Lemma opt_eqb_eq {A} (f : A -> A -> bool) (Hf : forall x y, f x y = true <-> x = y) a b :
  match a, b with Some x, Some y => f x y | None, None => true | _, _ => false end = true <-> a = b.
Proof.
  destruct a, b; try (split; discriminate).
  - rewrite Hf. split; [intros ->; reflexivity | intros [= ->]; reflexivity].
  - split; reflexivity.
Qed.

Lemma oeqb_eq a b : oeqb a b = true <-> a = b.
Proof. exact (opt_eqb_eq N.eqb N.eqb_eq a b). Qed.
Lemma oeqb_refl a : oeqb a a = true.
Proof. apply oeqb_eq. reflexivity. Qed.
Lemma oleqb_eq a b : oleqb a b = true <-> a = b.
Proof. exact (opt_eqb_eq leqb leqb_eq a b). Qed.

Definition Holds (maps : list (N * list N)) (i : ident) (s : N) : Prop :=
  exists g m, In (g, m) maps /\ In g (i_groups i) /\ In s m.

Lemma held_In maps i s : In s (held maps i) <-> Holds maps i s.
Proof.
  unfold held, Holds. rewrite in_flat_map. split.
  - intros [[g m] [Hin Hs]]. cbn [fst snd] in Hs.
    destruct (mem g (i_groups i)) eqn:E; [|destruct Hs].
    apply mem_In in E. exists g, m. auto.
  - intros [g [m [Hin [Hg Hs]]]]. exists (g, m). cbn [fst snd].
    apply mem_In in Hg. rewrite Hg. auto.
Qed.

(* the specification's `holds` is membership in the code's `held` *)
Lemma holds_held maps i s : holds maps i s = mem s (held maps i).
Proof.
  unfold holds, held. induction maps as [|[g m] t IH]; cbn [existsb flat_map fst snd]; [reflexivity|].
  rewrite mem_app, IH. destruct (mem g (i_groups i)); reflexivity.
Qed.

Lemma holds_spec maps i s : holds maps i s = true <-> Holds maps i s.
Proof. rewrite holds_held, mem_In. apply held_In. Qed.

Lemma Holds_sup_all maps i s : Holds maps i s -> In s (sup_all maps).
Proof.
  intros [g [m [Hin [_ Hs]]]]. unfold sup_all. apply in_flat_map. exists (g, m). split; assumption.
Qed.

(* process_requested_scopes_for_identity grants the requested scopes and the supplementary ones the user holds *)
Lemma granted_In sup i requested s :
  In s (collect (held sup i ++ requested)) <-> In s requested \/ Holds sup i s.
Proof. rewrite collect_In, in_app_iff, held_In. tauto. Qed.

Lemma is_web_strip r : is_web (strip r) = is_web r.
Proof. reflexivity. Qed.
Lemma is_https_strip r : is_https (strip r) = is_https r.
Proof. reflexivity. Qed.

Lemma uri_eqb_strip u r :
  uri_eqb u (strip r) = (u_id r =? u_id u) && match u_frag u with None => true | Some _ => false end.
Proof.
  unfold uri_eqb, strip. cbn [u_id u_frag]. rewrite (N.eqb_sym (u_id u)).
  destruct (u_frag u); reflexivity.
Qed.

Lemma contains_filter_strip (P : uri -> bool) (HP : forall r, P (strip r) = P r) l u :
  contains (filter P (map strip l)) u =
  existsb (fun r => P r && (u_id r =? u_id u) && match u_frag u with None => true | Some _ => false end) l.
Proof.
  unfold contains. induction l as [|r t IH]; cbn [map filter existsb]; [reflexivity|].
  rewrite HP. destruct (P r) eqn:E; cbn [existsb andb].
  - rewrite IH, uri_eqb_strip. reflexivity.
  - exact IH.
Qed.

Lemma load_redirect e u : contains (c_redirect (load e)) u = exact_registered e u.
Proof. apply contains_filter_strip. exact is_web_strip. Qed.

Lemma load_opaque e u : contains (c_opaque (load e)) u = app_registered e u.
Proof. apply (contains_filter_strip (fun u => negb (is_web u))). reflexivity. Qed.

Lemma load_secure e : c_secure (load e) = secure_needed e.
Proof.
  unfold load, secure_needed. cbn [c_secure]. induction (configured e) as [|r t IH]; cbn [map existsb]; [reflexivity|].
  rewrite IH. reflexivity.
Qed.

Lemma load_loopback e u :
  host_is_local (u_host u) && allow_localhost_redirect (c_type (load e)) = loopback_allowed e u.
Proof.
  unfold load, loopback_allowed. cbn [c_type]. rewrite andb_comm.
  destruct (e_public e); [|reflexivity]. destruct (e_localhost e) as [[|]|]; reflexivity.
Qed.

Lemma load_pkce e : require_pkce (c_type (load e)) = pkce_required e.
Proof.
  unfold load, pkce_required. cbn [c_type]. destruct (e_public e); [reflexivity|].
  destruct (e_disable_pkce e) as [[|]|]; reflexivity.
Qed.

Definition grant_of (o : outcome) : option grant :=
  match o with OPermitted g | OConsent g _ => Some g | _ => None end.

(* the lifetimes: 60 s for a code, 300 s for a consent token *)
Definition on_grant (P : grant -> N -> Prop) (o : outcome) : Prop :=
  match o with OPermitted g => P g 60 | OConsent g _ => P g 300 | _ => True end.

Lemma on_grant_of P o g : on_grant P o -> grant_of o = Some g -> exists life, P g life.
Proof. destruct o; cbn [on_grant grant_of]; intros H [= <-]; eexists; exact H. Qed.

Lemma process_scopes_inv c i q granted :
  process_scopes c i q = inr granted ->
  q_scope q <> [] /\
  existsb (fun s => mem s (q_bad q)) (q_scope q) = false /\
  subset (q_scope q) (collect (held (c_maps c) i)) = true /\
  granted = collect (held (c_sup c) i ++ q_scope q).
Proof.
  unfold process_scopes. destruct (q_scope q) as [|s0 r] eqn:Es; [discriminate|].
  destruct (existsb _ (s0 :: r)) eqn:Eb; [discriminate|].
  destruct (subset (s0 :: r) _) eqn:Esub; [|discriminate].
  intros [= <-]. repeat split; try assumption; try discriminate; reflexivity.
Qed.

(* what check_oauth2_authorisation has established when it hands out g, in the terms of the client entry *)
Inductive Issued (ce : option centry) (id : option ident) (q : req) (ct : N) (g : grant) (life : N) : Prop :=
| Issued_intro (e : centry) (i : ident)
    (is_client : ce = Some e) (is_ident : id = Some i)
    (is_match : loopback_allowed e (q_redirect q) || exact_registered e (q_redirect q)
                || app_registered e (q_redirect q) = true)
    (is_secure : secure_needed e && negb (app_registered e (q_redirect q) || host_is_local (u_host (q_redirect q))
                                          || is_https (q_redirect q)) = false)
    (is_pkce : match pkce_of (q_pkce q) with None => pkce_required e | Some _ => false end = false)
    (is_user : (i_acct i =? 0) = false)
    (is_scope : q_scope q <> [])
    (is_held : subset (q_scope q) (collect (held (e_scope_maps e) i)) = true)
    (is_grant : g = mkgrant (i_acct i) (i_session i) (ct + life) (pkce_of (q_pkce q)) (key (q_redirect q))
                            (collect (held (e_sup_maps e) i ++ q_scope q)) (q_state q)
                            match get_response_mode (q_rmode q) RCode with Some MFragment => true | _ => false end).

Lemma Issued_expiry ce id q ct g life : Issued ce id q ct g life -> g_expiry g = ct + life.
Proof. intros [e i _ _ _ _ _ _ _ _ ->]. reflexivity. Qed.

Lemma Issued_scopes e i q ct g life :
  Issued (Some e) (Some i) q ct g life -> g_scopes g = collect (held (e_sup_maps e) i ++ q_scope q).
Proof. intros [e' i' [= <-] [= <-] _ _ _ _ _ _ ->]. reflexivity. Qed.

(* The code is followed branch by branch; a refusing branch hands out nothing. The response mode rm decides only the
   grant's fragment flag, but `match rm with MInvalid => refusal | _ => body` elaborates to one copy of `body` per
   valid mode: `destruct rm` is put off to the leaves, so that every check is met once. *)
Lemma authorise_inv ce id q ct : on_grant (Issued ce id q ct) (authorise ce id q ct).
Proof.
  unfold authorise, check_is_loopback. cbv zeta.
  destruct (q_rtype q); [|exact I..].
  destruct (get_response_mode (q_rmode q) RCode) as [rm|] eqn:Erm; [|exact I].
  destruct (4 <? _); [now destruct rm|].
  destruct (existsb is_pinvalid _); [now destruct rm|].
  destruct (existsb is_pnone _ && _); [now destruct rm|].
  destruct ce as [e|]; [|now destruct rm].
  rewrite load_loopback, load_redirect, load_opaque, load_secure, load_pkce.
  destruct (loopback_allowed e _ || _ || _) eqn:Hm; [|now destruct rm].
  destruct (secure_needed e && _) eqn:Hs; [now destruct rm|].
  destruct (match pkce_of _ with None => _ | Some _ => _ end) eqn:Hp; [now destruct rm|].
  destruct id as [i|]; [|destruct (existsb is_pnone _); now destruct rm].
  match goal with |- context [if ?reauth then OReauthRequired else _] => destruct reauth end; [now destruct rm|].
  destruct (i_acct i =? 0) eqn:Ha; [now destruct rm|].
  destruct (process_scopes (load e) i q) as [|granted] eqn:Hps; [now destruct rm|].
  apply process_scopes_inv in Hps as (Hne & _ & Hsub & ->).
  match goal with |- context [if negb ?required then OPermitted _ else _] => destruct required end;
    [destruct (existsb is_pnone _); [now destruct rm|]|].
  all: destruct rm; try exact I.
  all: refine (Issued_intro _ _ _ _ _ _ e i eq_refl eq_refl Hm Hs Hp Ha Hne Hsub _); rewrite Erm; reflexivity.
Qed.

Definition terms_met (ce : option centry) (id : option ident) (q : req) (g : grant) : bool :=
  match ce, id with Some e, Some i => terms_ok e i q g | _, _ => false end.

Lemma authorise_terms ce id q ct g : grant_of (authorise ce id q ct) = Some g -> terms_met ce id q g = true.
Proof.
  intros H. destruct (on_grant_of _ _ _ (authorise_inv ce id q ct) H) as [life [e i -> -> Hm Hs Hp Ha Hne Hsub ->]].
  unfold terms_met, terms_ok. cbn [g_challenge g_scopes g_redirect g_acct g_session key fst snd].
  (* the user is not anonymous, and the grant is bound to the request and the user by construction *)
  rewrite Ha, !N.eqb_refl, !oeqb_refl. cbn [negb]. rewrite !andb_true_r.
  (* left: redirect match, secure origin, some scope, requested scopes held, PKCE,
     granted within requested + supplementary, requested granted, held supplementary granted *)
  repeat (apply andb_true_intro; split).
  - rewrite <- Hm. rewrite (orb_comm (exact_registered _ _)). reflexivity.
  - destruct (secure_needed e); [|reflexivity].
    destruct (app_registered e _), (host_is_local _), (is_https _); try reflexivity. discriminate Hs.
  - destruct (q_scope q); [contradiction Hne|]; reflexivity.
  - apply forallb_forall. intros s Hin.
    apply holds_spec, held_In, collect_In, (proj1 (subset_spec _ _) Hsub), Hin.
  - destruct (q_pkce q); cbn [pkce_of] in Hp; try (rewrite Hp; reflexivity). apply orb_true_r.
  - apply forallb_forall. intros s Hin. apply granted_In in Hin.
    apply orb_true_iff. rewrite mem_In, holds_spec. exact Hin.
  - apply forallb_forall. intros s Hin. apply mem_In, granted_In. left. exact Hin.
  - apply forallb_forall. intros s _. destruct (holds (e_sup_maps e) i s) eqn:Eh; [|reflexivity].
    apply mem_In, granted_In. right. apply holds_spec. exact Eh.
Qed.

Lemma out_ok_authorise ce id q ct : out_ok ce id q (authorise ce id q ct) = true.
Proof.
  pose proof (authorise_terms ce id q ct) as H.
  destruct (authorise ce id q ct) as [| | |g ?|g]; try reflexivity; exact (H g eq_refl).
Qed.

Definition RegisteredExact (e : centry) (u : uri) : Prop :=
  exists r, In r (configured e) /\ is_web r = true /\ u_id u = u_id r /\ u_frag u = None.
Definition RegisteredApp (e : centry) (u : uri) : Prop :=
  exists r, In r (configured e) /\ is_web r = false /\ u_id u = u_id r /\ u_frag u = None.
Definition LoopbackAllowed (e : centry) (u : uri) : Prop :=
  e_public e = true /\ e_localhost e = Some true /\ host_is_local (u_host u) = true.
Definition PkceRequired (e : centry) : Prop := e_public e = true \/ e_disable_pkce e <> Some true.
Definition SecureNeeded (e : centry) : Prop := exists r, In r (configured e) /\ is_https r = true.

Record Terms (e : centry) (i : ident) (q : req) (g : grant) : Prop := {
  t_redirect : RegisteredExact e (q_redirect q) \/ LoopbackAllowed e (q_redirect q) \/ RegisteredApp e (q_redirect q);
  t_secure : SecureNeeded e ->
             is_https (q_redirect q) = true \/ host_is_local (u_host (q_redirect q)) = true
             \/ RegisteredApp e (q_redirect q);
  t_not_anonymous : i_acct i <> 0;
  t_some_scope : q_scope q <> [];
  t_holds_requested : forall s, In s (q_scope q) -> Holds (e_scope_maps e) i s;
  t_pkce : PkceRequired e -> exists c, q_pkce q = KS256 c;
  t_challenge : g_challenge g = pkce_of (q_pkce q);
  t_granted : forall s, In s (g_scopes g) <-> In s (q_scope q) \/ Holds (e_sup_maps e) i s;
  t_bound_uri : g_redirect g = key (q_redirect q);
  t_bound_acct : g_acct g = i_acct i;
  t_bound_session : g_session g = i_session i }.

Lemma registered_spec (P : uri -> bool) l u :
  existsb (fun r => P r && (u_id r =? u_id u) && match u_frag u with None => true | Some _ => false end) l = true ->
  exists r, In r l /\ P r = true /\ u_id u = u_id r /\ u_frag u = None.
Proof.
  rewrite existsb_exists. intros [r [Hin H]]. rewrite !andb_true_iff, N.eqb_eq in H. destruct H as [[H1 H2] H3].
  exists r. repeat split; [exact Hin | exact H1 | symmetry; exact H2 |].
  destruct (u_frag u); [discriminate | reflexivity].
Qed.

Lemma app_registered_spec e u : app_registered e u = true -> RegisteredApp e u.
Proof.
  intros H. destruct (registered_spec (fun r => negb (is_web r)) _ u H) as [r [H1 [H2 [H3 H4]]]].
  exists r. repeat split; try assumption. apply negb_true_iff. exact H2.
Qed.

Lemma loopback_allowed_spec e u : loopback_allowed e u = true -> LoopbackAllowed e u.
Proof.
  unfold loopback_allowed. rewrite !andb_true_iff. intros [[H1 H2] H3].
  repeat split; try assumption. destruct (e_localhost e) as [[|]|]; try discriminate. reflexivity.
Qed.

Lemma secure_needed_spec e : SecureNeeded e -> secure_needed e = true.
Proof. intros [r [Hin Hr]]. apply existsb_exists. exists r. split; assumption. Qed.

Lemma pkce_required_spec e : PkceRequired e -> pkce_required e = true.
Proof.
  unfold pkce_required. intros [-> | Hd]; [reflexivity|].
  destruct (e_disable_pkce e) as [[|]|]; [contradiction Hd; reflexivity | apply orb_true_r ..].
Qed.

Lemma terms_ok_sound e i q g : terms_ok e i q g = true -> Terms e i q g.
Proof.
  unfold terms_ok.
  intros [[[[[[[[[[[[[K1 K2]%andb_prop K3]%andb_prop K4]%andb_prop K5]%andb_prop K6]%andb_prop K7]%andb_prop
            K8]%andb_prop K9]%andb_prop K10]%andb_prop K11]%andb_prop K12]%andb_prop K13]%andb_prop K14]%andb_prop.
  rewrite forallb_forall in K5, K8, K9, K10.
  constructor.
  - rewrite !orb_true_iff in K1. destruct K1 as [[K1|K1]|K1].
    + left. exact (registered_spec is_web _ _ K1).
    + right; left. apply loopback_allowed_spec. exact K1.
    + right; right. apply app_registered_spec. exact K1.
  - intros Hs. rewrite (secure_needed_spec _ Hs), !orb_true_iff in K2. destruct K2 as [[[K2|K2]|K2]|K2].
    + discriminate.
    + left. exact K2.
    + right; left. exact K2.
    + right; right. apply app_registered_spec. exact K2.
  - apply N.eqb_neq, negb_true_iff. exact K3.
  - destruct (q_scope q); discriminate.
  - intros s Hin. apply holds_spec, K5, Hin.
  - intros Hp. rewrite (pkce_required_spec _ Hp) in K6. destruct (q_pkce q); try discriminate. eexists; reflexivity.
  - apply oeqb_eq. exact K7.
  - intros s. split.
    + intros Hin. rewrite <- mem_In, <- holds_spec. apply orb_true_iff, K8, Hin.
    + intros [Hin|Hh].
      * apply mem_In, K9, Hin.
      * specialize (K10 s (Holds_sup_all _ _ _ Hh)). apply holds_spec in Hh. rewrite Hh in K10. apply mem_In. exact K10.
  - apply injective_projections; [apply N.eqb_eq, K11 | apply oeqb_eq, K12].
  - apply N.eqb_eq. exact K13.
  - apply N.eqb_eq. exact K14.
Qed.

Lemma terms_met_sound ce id q g :
  terms_met ce id q g = true -> exists e i, ce = Some e /\ id = Some i /\ Terms e i q g.
Proof.
  destruct ce as [e|], id as [i|]; try discriminate. intros H. exists e, i. auto using terms_ok_sound.
Qed.

Lemma permit_inv g i b ct g' :
  permit g i b ct = Some g' ->
  g_acct g = i_acct i /\ g_session g = i_session i /\ ct < g_expiry g /\ b = true /\
  g' = mkgrant (i_acct i) (i_session i) (ct + 60) (g_challenge g) (g_redirect g) (g_scopes g) (g_state g) (g_fragment g).
Proof.
  unfold permit.
  destruct (g_acct g =? i_acct i) eqn:E1; [|discriminate].
  destruct (g_session g =? i_session i) eqn:E2; [|discriminate].
  destruct (g_expiry g <=? ct) eqn:E3; [discriminate|].
  destruct b; [|discriminate].
  intros [= <-]. apply N.eqb_eq in E1, E2. apply N.leb_gt in E3. repeat split; assumption.
Qed.

Lemma permit_ok_permit g i b ct : permit_ok g i ct (permit g i b ct) = true.
Proof.
  destruct (permit g i b ct) as [g'|] eqn:E; [|reflexivity].
  apply permit_inv in E as [H1 [H2 [H3 [_ ->]]]].
  unfold permit_ok. cbn [g_acct g_session g_challenge g_redirect g_scopes].
  rewrite H1, H2, !N.eqb_refl, !oeqb_refl, leqb_refl.
  apply N.ltb_lt in H3. rewrite H3. reflexivity.
Qed.

(* terms_ok reads of the grant only what permit copies from the consent token into the code *)
Lemma permit_terms g i b ct g' ce id q :
  permit g i b ct = Some g' -> terms_met ce id q g = true -> terms_met ce id q g' = true.
Proof.
  intros H. apply permit_inv in H as [Ha [Hs [_ [_ ->]]]].
  unfold terms_met, terms_ok. cbn [g_challenge g_scopes g_redirect g_acct g_session]. rewrite <- Ha, <- Hs. exact (fun H => H).
Qed.

Lemma grant_eqb_eq a b : grant_eqb a b = true -> a = b.
Proof.
  unfold grant_eqb.
  intros [[[[[[[[K1 K2]%andb_prop K3]%andb_prop K4]%andb_prop K5]%andb_prop K6]%andb_prop K7]%andb_prop
            K8]%andb_prop K9]%andb_prop.
  apply N.eqb_eq in K1, K2, K3, K5. apply oeqb_eq in K4, K6, K8. apply leqb_eq in K7. apply eqb_prop in K9.
  destruct a as [? ? ? ? [] ? ? ?], b as [? ? ? ? [] ? ? ?]. cbn in *. congruence.
Qed.

Lemma err_eqb_eq a b : err_eqb a b = true -> a = b.
Proof. destruct a, b; cbn; intros H; try discriminate; reflexivity. Qed.

Lemma outcome_eqb_eq a b : outcome_eqb a b = true -> a = b.
Proof.
  destruct a, b; cbn [outcome_eqb]; intros H; try discriminate; try reflexivity.
  - apply err_eqb_eq in H. subst. reflexivity.
  - apply andb_true_iff in H as [H1 H2]. apply grant_eqb_eq in H1. apply leqb_eq in H2. subst. reflexivity.
  - apply grant_eqb_eq in H. subst. reflexivity.
Qed.

Lemma ogrant_eqb_eq a b : ogrant_eqb a b = true -> a = b.
Proof.
  destruct a, b; cbn [ogrant_eqb]; intros H; try discriminate; try reflexivity.
  apply grant_eqb_eq in H. subst. reflexivity.
Qed.
