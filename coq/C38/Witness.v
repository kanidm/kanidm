(* The hypotheses of the implication theorems are met by concrete configurations and requests, and examples of
   refusals: redirect URI not matched, anonymous, scope not held, PKCE missing, no user, unknown client, consent
   token misused. The secure-origin refusal has no example. *)
From Coq Require Import List NArith ZArith Bool.
Import ListNotations.
Require Import KV.C38.Model KV.C38.Proofs KV.C38.Props.
Open Scope N_scope.

(* a public client: https landing page, an app URI, localhost redirects enabled;
   group 10 -> {openid,email,groups}, group 11 -> {read}; supplementary: group 10 -> {profile}, group 13 -> {write} *)
Definition u_landing := mkuri 1 None SHttps (HDomain [97; 112; 112]).
Definition u_app := mkuri 2 None SOther (HDomain [99; 104; 101; 101; 115; 101]).
Definition u_frag_reg := mkuri 3 (Some 0) SHttps (HDomain [97; 112; 112]).   (* registered WITH a fragment *)
Definition e_pub := mkcentry true None None (Some true) u_landing [u_app; u_frag_reg]
                             [(10, [0; 1; 4]); (11, [6])] [(10, [5]); (13, [7])].
(* a basic client with PKCE switched off and the consent prompt switched off, http only *)
Definition u_http := mkuri 4 None SHttp (HDomain [105; 110; 116; 114; 97]).
Definition e_basic := mkcentry false (Some true) (Some false) None u_http [] [(10, [0; 4])] [].

Definition alice := mkident 7 3 [10; 12] None (Some 100).
Definition alice_consented := mkident 7 3 [10; 12] (Some [0; 1; 5]) (Some 100).
Definition anonymous := mkident 0 3 [10] None (Some 100).
Definition q0 := mkreq RCode None (KS256 9) u_landing [0; 1] [] [] None false (Some 1).
Definition with_redirect (q : req) (u : uri) : req :=
  mkreq (q_rtype q) (q_rmode q) (q_pkce q) u (q_scope q) (q_bad q) (q_prompt q) (q_max_age q) (q_resumed q) (q_state q).
Definition with_pkce (q : req) (k : pkce_in) : req :=
  mkreq (q_rtype q) (q_rmode q) k (q_redirect q) (q_scope q) (q_bad q) (q_prompt q) (q_max_age q) (q_resumed q) (q_state q).
Definition with_scope (q : req) (s : list N) : req :=
  mkreq (q_rtype q) (q_rmode q) (q_pkce q) (q_redirect q) s (q_bad q) (q_prompt q) (q_max_age q) (q_resumed q) (q_state q).

Definition g_consent := mkgrant 7 3 500 (Some 9) (1, None) [0; 1; 5] (Some 1) false.

(* hypothesis of C38_code_only_if / C38_granted_exact, consent form: exact https match, the
   supplementary scope `profile` (5) is added, `write` (7, group 13) is not *)
Example C38_witness_consent :
  authorise (Some e_pub) (Some alice) q0 200 = OConsent g_consent [1; 3].
Proof. vm_compute. reflexivity. Qed.
Example C38_witness_issues : issues (authorise (Some e_pub) (Some alice) q0 200) g_consent.
Proof. right. exists [1; 3]. exact C38_witness_consent. Qed.

(* code form: consent recorded earlier for exactly this scope set *)
Example C38_witness_permitted :
  authorise (Some e_pub) (Some alice_consented) q0 200
  = OPermitted (mkgrant 7 3 260 (Some 9) (1, None) [0; 1; 5] (Some 1) false).
Proof. vm_compute. reflexivity. Qed.

(* loopback redirect to a public client that allows it: here consent is asked again although it is recorded *)
Example C38_witness_loopback :
  authorise (Some e_pub) (Some alice_consented) (with_redirect q0 (mkuri 50 None SHttp (HV4 127 0 0 1))) 200
  = OConsent (mkgrant 7 3 500 (Some 9) (50, None) [0; 1; 5] (Some 1) false) [1; 3].
Proof. vm_compute. reflexivity. Qed.

(* registered app URI *)
Example C38_witness_app :
  grant_of (authorise (Some e_pub) (Some alice) (with_redirect q0 u_app) 200)
  = Some (mkgrant 7 3 500 (Some 9) (2, None) [0; 1; 5] (Some 1) false).
Proof. vm_compute. reflexivity. Qed.

(* basic client, PKCE and consent prompt disabled: a code without a challenge *)
Example C38_witness_basic_no_pkce :
  authorise (Some e_basic) (Some alice) (with_scope (with_pkce (with_redirect q0 u_http) KAbsent) [0; 4]) 200
  = OPermitted (mkgrant 7 3 260 None (4, None) [0; 4] (Some 1) false).
Proof. vm_compute. reflexivity. Qed.

(* hypothesis of C38_permit_carries_consent and of the second disjunct of C38_code_from_flow *)
Example C38_witness_permit :
  permit g_consent alice true 499 = Some (mkgrant 7 3 559 (Some 9) (1, None) [0; 1; 5] (Some 1) false).
Proof. vm_compute. reflexivity. Qed.
Example C38_witness_flow :
  exists g pii i' b ct', authorise (Some e_pub) (Some alice) q0 200 = OConsent g pii /\
    permit g i' b ct' = Some (mkgrant 7 3 559 (Some 9) (1, None) [0; 1; 5] (Some 1) false).
Proof. exists g_consent, [1; 3], alice, true, 499. split; [exact C38_witness_consent | exact C38_witness_permit]. Qed.

(* refusals; the third conjunct is the positive counterpart of the second *)
Example C38_witness_refusals :
  (* the landing URI with a fragment added is refused; a URI registered with a fragment is stored without it:
     refused with the fragment, accepted stripped *)
  authorise (Some e_pub) (Some alice) (with_redirect q0 (mkuri 1 (Some 0) SHttps (HDomain [97; 112; 112]))) 200 = OErr EInvalidOrigin /\
  authorise (Some e_pub) (Some alice) (with_redirect q0 u_frag_reg) 200 = OErr EInvalidOrigin /\
  grant_of (authorise (Some e_pub) (Some alice) (with_redirect q0 (strip u_frag_reg)) 200) <> None /\
  (* another host *)
  authorise (Some e_pub) (Some alice) (with_redirect q0 (mkuri 60 None SHttps (HDomain [101; 118; 105; 108]))) 200 = OErr EInvalidOrigin /\
  (* loopback to a basic client *)
  authorise (Some e_basic) (Some alice) (with_scope (with_redirect q0 (mkuri 50 None SHttp (HV4 127 0 0 1))) [0]) 200 = OErr EInvalidOrigin /\
  (* not loopback: 128.0.0.1, ::2, "localhost.evil" *)
  host_is_local (HV4 128 0 0 1) = false /\ host_is_local (HV6 [0; 0; 0; 0; 0; 0; 0; 2]) = false /\
  host_is_local (HDomain (localhost_bytes ++ [46; 101])) = false /\
  (* anonymous *)
  authorise (Some e_pub) (Some anonymous) q0 200 = OErr EAccessDenied /\
  (* a scope the user does not hold (read = 6 is mapped to group 11 only) *)
  authorise (Some e_pub) (Some alice) (with_scope q0 [0; 6]) 200 = OErr EAccessDenied /\
  (* PKCE required: absent, or a non-S256 method *)
  authorise (Some e_pub) (Some alice) (with_pkce q0 KAbsent) 200 = OErr EInvalidRequest /\
  authorise (Some e_pub) (Some alice) (with_pkce q0 (KOther 9)) 200 = OErr EInvalidRequest /\
  (* no user / unknown client *)
  authorise (Some e_pub) None q0 200 = OAuthRequired /\
  authorise None (Some alice) q0 200 = OErr EInvalidClientId /\
  (* consent token: wrong session, expired *)
  permit g_consent (mkident 7 4 [10] None None) true 300 = None /\
  permit g_consent alice true 500 = None.
Proof. vm_compute. repeat split; try reflexivity. discriminate. Qed.

(* the case-level predicates on a concrete implementation-style case *)
Example C38_witness_case :
  let c := CAuth (Some e_pub) (Some alice) q0 200 (OConsent g_consent [1; 3])
                 (Some (mkfollow alice 499 true
                          (Some (mkgrant 7 3 559 (Some 9) (1, None) [0; 1; 5] (Some 1) false))
                          (Some [0; 1; 5]))) in
  agree c = true /\ pcheck c = true.
Proof. vm_compute. split; reflexivity. Qed.
(* pcheck is not trivially true: an answer granting a scope nobody asked for or holds fails it *)
Example C38_witness_pcheck_rejects :
  pcheck (CAuth (Some e_pub) (Some alice) q0 200
            (OPermitted (mkgrant 7 3 260 (Some 9) (1, None) [0; 1; 5; 7] (Some 1) false)) None) = false /\
  pcheck (CAuth (Some e_pub) (Some alice) (with_redirect q0 (mkuri 60 None SHttps (HDomain [101])))
            200 (OPermitted (mkgrant 7 3 260 (Some 9) (60, None) [0; 1; 5] (Some 1) false)) None) = false /\
  pcheck (CAuth (Some e_pub) (Some anonymous) q0 200 (OConsent (mkgrant 0 3 500 (Some 9) (1, None) [0; 1; 5] (Some 1) false) []) None) = false /\
  pcheck (CAuth (Some e_pub) (Some alice) (with_pkce q0 KAbsent) 200
            (OPermitted (mkgrant 7 3 260 None (1, None) [0; 1; 5] (Some 1) false)) None) = false.
Proof. vm_compute. repeat split; reflexivity. Qed.
