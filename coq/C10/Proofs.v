(* The loop of range_diff equals the table `spec`; what that means for well-formed windows. *)
From Coq Require Import List NArith Bool.
Import ListNotations.
Require Import KV.C10.Model.
Open Scope N_scope.
Arguments N.ltb : simpl never.
Arguments N.eqb : simpl never.

(* the second flag of Model.spec, which spells it out as a lambda: hence the `change` in range_diff_spec and
   range_diff_wf *)
Definition ahead' (cns : ruv) (e : N * range) : bool := negb (behind cns e) && ahead cns e.

(* what the loop appends to its `diff` for one supplier server whatever the flags end up being; it is supply_of
   when no server is behind or ahead (diff_supply) *)
Definition diff_of (cns : ruv) (e : N * range) : option (N * range) :=
  match lookup (fst e) cns with
  | None => Some (fst e, (0, snd (snd e)))
  | Some c => if behind cns e then None else if ahead cns e then None
              else if snd c <? snd (snd e) then Some (fst e, (snd c, snd (snd e))) else None
  end.

Lemma filter_map_snoc {A B} (f : A -> option B) l e r :
  (l ++ filter_map f [e]) ++ filter_map f r = l ++ filter_map f (e :: r).
Proof. rewrite <- app_assoc. cbn. destruct (f e); reflexivity. Qed.

Lemma in_filter_map {A B} (f : A -> option B) l y :
  In y (filter_map f l) <-> exists x, In x l /\ f x = Some y.
Proof.
  induction l as [|x r IH]; cbn; [firstorder|].
  destruct (f x) eqn:E; cbn; rewrite IH; split.
  - intros [<-|[x' [H1 H2]]]; [exists x; auto | exists x'; auto].
  - intros [x' [[<-|H1] H2]]; [left; congruence | right; exists x'; auto].
  - intros [x' [H1 H2]]; exists x'; auto.
  - intros [x' [[<-|H1] H2]]; [congruence | exists x'; auto].
Qed.

Lemma body_spec cns a e :
  body cns a e =
  mkacc (a_diff a ++ filter_map (diff_of cns) [e])
        (a_lag a ++ filter_map (lag_of cns) [e])
        (a_adv a ++ filter_map (adv_of cns) [e])
        (a_cl a || behind cns e) (a_sl a || ahead' cns e) (a_ov a || shared cns e).
Proof.
  destruct e as [s [smin smax]]. destruct a as [d l v cl sl ov].
  unfold body, diff_of, lag_of, adv_of, ahead', behind, ahead, shared; cbn [fst snd filter_map a_diff a_lag a_adv a_cl a_sl a_ov].
  (* the arms of `body`, in its order *)
  destruct (lookup s cns) as [[cmin cmax]|]; cbn [fst snd];
    [destruct (cmax <? smin); [|destruct (smax <? cmin); [|destruct (cmax <? smax)]]|];
    cbn [negb andb filter_map]; rewrite ?app_nil_r, ?orb_true_r, ?orb_false_r; reflexivity.
Qed.

Lemma fold_spec cns : forall sup a,
  fold_left (body cns) sup a =
  mkacc (a_diff a ++ filter_map (diff_of cns) sup)
        (a_lag a ++ filter_map (lag_of cns) sup)
        (a_adv a ++ filter_map (adv_of cns) sup)
        (a_cl a || existsb (behind cns) sup) (a_sl a || existsb (ahead' cns) sup)
        (a_ov a || existsb (shared cns) sup).
Proof.
  induction sup as [|e r IH]; intros a.
  - cbn. rewrite !app_nil_r, !orb_false_r. destruct a; reflexivity.
  - cbn [fold_left]. rewrite IH, body_spec.
    cbn [a_diff a_lag a_adv a_cl a_sl a_ov existsb].
    rewrite !filter_map_snoc, <- !orb_assoc. reflexivity.
Qed.

Lemma diff_supply cns : forall sup,
  existsb (behind cns) sup = false -> existsb (ahead' cns) sup = false ->
  filter_map (diff_of cns) sup = filter_map (supply_of cns) sup.
Proof.
  induction sup as [|e r IH]; cbn [existsb filter_map]; intros H1 H2; [reflexivity|].
  apply orb_false_iff in H1 as [Hb H1]. apply orb_false_iff in H2 as [Ha H2].
  rewrite (IH H1 H2).
  assert (Hd : diff_of cns e = supply_of cns e).
  { unfold diff_of, supply_of. unfold ahead' in Ha. rewrite Hb in *. cbn in Ha.
    destruct (lookup (fst e) cns) eqn:El; [|reflexivity]. rewrite Ha. reflexivity. }
  rewrite Hd. reflexivity.
Qed.

Theorem range_diff_spec cns sup : range_diff cns sup = spec cns sup.
Proof.
  unfold range_diff, spec. rewrite fold_spec. cbn [acc0 a_diff a_lag a_adv a_cl a_sl a_ov app orb].
  change (fun e => negb (behind cns e) && ahead cns e) with (ahead' cns).
  destruct (existsb (shared cns) sup); cbn [negb]; [|reflexivity].
  destruct (existsb (behind cns) sup) eqn:Hb, (existsb (ahead' cns) sup) eqn:Ha; try reflexivity.
  rewrite diff_supply by assumption. reflexivity.
Qed.

Definition wf_range (r : range) : Prop := fst r <= snd r.
Definition wf_ruv (m : ruv) : Prop := forall k r, lookup k m = Some r -> wf_range r.

Lemma lookup_in k m r : lookup k m = Some r -> In (k, r) m.
Proof.
  induction m as [|[k' r'] t IH]; cbn; [discriminate|].
  destruct (N.eqb_spec k k'); [intros [= ->]; left; subst; reflexivity | intros H; right; auto].
Qed.

(* for well-formed windows "ahead" and "behind" exclude each other, so ahead' = ahead *)
Lemma ahead_behind_excl cns e :
  wf_ruv cns -> wf_range (snd e) -> behind cns e = true -> ahead cns e = false.
Proof.
  unfold behind, ahead, wf_ruv, wf_range. intros Hc He.
  destruct (lookup (fst e) cns) as [c|] eqn:El; [|discriminate].
  specialize (Hc _ _ El). unfold wf_range in Hc.
  (* fst c <= snd c < fst (snd e) <= snd (snd e) *)
  rewrite N.ltb_lt, N.ltb_ge. intros H.
  exact (N.le_trans _ _ _ Hc (N.le_trans _ _ _ (N.lt_le_incl _ _ H) He)).
Qed.

Lemma existsb_ext_in {A} (f g : A -> bool) l :
  (forall x, In x l -> f x = g x) -> existsb f l = existsb g l.
Proof.
  induction l as [|x r IH]; cbn; intros H; [reflexivity|].
  rewrite H by (left; reflexivity). rewrite IH; [reflexivity|]. intros y Hy. apply H. right. exact Hy.
Qed.

Lemma ahead'_wf cns sup :
  wf_ruv cns -> (forall e, In e sup -> wf_range (snd e)) ->
  existsb (ahead' cns) sup = existsb (ahead cns) sup.
Proof.
  intros Hc Hs. apply existsb_ext_in. intros e He. unfold ahead'.
  destruct (behind cns e) eqn:Hb; cbn; [|reflexivity].
  symmetry. apply ahead_behind_excl; auto.
Qed.

Lemma behind_shared cns e : behind cns e = true -> shared cns e = true.
Proof. unfold behind, shared. destruct (lookup (fst e) cns); [reflexivity | discriminate]. Qed.

Lemma ahead_shared cns e : ahead cns e = true -> shared cns e = true.
Proof. unfold ahead, shared. destruct (lookup (fst e) cns); [reflexivity | discriminate]. Qed.

Lemma existsb_impl {A} (f g : A -> bool) l :
  (forall x, f x = true -> g x = true) -> existsb f l = true -> existsb g l = true.
Proof. rewrite !existsb_exists. intros H [x [Hx Hf]]. exists x. auto. Qed.

Lemma behind_refused cns sup :
  existsb (behind cns) sup = true ->
  match range_diff cns sup with SRefresh _ | SCritical _ _ => True | _ => False end.
Proof.
  intros Hb. rewrite range_diff_spec. unfold spec.
  rewrite (existsb_impl _ _ _ (behind_shared cns) Hb), Hb. cbn [negb].
  destruct (existsb (fun e => negb (behind cns e) && ahead cns e) sup); exact I.
Qed.

Theorem range_diff_wf cns sup :
  wf_ruv cns -> (forall e, In e sup -> wf_range (snd e)) ->
  range_diff cns sup =
  match existsb (behind cns) sup, existsb (ahead cns) sup with
  | false, false => if existsb (shared cns) sup then SOk (filter_map (supply_of cns) sup) else SNoOverlap
  | true, false => SRefresh (filter_map (lag_of cns) sup)
  | false, true => SUnwilling (filter_map (adv_of cns) sup)
  | true, true => SCritical (filter_map (lag_of cns) sup) (filter_map (adv_of cns) sup)
  end.
Proof.
  intros Hc Hs. rewrite range_diff_spec. unfold spec.
  change (fun e => negb (behind cns e) && ahead cns e) with (ahead' cns). rewrite (ahead'_wf cns sup Hc Hs).
  destruct (existsb (behind cns) sup) eqn:Hb.
  - rewrite (existsb_impl _ _ _ (behind_shared cns) Hb). reflexivity.
  - destruct (existsb (ahead cns) sup) eqn:Ha.
    + rewrite (existsb_impl _ _ _ (ahead_shared cns) Ha). reflexivity.
    + destruct (existsb (shared cns) sup); reflexivity.
Qed.
