From Coq Require Import List NArith Bool.
Import ListNotations.
Require Import KV.C10.Model.
Open Scope N_scope.
(* the boolean hypotheses of C10_ok_exact are met by a non-trivial pair of well-formed maps: one
   overlapping shared server needing changes, one up to date, one unknown to the consumer *)
Example C10_witness_ok :
  let cns := [(1, (0, 3)); (2, (1, 4))] in
  let sup := [(1, (2, 5)); (2, (0, 4)); (3, (1, 2))] in
  existsb (shared cns) sup = true /\ existsb (behind cns) sup = false /\
  existsb (ahead cns) sup = false /\
  range_diff cns sup = SOk [(1, (3, 5)); (3, (0, 2))].
Proof. vm_compute. repeat split; reflexivity. Qed.
(* both flags set: server 1 is behind, server 2 ahead.  A lag row is (supplier min, consumer max), here (3, 1):
   its bounds are not in order *)
Example C10_witness_critical :
  range_diff [(1, (0, 1)); (2, (5, 6))] [(1, (3, 4)); (2, (1, 2))]
  = SCritical [(1, (3, 1))] [(2, (2, 5))].
Proof. vm_compute. reflexivity. Qed.
