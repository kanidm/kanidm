From Coq Require Import List NArith Bool.
Import ListNotations.
Require Import KV.C10.Model KV.C10.Proofs.
Open Scope N_scope.

(* The transcription of the code's loop equals the declarative table, for ALL maps
   (any number of servers, any times, well-formed or not). *)
Theorem C10_range_diff_is_spec : forall cns sup, range_diff cns sup = spec cns sup.
Proof. exact range_diff_spec. Qed.

(* no shared server at all => refuse *)
Theorem C10_no_overlap : forall cns sup,
  existsb (shared cns) sup = false -> range_diff cns sup = SNoOverlap.
Proof. intros cns sup H. rewrite range_diff_spec. unfold spec. rewrite H. reflexivity. Qed.

(* replication proceeds if a server is shared and no shared window is behind or ahead, and
   then EXACTLY supply_of is sent per supplier server; the converse is C10_no_overlap,
   C10_refresh, C10_unwilling and C10_critical *)
Theorem C10_ok_exact : forall cns sup,
  wf_ruv cns -> (forall e, In e sup -> wf_range (snd e)) ->
  existsb (shared cns) sup = true ->
  existsb (behind cns) sup = false -> existsb (ahead cns) sup = false ->
  range_diff cns sup = SOk (filter_map (supply_of cns) sup).
Proof.
  intros cns sup Hc Hs H1 H2 H3. rewrite (range_diff_wf cns sup Hc Hs), H1, H2, H3. reflexivity.
Qed.

(* membership form of "exactly the window from the consumer's newest change to the
   supplier's newest, plus everything from servers the consumer has never seen" *)
Theorem C10_supplied_windows : forall cns sup s lo hi,
  In (s, (lo, hi)) (filter_map (supply_of cns) sup) <->
  exists smin, In (s, (smin, hi)) sup /\
    ((lookup s cns = None /\ lo = 0) \/
     (exists cmin, lookup s cns = Some (cmin, lo) /\ lo < hi)).
Proof.
  intros cns sup s lo hi. rewrite in_filter_map. split.
  - intros [[s' [smin smax]] [Hin Hf]]. unfold supply_of in Hf. cbn [fst snd] in Hf.
    destruct (lookup s' cns) as [[cmin cmax]|] eqn:El; cbn [fst snd] in Hf.
    + destruct (cmax <? smax) eqn:E; [|discriminate]. injection Hf as -> -> ->.
      exists smin. split; [exact Hin|]. right. exists cmin. split; [exact El|]. apply N.ltb_lt. exact E.
    + injection Hf as -> <- ->. exists smin. split; [exact Hin|]. left. split; [exact El | reflexivity].
  - intros [smin [Hin [[El ->]|[cmin [El Hlt]]]]]; exists (s, (smin, hi)); split; try exact Hin;
      unfold supply_of; cbn [fst snd]; rewrite El; [reflexivity|]. cbn [fst snd].
    apply N.ltb_lt in Hlt. rewrite Hlt. reflexivity.
Qed.

(* behind only => refresh; ahead only => refuse; both => critical *)
Theorem C10_refresh : forall cns sup,
  wf_ruv cns -> (forall e, In e sup -> wf_range (snd e)) ->
  existsb (behind cns) sup = true -> existsb (ahead cns) sup = false ->
  exists lag, range_diff cns sup = SRefresh lag.
Proof.
  intros cns sup Hc Hs H2 H3. rewrite (range_diff_wf cns sup Hc Hs), H2, H3. eexists. reflexivity.
Qed.
Theorem C10_unwilling : forall cns sup,
  wf_ruv cns -> (forall e, In e sup -> wf_range (snd e)) ->
  existsb (behind cns) sup = false -> existsb (ahead cns) sup = true ->
  exists adv, range_diff cns sup = SUnwilling adv.
Proof.
  intros cns sup Hc Hs H2 H3. rewrite (range_diff_wf cns sup Hc Hs), H2, H3. eexists. reflexivity.
Qed.
Theorem C10_critical : forall cns sup,
  wf_ruv cns -> (forall e, In e sup -> wf_range (snd e)) ->
  existsb (behind cns) sup = true -> existsb (ahead cns) sup = true ->
  exists lag adv, range_diff cns sup = SCritical lag adv.
Proof.
  intros cns sup Hc Hs H2 H3. rewrite (range_diff_wf cns sup Hc Hs), H2, H3. do 2 eexists. reflexivity.
Qed.

(* what the supplier answers: changes (CtxV1) are sent only in the Ok case, and only when
   the supply set is not empty *)
Theorem C10_supplier_mapping : forall cns sup r,
  ctx_of (range_diff cns sup) = CtxV1 r ->
  r <> [] /\ range_diff cns sup = SOk r.
Proof.
  intros cns sup r. destruct (range_diff cns sup) as [d| | | |]; cbn; try discriminate.
  destruct d; [discriminate|]. intros [= <-]. split; [discriminate | reflexivity].
Qed.
