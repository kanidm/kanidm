(* C15: every stored entry satisfies the schema, after any sequence of accepted operations
   (writes, schema additions, replicated merges); refused operations leave nothing behind.
   The predicates of the statements (Satisfies, Conforms, sch_ext, sch_wf, AllValid, op_ok) are in Proofs.v. *)
From Coq Require Import List NArith Bool.
Import ListNotations.
Require Import KV.C15.Model KV.C15.Proofs.
Open Scope N_scope.

(* The transcription of Entry::validate accepts an entry exactly when it has a class attribute and
   is a replication conflict (exempt by design) or: all classes are defined, asked-for supplements
   present, no excluded class, every required attribute present (not in the recycle bin), and every
   attribute is allowed, within its multiplicity, of the right syntax and valid. *)
Theorem C15_validate_spec : forall sch e, validate sch e = None <-> Satisfies sch e.
Proof. exact validate_spec. Qed.

(* The property's four bullets for a live entry (neither conflict nor recycled) that is not an
   extensible object: only allowed attributes, every required attribute present, single-valued
   attributes with at most one value, every value valid for its syntax. *)
Theorem C15_live_entry_bullets : forall sch e cvs,
  validate sch e = None -> alookup A_CLASS e = Some cvs ->
  ~ In C_CONFLICT (vals_of cvs) -> ~ In C_RECYCLED (v_vals cvs) -> ~ In C_EXTENSIBLE (v_vals cvs) ->
  (forall a vs, In (a, vs) e ->
     exists ad, alookup a (s_attrs sch) = Some ad
       /\ (exists d, class_of sch (v_vals cvs) d /\ In a (allowed_list d))
       /\ (a_multi ad = false -> v_len vs <= 1)
       /\ a_syn ad = v_syn vs /\ v_ok vs = true)
  /\ (forall d a, class_of sch (v_vals cvs) d -> In a (must_list d) -> exists vs, alookup a e = Some vs).
Proof.
  intros sch e cvs Hv Hc Hnc Hnr Hne. apply validate_spec in Hv.
  destruct Hv as (cvs' & Hc' & H). rewrite Hc in Hc'. injection Hc' as <-.
  destruct H as [H|[_ H]]; [contradiction|].
  destruct H as (_ & _ & _ & _ & M & _ & AT). split.
  - intros a vs Hin. destruct (AT (a, vs) Hin) as (ad & E & _ & P2 & P3 & P4 & P5).
    exists ad. repeat split; try assumption. exact (P2 Hne).
  - exact (M Hnr).
Qed.

(* The executable predicate used on the implementation's dumps means the same. *)
Theorem C15_pcheck_sound : forall sch e, sat_b sch e = true <-> Satisfies sch e.
Proof. exact sat_b_satisfies. Qed.

(* Schema additions never invalidate stored data: if sch' only adds attributes, classes and
   optional attributes to sch (sch_ext: the property excludes every other edit) and sch' passes
   the server's schema self-check, every entry valid under sch is valid under sch'. *)
Theorem C15_validate_mono_ext : forall sch sch' e,
  sch_ext sch sch' -> sch_wf sch' -> validate sch e = None -> validate sch' e = None.
Proof. exact validate_mono. Qed.

(* Adding an attribute, adding a class, adding an optional attribute to a class are such extensions. *)
Theorem C15_additions_are_extensions : forall sch o, sch_ext sch (apply_sop sch o).
Proof. exact apply_sop_ext. Qed.

(* The replication path never stores an invalid entry: validate_repl turns whatever fails the
   schema into a conflict entry, which is exempt. (Premise: the class attribute, if present, is
   a string set - true of every stored entry, since validate demands it.) *)
Theorem C15_validate_repl_valid : forall sch e,
  cls_wf e = true -> validate sch (validate_repl sch e) = None.
Proof. exact validate_repl_valid. Qed.

(* One accepted operation (write transaction with candidate entries and a proposed schema,
   replicated merge, purge) keeps every stored entry valid under the schema then in force. *)
Theorem C15_step_inv : forall s o s',
  AllValid s -> op_ok o -> step s o = Some s' -> AllValid s'.
Proof. exact step_preserves. Qed.

(* After ANY sequence of operations (accepted ones applied, refused ones skipped), starting from
   any state whose entries are all valid, every stored entry satisfies the schema in force. *)
Theorem C15_reachable : forall ops s,
  AllValid s -> Forall op_ok ops ->
  forall u e, In (u, e) (snd (fold_left exec ops s)) -> Satisfies (fst (fold_left exec ops s)) e.
Proof.
  intros ops s Hs Hok u e Hin. apply validate_spec.
  exact (reachable ops s Hs Hok u e Hin).
Qed.

(* A write transaction with an invalid candidate, or whose schema proposal is not a pure
   addition or fails the schema self-check, is refused as a whole and leaves the state unchanged. *)
Theorem C15_reject_leaves_nothing : forall s ws sch',
  (exists w, In w ws /\ validate_invalid (fst s) (snd w) <> None)
  \/ ext_b (fst s) sch' = false \/ wf_b sch' = false ->
  step s (OTxn ws sch') = None /\ exec s (OTxn ws sch') = s.
Proof. exact txn_refused. Qed.

(* Whenever the implementation's observations agree with the model (validate verdicts and error
   payloads, validate_repl outputs, every observed transition of the histories one the model allows),
   the property's own predicate holds of every entry the implementation stored, after every operation. *)
Theorem C15_agree_implies_property : forall c : case, agree c = true -> pcheck c = true.
Proof. exact agree_pcheck. Qed.
