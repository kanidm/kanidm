From Coq Require Import List NArith Bool.
Import ListNotations.
Require Import KV.C15.Model KV.C15.Proofs.
Open Scope N_scope.

(* attrs: 0 class, 1 uuid, 2 source_uuid, 3 name (single utf8), 4 mail (multi utf8), 5 gid (single uint32)
   classes: 0 conflict(must source_uuid; supplement recycled) 1 recycled 2 extensible
            3 object(must class,uuid) 4 person(must name; may mail) 5 posix(must gid) excludes 6 *)
Definition wsch : schema := mksch
  [(0, mkadef true false 1); (1, mkadef false false 2); (2, mkadef true false 2);
   (3, mkadef false false 0); (4, mkadef true false 0); (5, mkadef false false 12)]
  [(0, mkcdef [2] [] [] [] [1] [] [] []); (1, mkcdef [] [] [] [] [] [] [] []);
   (2, mkcdef [] [] [] [] [] [] [] []);
   (3, mkcdef [0; 1] [] [] [] [] [] [] []); (4, mkcdef [3] [] [4] [] [] [] [] []);
   (5, mkcdef [5] [] [] [] [] [] [6] [])].
Definition went : entry :=
  [(0, mkvs 1 2 true [3; 4]); (1, mkvs 2 1 true []); (3, mkvs 0 1 true []); (4, mkvs 0 2 true [])].

(* a valid live entry: hypotheses of C15_live_entry_bullets / C15_validate_mono_ext *)
Example C15_witness_valid : validate wsch went = None /\ uuid_ok went = true /\ sat_b wsch went = true.
Proof. vm_compute. repeat split. Qed.

(* each bullet can fail: extra attribute, missing required, too many values, wrong syntax, invalid value *)
Example C15_witness_rejects :
  validate wsch (went ++ [(5, mkvs 12 1 true [])]) = Some (ENotValidForClass 5) /\
  validate wsch [(0, mkvs 1 2 true [3; 4]); (1, mkvs 2 1 true [])] = Some (EMissingMust [3]) /\
  validate wsch [(0, mkvs 1 2 true [3; 4]); (1, mkvs 2 1 true []); (3, mkvs 0 2 true [])] = Some (EInvalidSyntax 3) /\
  validate wsch [(0, mkvs 1 2 true [3; 4]); (1, mkvs 2 1 true []); (3, mkvs 1 1 true [])] = Some (EInvalidSyntax 3) /\
  validate wsch [(0, mkvs 1 2 true [3; 4]); (1, mkvs 2 1 true []); (3, mkvs 0 1 false [])] = Some (EInvalidSyntax 3).
Proof. vm_compute. repeat split. Qed.

(* a genuine extension: new attribute 6, new class 6, attribute 6 added as optional to person;
   an entry using the additions becomes valid only afterwards *)
Definition wsch' : schema :=
  apply_sop (apply_sop (apply_sop wsch (SAddAttr 6 (mkadef false false 0)))
                       (SAddClass 6 (mkcdef [] [] [] [6] [] [] [] []))) (SAddMay 4 6).
Example C15_witness_extension :
  ext_b wsch wsch' = true /\ wf_b wsch' = true /\
  validate wsch (went ++ [(6, mkvs 0 1 true [])]) = Some (ENotValidForClass 6) /\
  validate wsch' (went ++ [(6, mkvs 0 1 true [])]) = None /\ validate wsch' went = None.
Proof. vm_compute. repeat split. Qed.
(* narrowing is not an extension (the excluded schema edits): here mail is moved from person's optional
   to its required attributes *)
Example C15_witness_not_extension :
  ext_b wsch (mksch (s_attrs wsch) (aset 4 (mkcdef [3; 4] [] [] [] [] [] [] []) (s_classes wsch))) = false.
Proof. vm_compute. reflexivity. Qed.

(* replicated merge of two individually valid edits (posix removed on one side, gid set on the
   other) is invalid and becomes a conflict entry, which validates *)
Definition wmerged : entry :=
  [(0, mkvs 1 2 true [3; 4]); (1, mkvs 2 1 true []); (3, mkvs 0 1 true []); (5, mkvs 12 1 true [])].
Example C15_witness_repl :
  cls_wf wmerged = true /\ validate wsch wmerged = Some (ENotValidForClass 5) /\
  validate wsch (validate_repl wsch wmerged) = None /\
  alookup A_CLASS (validate_repl wsch wmerged) = Some (mkvs 1 4 true [3; 4; 1; 0]).
Proof. vm_compute. repeat split. Qed.

(* a history meeting the hypotheses of C15_reachable with accepted and refused operations *)
Definition wops : list op :=
  [OTxn [(10, went)] wsch;                                        (* accepted *)
   OTxn [(11, went ++ [(5, mkvs 12 1 true [])])] wsch;            (* refused: attribute not allowed *)
   OTxn [] wsch';                                                 (* schema additions *)
   OTxn [(12, went ++ [(6, mkvs 0 1 true [])])] wsch';            (* accepted under the new schema *)
   ORepl [(10, wmerged)];                                         (* merge -> conflict *)
   OPurge 12].
Example C15_witness_history :
  all_valid (wsch, []) = true /\ forallb (fun o => match o with ORepl ms => forallb (fun m => cls_wf (snd m)) ms | _ => true end) wops = true /\
  map fst (snd (fold_left exec wops (wsch, []))) = [10] /\
  all_valid (fold_left exec wops (wsch, [])) = true /\
  step (wsch, [(10, went)]) (OTxn [(11, went ++ [(5, mkvs 12 1 true [])])] wsch) = None.
Proof. vm_compute. repeat split. Qed.

(* the run-time tie accepts a small observed history and rejects a forged one in which an
   invalid entry was stored *)
Example C15_witness_agree :
  agree (CHist (wsch, []) (mksch [] [], [])
     [HWrite false (Some went) ROk [] [] [(10, Some went)];
      HWrite false (Some (went ++ [(5, mkvs 12 1 true [])])) (RSchema (ENotValidForClass 5)) [] [] [];
      HRepl false [(10, Some (validate_repl wsch wmerged))]]) = true /\
  pcheck (CHist (wsch, []) (mksch [] [], [])
     [HWrite false None ROk [] [] [(11, Some (went ++ [(5, mkvs 12 1 true [])]))]]) = false.
Proof. vm_compute. repeat split. Qed.
