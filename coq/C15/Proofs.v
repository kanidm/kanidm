(* validate accepts exactly the entries that satisfy the schema in a declarative sense (validate_spec);
   schemas that only add keep valid entries valid (validate_mono); every accepted operation keeps all
   stored entries valid (reachable); observations that agree with the model pass pcheck (agree_pcheck). *)
From Coq Require Import List NArith Bool.
Import ListNotations.
Require Import KV.C15.Model.
Open Scope N_scope.
Arguments N.add : simpl never.
Arguments N.ltb : simpl never.
Arguments N.leb : simpl never.
Arguments N.eqb : simpl never.

Lemma memN_In x l : memN x l = true <-> In x l.
Proof.
  unfold memN. rewrite existsb_exists. split.
  - intros (y & Hy & E). apply N.eqb_eq in E. subst. exact Hy.
  - intros H. exists x. split; [exact H | apply N.eqb_refl].
Qed.

Lemma memN_nIn x l : memN x l = false <-> ~ In x l.
Proof. rewrite <- memN_In. symmetry. apply not_true_iff_false. Qed.

Lemma negb_memN l x : negb (memN x l) = true <-> ~ In x l.
Proof. rewrite negb_true_iff. apply memN_nIn. Qed.

Lemma memN_orb x l b : memN x l || b = true <-> (~ In x l -> b = true).
Proof. rewrite <- memN_nIn. destruct (memN x l), b; cbn; intuition congruence. Qed.

Lemma forallb_eq {A} (f g : A -> bool) l : (forall x, f x = g x) -> forallb f l = forallb g l.
Proof. intros H. induction l as [|a l IH]; cbn; [reflexivity|]. rewrite H, IH. reflexivity. Qed.

Lemma forallb_iff {A} {p : A -> bool} {P : A -> Prop} (R : forall x, p x = true <-> P x) l :
  forallb p l = true <-> forall x, In x l -> P x.
Proof. rewrite forallb_forall. split; intros H x Hx; apply R, H, Hx. Qed.

Lemma isnil_true {A} (l : list A) : isnil l = true <-> l = [].
Proof. destruct l; cbn; intuition congruence. Qed.

Lemma isnil_filter {A} (p : A -> bool) l : isnil (filter p l) = forallb (fun x => negb (p x)) l.
Proof. induction l as [|a l IH]; cbn; [reflexivity|]. destruct (p a); cbn; [reflexivity | exact IH]. Qed.

Lemma isnil_filter_neg {A} (p : A -> bool) l : isnil (filter (fun x => negb (p x)) l) = forallb p l.
Proof. rewrite isnil_filter. apply forallb_eq. intros x. apply negb_involutive. Qed.

Lemma isnil_or_existsb {A} (p : A -> bool) l :
  isnil l || existsb p l = true <-> ((exists x, In x l) -> exists x, In x l /\ p x = true).
Proof.
  rewrite <- existsb_exists. destruct l as [|a l]; cbn [isnil orb].
  - split; [intros _ [x []] | reflexivity].
  - split; [intros H _; exact H | intros H; apply H; exists a; left; reflexivity].
Qed.

Lemma is_none_true {A} (o : option A) : is_none o = true <-> o = None.
Proof. destruct o; cbn; intuition congruence. Qed.

Lemma is_none_guard (c : bool) (e : serr) (r : res) : is_none (if negb c then Some e else r) = c && is_none r.
Proof. destruct c; reflexivity. Qed.

Lemma first_err_none {A} (f : A -> res) (g : A -> bool) l :
  (forall x, is_none (f x) = g x) -> is_none (first_err f l) = forallb g l.
Proof. intros H. induction l as [|a l IH]; cbn; [reflexivity|]. rewrite <- H, <- IH. destruct (f a); reflexivity. Qed.

Lemma lookup_some {A} k (l : list (N * A)) :
  match alookup k l with Some _ => true | None => false end = true <-> exists v, alookup k l = Some v.
Proof.
  destruct (alookup k l) as [v|]; split;
    [intros _; exists v; reflexivity | reflexivity | discriminate | intros [v H]; discriminate].
Qed.

Lemma known_class_true sch c : known_class sch c = true <-> exists d, alookup c (s_classes sch) = Some d.
Proof. apply lookup_some. Qed.

Lemma defined_true sch a : defined sch a = true <-> exists d, alookup a (s_attrs sch) = Some d.
Proof. apply lookup_some. Qed.

Lemma present_true e a : present e a = true <-> exists vs, alookup a e = Some vs.
Proof. apply lookup_some. Qed.

Lemma alookup_In {A} k (l : list (N * A)) v : alookup k l = Some v -> In (k, v) l.
Proof.
  induction l as [|[k' v'] l IH]; cbn; [discriminate|].
  destruct (N.eqb_spec k k') as [->|_]; [intros [= ->]; left; reflexivity | right; apply IH; assumption].
Qed.

Lemma alookup_aset {A} k k' (v : A) l : alookup k' (aset k v l) = if k' =? k then Some v else alookup k' l.
Proof.
  induction l as [|[k2 v2] l IH]; cbn; [reflexivity|].
  destruct (N.eqb_spec k k2) as [<-|Hne]; cbn; [destruct (k' =? k); reflexivity|].
  rewrite IH. destruct (N.eqb_spec k' k2) as [->|_], (N.eqb_spec k2 k) as [->|_]; congruence.
Qed.

Lemma alookup_app_some {A} k (l l' : list (N * A)) v : alookup k l = Some v -> alookup k (l ++ l') = Some v.
Proof.
  induction l as [|[k' v'] l IH]; cbn; [discriminate|].
  destruct (k =? k'); [intros H; exact H | exact IH].
Qed.

Lemma In_aset {A} k (v : A) l p : In p (aset k v l) -> p = (k, v) \/ In p l.
Proof.
  induction l as [|[k2 v2] l IH]; cbn; [intros [H|[]]; auto|].
  destruct (k =? k2); cbn; intros [H|H]; auto. destruct (IH H); auto.
Qed.

Lemma In_upsert ws : forall d p, In p (upsert ws d) -> In p ws \/ In p d.
Proof.
  induction ws as [|[u e] ws IH]; intros d p H; cbn in *; [right; exact H|].
  destruct (IH _ _ H) as [H'|H']; [auto|]. destruct (In_aset _ _ _ _ H') as [->|H'']; auto.
Qed.

Lemma In_adel {A} k (l : list (N * A)) p : In p (adel k l) -> In p l.
Proof. unfold adel. rewrite filter_In. intros [H _]. exact H. Qed.

Lemma list_eqb_eq l : forall l', list_eqb l l' = true -> l = l'.
Proof.
  induction l as [|x l IH]; intros [|y l']; cbn; try discriminate; [reflexivity|].
  rewrite andb_true_iff, N.eqb_eq. intros [-> H]. f_equal. apply IH. exact H.
Qed.

Lemma list_eqb_refl l : list_eqb l l = true.
Proof. induction l as [|x l IH]; cbn; [reflexivity|]. rewrite N.eqb_refl. exact IH. Qed.

Lemma inclb_incl l l' : inclb l l' = true -> incl l l'.
Proof.
  induction l as [|x l IH]; cbn; [intros _ y []|].
  rewrite andb_true_iff, memN_In. intros [Hx H] y [<-|Hy]; [exact Hx | apply IH; assumption].
Qed.

Lemma validate_ava_ok a d vs :
  is_none (validate_ava a d vs) = (a_multi d || (v_len vs <=? 1)) && (a_syn d =? v_syn vs) && v_ok vs.
Proof.
  unfold validate_ava. rewrite (N.leb_antisym 1 (v_len vs)).
  destruct (a_multi d), (1 <? v_len vs), (a_syn d =? v_syn vs), (v_ok vs); reflexivity.
Qed.

Lemma check_ext_ok sch p :
  is_none (check_ext sch p) = attr_ok sch (fun d _ => negb (a_phantom d)) p.
Proof.
  unfold check_ext, attr_ok. destruct (alookup (fst p) (s_attrs sch)) as [d|]; [|reflexivity].
  destruct (a_phantom d); [reflexivity | apply validate_ava_ok].
Qed.

Lemma check_may_ok sch mays p :
  is_none (check_may sch mays p) = attr_ok sch (fun _ a => memN a mays) p.
Proof.
  unfold check_may, attr_ok.
  destruct (memN (fst p) mays), (alookup (fst p) (s_attrs sch)) as [d|]; try reflexivity. apply validate_ava_ok.
Qed.

(* validate_body is a chain of guards in the order of Entry::validate; sat_body is their conjunction *)
Lemma validate_body_sat sch e ec : is_none (validate_body sch e ec) = sat_body sch e ec.
Proof.
  unfold validate_body, sat_body. cbv zeta.
  rewrite <- !negb_orb, !is_none_guard, !isnil_filter_neg, isnil_filter, (orb_comm _ (memN C_RECYCLED ec)), !andb_assoc.
  f_equal. destruct (memN C_EXTENSIBLE ec).
  - apply first_err_none, check_ext_ok.
  - rewrite is_none_guard. f_equal. apply first_err_none, check_may_ok.
Qed.

Lemma validate_sat sch e : is_none (validate sch e) = sat_b sch e.
Proof.
  unfold validate, sat_b. destruct (alookup A_CLASS e) as [cvs|]; [|reflexivity].
  destruct (memN C_CONFLICT (vals_of cvs)); [reflexivity|].
  cbn [orb]. rewrite is_none_guard, validate_body_sat. reflexivity.
Qed.

Lemma validate_invalid_sat sch e : is_none (validate_invalid sch e) = uuid_ok e && sat_b sch e.
Proof. unfold validate_invalid. destruct (uuid_ok e); [apply validate_sat | reflexivity]. Qed.

Lemma validate_invalid_valid sch e : validate_invalid sch e = None -> validate sch e = None.
Proof. unfold validate_invalid. destruct (uuid_ok e); [intros H; exact H | discriminate]. Qed.

Definition class_of (sch : schema) (ec : list N) (d : cdef) : Prop :=
  exists c, In c ec /\ alookup c (s_classes sch) = Some d.

Definition attr_conf (sch : schema) (ec : list N) (p : N * vset) : Prop :=
  exists ad, alookup (fst p) (s_attrs sch) = Some ad
    (* bullet 1 of the property: the attribute is allowed (for an extensible object: any non-phantom one) *)
    /\ (In C_EXTENSIBLE ec -> a_phantom ad = false)
    /\ (~ In C_EXTENSIBLE ec -> exists d, class_of sch ec d /\ In (fst p) (allowed_list d))
    (* bullet 3 *)
    /\ (a_multi ad = false -> v_len (snd p) <= 1)
    (* bullet 4 *)
    /\ a_syn ad = v_syn (snd p) /\ v_ok (snd p) = true.

Definition Conforms (sch : schema) (e : entry) (ec : list N) : Prop :=
  (forall c, In c ec -> exists d, alookup c (s_classes sch) = Some d)
  /\ ((exists d s, class_of sch ec d /\ In s (sup_list d)) ->
      exists d s, class_of sch ec d /\ In s (sup_list d) /\ In s ec)
  /\ (forall d x, class_of sch ec d -> In x (exc_list d) -> ~ In x ec)
  (* on the schema, not the entry: validate answers ECorrupted otherwise; likewise the sixth clause *)
  /\ (forall d a, class_of sch ec d -> In a (must_list d) -> exists ad, alookup a (s_attrs sch) = Some ad)
  (* bullet 2; not enforced in the recycle bin *)
  /\ (~ In C_RECYCLED ec -> forall d a, class_of sch ec d -> In a (must_list d) -> exists vs, alookup a e = Some vs)
  /\ (~ In C_EXTENSIBLE ec -> forall d a, class_of sch ec d -> In a (allowed_list d) ->
      exists ad, alookup a (s_attrs sch) = Some ad)
  /\ (forall p, In p e -> attr_conf sch ec p).

(* a replication conflict is exempt by design: Entry::validate returns Ok for it without consulting the schema *)
Definition Satisfies (sch : schema) (e : entry) : Prop :=
  exists cvs, alookup A_CLASS e = Some cvs /\
    (In C_CONFLICT (vals_of cvs) \/ (v_syn cvs = SYN_IUTF8 /\ Conforms sch e (v_vals cvs))).

Lemma in_cdefs sch ec d : In d (cdefs sch ec) <-> class_of sch ec d.
Proof.
  unfold cdefs, class_of. rewrite in_flat_map. split; intros (c & Hc & H); exists c; split; trivial.
  - destruct (alookup c (s_classes sch)) as [d'|]; [destruct H as [->|[]]; reflexivity | destruct H].
  - rewrite H. left. reflexivity.
Qed.

Lemma in_flat_cdefs (f : cdef -> list N) sch ec x :
  In x (flat_map f (cdefs sch ec)) <-> exists d, class_of sch ec d /\ In x (f d).
Proof.
  rewrite in_flat_map. split; intros (d & Hd & Hx); exists d; (split; [apply in_cdefs; exact Hd | exact Hx]).
Qed.

Lemma forallb_cdefs {p : N -> bool} {P : N -> Prop} (R : forall a, p a = true <-> P a) (f : cdef -> list N) sch ec :
  forallb p (flat_map f (cdefs sch ec)) = true <-> forall d a, class_of sch ec d -> In a (f d) -> P a.
Proof.
  rewrite (forallb_iff R). split.
  - intros H d a Hd Ha. apply H, in_flat_cdefs. exists d. split; assumption.
  - intros H a Ha. apply in_flat_cdefs in Ha. destruct Ha as (d & Hd & Ha). exact (H d a Hd Ha).
Qed.

Lemma attr_ok_conf sch ec (allowed : adef -> N -> bool) p :
  (forall ad, allowed ad (fst p) = true <->
     (In C_EXTENSIBLE ec -> a_phantom ad = false) /\
     (~ In C_EXTENSIBLE ec -> exists d, class_of sch ec d /\ In (fst p) (allowed_list d))) ->
  attr_ok sch allowed p = true <-> attr_conf sch ec p.
Proof.
  intros R. unfold attr_ok, attr_conf. destruct (alookup (fst p) (s_attrs sch)) as [ad|].
  - rewrite !andb_true_iff, R, orb_true_iff, N.leb_le, N.eqb_eq. split.
    + intros [[[[P1 P2] Hm] Hs] Hv]. exists ad. repeat split; try assumption.
      intros Hf. destruct Hm as [Hm|Hm]; [congruence | exact Hm].
    + intros (ad' & [= <-] & P1 & P2 & Hm & Hs & Hv). repeat split; try assumption.
      destruct (a_multi ad); [left; reflexivity | right; apply Hm; reflexivity].
  - split; [discriminate | intros (ad' & [=] & _)].
Qed.

Lemma attr_ok_ext_conf sch ec : In C_EXTENSIBLE ec ->
  forall p, attr_ok sch (fun d _ => negb (a_phantom d)) p = true <-> attr_conf sch ec p.
Proof. intros Hx p. apply attr_ok_conf. intros ad. rewrite negb_true_iff. tauto. Qed.

Lemma attr_ok_may_conf sch ec : ~ In C_EXTENSIBLE ec ->
  forall p, attr_ok sch (fun _ a => memN a (flat_map allowed_list (cdefs sch ec))) p = true <-> attr_conf sch ec p.
Proof. intros Hx p. apply attr_ok_conf. intros ad. rewrite memN_In, in_flat_cdefs. tauto. Qed.

Lemma and_iff {A A' B B' : Prop} : (A <-> A') -> (B <-> B') -> (A /\ B <-> A' /\ B').
Proof. tauto. Qed.

Lemma sat_body_conforms sch e ec : sat_body sch e ec = true <-> Conforms sch e ec.
Proof.
  unfold sat_body, Conforms. rewrite <- !andb_assoc, !andb_true_iff.
  apply and_iff; [apply (forallb_iff (known_class_true sch))|].
  apply and_iff.
  { rewrite isnil_or_existsb. setoid_rewrite in_flat_cdefs. setoid_rewrite memN_In. split; intros H.
    - intros (d & s & Hd). destruct H as (s' & (d' & Hd' & Hs') & Hm); [exists s, d; exact Hd|]. exists d', s'. auto.
    - intros (s & d & Hd). destruct (H (ex_intro _ d (ex_intro _ s Hd))) as (d' & s' & Hd' & Hs' & Hm).
      exists s'. split; [exists d'; auto | exact Hm]. }
  apply and_iff; [apply (forallb_cdefs (negb_memN ec))|].
  apply and_iff; [apply (forallb_cdefs (defined_true sch))|].
  apply and_iff; [rewrite memN_orb, (forallb_cdefs (present_true e)); reflexivity|].
  destruct (memN C_EXTENSIBLE ec) eqn:Ex.
  - apply memN_In in Ex. rewrite (forallb_iff (attr_ok_ext_conf sch ec Ex)). tauto.
  - apply memN_nIn in Ex.
    rewrite andb_true_iff, (forallb_cdefs (defined_true sch)), (forallb_iff (attr_ok_may_conf sch ec Ex)). tauto.
Qed.

Lemma sat_b_satisfies sch e : sat_b sch e = true <-> Satisfies sch e.
Proof.
  unfold sat_b, Satisfies. destruct (alookup A_CLASS e) as [cvs|].
  - rewrite orb_true_iff, andb_true_iff, memN_In, N.eqb_eq, sat_body_conforms. split.
    + intros H. exists cvs. split; [reflexivity | exact H].
    + intros (cvs' & [= <-] & H). exact H.
  - split; [discriminate | intros (cvs' & [=] & _)].
Qed.

Lemma validate_spec sch e : validate sch e = None <-> Satisfies sch e.
Proof. rewrite <- sat_b_satisfies, <- validate_sat. symmetry. apply is_none_true. Qed.

Definition cdef_ext (d d' : cdef) : Prop :=
  c_sysmust d = c_sysmust d' /\ c_must d = c_must d' /\
  c_syssup d = c_syssup d' /\ c_sup d = c_sup d' /\
  c_sysexc d = c_sysexc d' /\ c_exc d = c_exc d' /\
  incl (c_sysmay d) (c_sysmay d') /\ incl (c_may d) (c_may d').
Definition sch_ext (sch sch' : schema) : Prop :=
  (forall a d, alookup a (s_attrs sch) = Some d -> alookup a (s_attrs sch') = Some d) /\
  (forall c d, alookup c (s_classes sch) = Some d ->
     exists d', alookup c (s_classes sch') = Some d' /\ cdef_ext d d').
(* what SchemaTransaction::validate demands of a schema before it goes in force *)
Definition sch_wf (sch : schema) : Prop :=
  forall c d a, alookup c (s_classes sch) = Some d -> In a (allowed_list d) ->
    exists ad, alookup a (s_attrs sch) = Some ad /\ a_phantom ad = false.

Lemma cdef_ext_refl d : cdef_ext d d.
Proof. unfold cdef_ext. repeat split; try reflexivity; apply incl_refl. Qed.

Lemma cdef_ext_sup d d' : cdef_ext d d' -> sup_list d = sup_list d'.
Proof. intros (_ & _ & A & B & _). unfold sup_list. rewrite A, B. reflexivity. Qed.

Lemma cdef_ext_exc d d' : cdef_ext d d' -> exc_list d = exc_list d'.
Proof. intros (_ & _ & _ & _ & A & B & _). unfold exc_list. rewrite A, B. reflexivity. Qed.

Lemma cdef_ext_must d d' : cdef_ext d d' -> must_list d = must_list d'.
Proof. intros (A & B & _). unfold must_list. rewrite A, B. reflexivity. Qed.

Lemma cdef_ext_allowed d d' : cdef_ext d d' -> incl (allowed_list d) (allowed_list d').
Proof.
  intros (A & B & _ & _ & _ & _ & G & H). unfold allowed_list. rewrite A, B.
  repeat apply incl_app_app; auto using incl_refl.
Qed.

Lemma sch_ext_refl sch : sch_ext sch sch.
Proof. split; [intros a d E; exact E | intros c d E; exists d; split; [exact E | apply cdef_ext_refl]]. Qed.

Lemma adef_eqb_eq d d' : adef_eqb d d' = true -> d = d'.
Proof.
  destruct d as [m p s], d' as [m' p' s']. unfold adef_eqb; cbn.
  rewrite !andb_true_iff, !eqb_true_iff, N.eqb_eq. intros [[-> ->] ->]. reflexivity.
Qed.

Lemma cdef_ext_b_ext d d' : cdef_ext_b d d' = true -> cdef_ext d d'.
Proof.
  unfold cdef_ext_b, cdef_ext. intros H.
  do 7 (apply andb_prop in H; destruct H as [H ?]).
  repeat split; try (apply list_eqb_eq; assumption); apply inclb_incl; assumption.
Qed.

Lemma ext_b_ext sch sch' : ext_b sch sch' = true -> sch_ext sch sch'.
Proof.
  unfold ext_b, sch_ext. rewrite andb_true_iff, !forallb_forall. intros [HA HC]. split.
  - intros a d E. specialize (HA (a, d) (alookup_In _ _ _ E)). cbn in HA.
    destruct (alookup a (s_attrs sch')) as [d'|]; [|discriminate].
    apply adef_eqb_eq in HA. subst. reflexivity.
  - intros c d E. specialize (HC (c, d) (alookup_In _ _ _ E)). cbn in HC.
    destruct (alookup c (s_classes sch')) as [d'|]; [|discriminate].
    exists d'. split; [reflexivity | apply cdef_ext_b_ext; exact HC].
Qed.

Lemma wf_b_wf sch : wf_b sch = true -> sch_wf sch.
Proof.
  unfold wf_b, sch_wf. rewrite forallb_forall. intros H c d a E Ha.
  specialize (H (c, d) (alookup_In _ _ _ E)). cbn in H. rewrite forallb_forall in H.
  specialize (H a Ha). unfold wf_attr in H.
  destruct (alookup a (s_attrs sch)) as [ad|]; [|discriminate].
  exists ad. split; [reflexivity | apply negb_true_iff; exact H].
Qed.

Section Extension.
  Context {sch sch' : schema} {ec : list N} (Hext : sch_ext sch sch').

  Lemma class_of_fwd d : class_of sch ec d -> exists d', class_of sch' ec d' /\ cdef_ext d d'.
  Proof.
    intros (c & Hc & E). destruct (proj2 Hext c d E) as (d' & E' & Hx).
    exists d'. split; [exists c; split; assumption | exact Hx].
  Qed.

  Hypothesis K : forall c, In c ec -> exists d, alookup c (s_classes sch) = Some d.

  Lemma class_of_bwd d' : class_of sch' ec d' -> exists d, class_of sch ec d /\ cdef_ext d d'.
  Proof.
    intros (c & Hc & E'). destruct (K c Hc) as (d & E).
    destruct (proj2 Hext c d E) as (d2 & E2 & Hx). rewrite E' in E2. injection E2 as <-.
    exists d. split; [exists c; split; assumption | exact Hx].
  Qed.

  Lemma class_clause_bwd {f : cdef -> list N} (Hf : forall d d', cdef_ext d d' -> f d = f d') {Q : N -> Prop} :
    (forall d x, class_of sch ec d -> In x (f d) -> Q x) -> forall d' x, class_of sch' ec d' -> In x (f d') -> Q x.
  Proof.
    intros H d' x Hd' Hx. destruct (class_of_bwd d' Hd') as (d & Hd & Hdd).
    rewrite <- (Hf d d' Hdd) in Hx. exact (H d x Hd Hx).
  Qed.
End Extension.

Lemma conforms_mono sch sch' e ec :
  sch_ext sch sch' -> sch_wf sch' -> Conforms sch e ec -> Conforms sch' e ec.
Proof.
  intros Hext Hwf (K & S & X & MD & M & _ & AT).
  pose proof Hext as [HA HC].
  split; [|split; [|split; [|split; [|split; [|split]]]]].
  - intros c Hc. destruct (K c Hc) as (d & E). destruct (HC c d E) as (d' & E' & _). exists d'. exact E'.
  - intros (d' & s & Hd' & Hs).
    destruct (class_of_bwd Hext K d' Hd') as (d & Hd & Hx). rewrite <- (cdef_ext_sup _ _ Hx) in Hs.
    destruct (S (ex_intro _ d (ex_intro _ s (conj Hd Hs)))) as (d1 & s1 & Hd1 & Hs1 & Hm1).
    destruct (class_of_fwd Hext d1 Hd1) as (d1' & Hd1' & Hx1). rewrite (cdef_ext_sup _ _ Hx1) in Hs1.
    exists d1', s1. auto.
  - exact (class_clause_bwd Hext K cdef_ext_exc X).
  - intros d' a Hd' Ha. destruct (class_clause_bwd Hext K cdef_ext_must MD d' a Hd' Ha) as (ad & E).
    exists ad. apply HA, E.
  - intros Hr. exact (class_clause_bwd Hext K cdef_ext_must (M Hr)).
  - (* the one clause that does not carry over from sch: an extension may give a class an optional attribute
       the schema does not define (SAddMay does not look), and validate then answers ECorrupted. It is
       rebuilt from sch_wf sch', which is needed nowhere else. *)
    intros _ d' a (c & Hc & E') Ha'.
    destruct (Hwf c d' a E' Ha') as (ad & E & _). exists ad. exact E.
  - intros p Hp. destruct (AT p Hp) as (ad & E & P1 & P2 & P345).
    exists ad. split; [apply HA; exact E|]. split; [exact P1|]. split; [|exact P345].
    intros Hne. destruct (P2 Hne) as (d & Hd & Ha).
    destruct (class_of_fwd Hext d Hd) as (d' & Hd' & Hx).
    exists d'. split; [exact Hd' | apply (cdef_ext_allowed _ _ Hx); exact Ha].
Qed.

Lemma validate_mono sch sch' e :
  sch_ext sch sch' -> sch_wf sch' -> validate sch e = None -> validate sch' e = None.
Proof.
  intros Hext Hwf. rewrite !validate_spec. intros (cvs & E & H). exists cvs. split; [exact E|].
  destruct H as [H|[Hs H]]; [left; exact H | right; split; [exact Hs|]].
  eapply conforms_mono; eassumption.
Qed.

Lemma apply_sop_ext sch o : sch_ext sch (apply_sop sch o).
Proof.
  destruct o as [a d|c d|c a]; cbn [apply_sop].
  - destruct (defined sch a); [apply sch_ext_refl|]. split; cbn [s_attrs s_classes].
    + intros a' d' E. apply alookup_app_some. exact E.
    + apply sch_ext_refl.
  - destruct (known_class sch c); [apply sch_ext_refl|]. split; cbn [s_attrs s_classes].
    + apply sch_ext_refl.
    + intros c' d' E. exists d'. split; [apply alookup_app_some; exact E | apply cdef_ext_refl].
  - destruct (alookup c (s_classes sch)) as [d|] eqn:Ec; [|apply sch_ext_refl]. split; cbn [s_attrs s_classes].
    + apply sch_ext_refl.
    + intros c' d' E. rewrite alookup_aset. destruct (N.eqb_spec c' c) as [->|_].
      * rewrite Ec in E. injection E as <-. eexists. split; [reflexivity|].
        unfold cdef_ext; cbn. repeat split; try reflexivity; try apply incl_refl. apply incl_appl, incl_refl.
      * exists d'. split; [exact E | apply cdef_ext_refl].
Qed.

Lemma add_class_spec c e : cls_wf e = true ->
  exists vs, alookup A_CLASS (add_class c e) = Some vs /\ v_syn vs = SYN_IUTF8 /\ In c (v_vals vs).
Proof.
  unfold cls_wf, add_class. destruct (alookup A_CLASS e) as [vs|] eqn:E.
  - intros Hs. rewrite Hs. destruct (memN c (v_vals vs)) eqn:Em.
    + exists vs. split; [exact E|]. split; [apply N.eqb_eq; exact Hs | apply memN_In; exact Em].
    + rewrite alookup_aset, N.eqb_refl. eexists. split; [reflexivity|]. cbn. split; [reflexivity|].
      apply in_app_iff. right. left. reflexivity.
  - intros _. rewrite alookup_aset, N.eqb_refl. eexists. split; [reflexivity|]. cbn. split; [reflexivity | left; reflexivity].
Qed.

Lemma to_conflict_valid sch e : cls_wf e = true -> validate sch (to_conflict e) = None.
Proof.
  intros Hwf. unfold to_conflict.
  destruct (add_class_spec C_RECYCLED e Hwf) as (vs1 & E1 & S1 & _).
  assert (Hwf1 : cls_wf (add_class C_RECYCLED e) = true).
  { unfold cls_wf. rewrite E1. apply N.eqb_eq. exact S1. }
  destruct (add_class_spec C_CONFLICT _ Hwf1) as (vs2 & E2 & S2 & I2).
  apply validate_spec. exists vs2. split.
  - unfold add_source. destruct (alookup A_SOURCE_UUID _); [exact E2|].
    rewrite alookup_aset. exact E2.
  - left. unfold vals_of. rewrite S2, N.eqb_refl. exact I2.
Qed.

Lemma validate_repl_valid sch e : cls_wf e = true -> validate sch (validate_repl sch e) = None.
Proof.
  intros Hwf. unfold validate_repl. destruct (validate sch e) eqn:E; [apply to_conflict_valid; exact Hwf | exact E].
Qed.

Lemma validate_repl_id sch e : validate sch e = None -> validate_repl sch e = e.
Proof. unfold validate_repl. intros ->. reflexivity. Qed.

Definition AllValid (s : srv) : Prop := forall u e, In (u, e) (snd s) -> validate (fst s) e = None.
(* assumed of replicated states: a well-typed class attribute (they come from stored entries) *)
Definition op_ok (o : op) : Prop :=
  match o with ORepl ms => forall m, In m ms -> cls_wf (snd m) = true | _ => True end.

Lemma all_valid_AllValid s : all_valid s = true <-> AllValid s.
Proof.
  unfold all_valid, AllValid. rewrite (forallb_iff (fun p => is_none_true _)). split.
  - intros H u e Hin. exact (H (u, e) Hin).
  - intros H [u e] Hin. exact (H u e Hin).
Qed.

Lemma step_preserves s o s' : AllValid s -> op_ok o -> step s o = Some s' -> AllValid s'.
Proof.
  intros Hinv Hok. destruct s as [sch d]. destruct o as [ws sch'|ms|u]; cbn [step fst snd].
  - destruct (forallb _ ws && ext_b sch sch' && wf_b sch') eqn:C; [|discriminate].
    intros [= <-]. rewrite !andb_true_iff in C. destruct C as [[Cw Ce] Cf].
    apply ext_b_ext in Ce. apply wf_b_wf in Cf. rewrite forallb_forall in Cw.
    intros u e Hin. cbn [fst snd] in *. apply (validate_mono sch sch' e Ce Cf).
    destruct (In_upsert _ _ _ Hin) as [Hw|Hd]; [|exact (Hinv u e Hd)].
    apply validate_invalid_valid, is_none_true. exact (Cw (u, e) Hw).
  - intros [= <-] u e Hin. cbn [fst snd] in *.
    destruct (In_upsert _ _ _ Hin) as [Hw|Hd]; [|exact (Hinv u e Hd)].
    apply in_map_iff in Hw. destruct Hw as (m & [= <- <-] & Hm).
    apply validate_repl_valid. exact (Hok m Hm).
  - intros [= <-] u' e Hin. cbn [fst snd] in *.
    apply In_adel in Hin. exact (Hinv u' e Hin).
Qed.

Lemma exec_preserves s o : AllValid s -> op_ok o -> AllValid (exec s o).
Proof.
  intros Hinv Hok. unfold exec. destruct (step s o) as [s'|] eqn:E; [|exact Hinv].
  eapply step_preserves; eassumption.
Qed.

Lemma reachable ops : forall s, AllValid s -> Forall op_ok ops -> AllValid (fold_left exec ops s).
Proof.
  induction ops as [|o ops IH]; intros s Hinv Hok; cbn; [exact Hinv|].
  inversion Hok as [|o' ops' Ho Hops]; subst. apply IH; [apply exec_preserves; assumption | exact Hops].
Qed.

Lemma txn_refused s ws sch' :
  (exists w, In w ws /\ validate_invalid (fst s) (snd w) <> None) \/ ext_b (fst s) sch' = false \/ wf_b sch' = false ->
  step s (OTxn ws sch') = None /\ exec s (OTxn ws sch') = s.
Proof.
  intros H. assert (E : step s (OTxn ws sch') = None).
  { cbn [step]. destruct H as [(w & Hw & Hv)|[->| ->]]; rewrite ?andb_false_r; try reflexivity.
    destruct (forallb _ ws) eqn:F; [|reflexivity].
    rewrite forallb_forall in F. destruct Hv. apply is_none_true, F, Hw. }
  split; [exact E | unfold exec; rewrite E; reflexivity].
Qed.

Lemma res_eqb_none a b : res_eqb a b = true -> is_none a = is_none b.
Proof. destruct a, b; cbn; try reflexivity; discriminate. Qed.

Lemma all_sat_of_valid s : AllValid s -> all_sat s = true.
Proof.
  intros H. apply all_valid_AllValid in H. rewrite <- H.
  apply forallb_eq. intros p. symmetry. apply validate_sat.
Qed.

Lemma purge_all_eq us : forall s, purge_all us s = (fst s, fold_left (fun d u => adel u d) us (snd s)).
Proof. induction us as [|u us IH]; intros s; cbn; [destruct s; reflexivity | apply IH]. Qed.

Lemma purge_all_valid us : forall s, AllValid s -> AllValid (purge_all us s).
Proof.
  induction us as [|u us IH]; intros s H; [exact H|].
  apply (IH (exec s (OPurge u))), exec_preserves; [exact H | exact I].
Qed.

Lemma apply_delta_nil sch : apply_delta sch [] [] = sch.
Proof. destruct sch; reflexivity. Qed.

Lemma setS_getS st b : setS st b (getS st b) = st.
Proof. destruct st as [a c], b; reflexivity. Qed.

Lemma getS_setS st b s : getS (setS st b s) b = s.
Proof. destruct st as [a c], b; reflexivity. Qed.

Lemma track_nil st b cand r : track st (HWrite b cand r [] [] []) = st.
Proof.
  cbn [track somes nones upsert fold_left]. rewrite apply_delta_nil, <- surjective_pairing. apply setS_getS.
Qed.

Definition Inv (st : srv * srv) : Prop := forall b, AllValid (getS st b).

Lemma Inv_setS st b s : Inv st -> AllValid s -> Inv (setS st b s).
Proof. intros HI H b'. destruct b, b'; try exact H; [exact (HI false) | exact (HI true)]. Qed.

Lemma map_validate_repl_id sch (ms : list (N * entry)) :
  forallb (fun w => is_none (validate sch (snd w))) ms = true ->
  map (fun m => (fst m, validate_repl sch (snd m))) ms = ms.
Proof.
  induction ms as [|[u e] ms IH]; cbn; [reflexivity|].
  rewrite andb_true_iff. intros [H1 H2]. apply is_none_true in H1.
  rewrite (validate_repl_id _ _ H1), (IH H2). reflexivity.
Qed.

Lemma In_somes ch u e : In (u, e) (somes ch) -> In (u, Some e) ch.
Proof.
  induction ch as [|[u' [e'|]] ch IH]; cbn; [intros []| |].
  - intros [H|H]; [left; injection H as -> ->; reflexivity | right; apply IH; exact H].
  - intros H. right. apply IH. exact H.
Qed.

Lemma step_txn s ws sch' s' : step s (OTxn ws sch') = Some s' -> s' = (sch', upsert ws (snd s)).
Proof. cbn [step]. destruct (_ && _ && _); [intros [= <-]; reflexivity | discriminate]. Qed.

Lemma step_repl_valid s ms : forallb (fun w => is_none (validate (fst s) (snd w))) ms = true ->
  step s (ORepl ms) = Some (fst s, upsert ms (snd s)).
Proof. intros H. cbn [step]. rewrite (map_validate_repl_id _ _ H). reflexivity. Qed.

(* the hypothesis is the refusal arm of obs_step: a refused write is matched only if the dumps show no change *)
Lemma refusal_spec st b cand r sa sc ch st' : Inv st ->
  (if isnil sa && isnil sc && isnil ch then Some st else None) = Some st' ->
  st' = track st (HWrite b cand r sa sc ch) /\ Inv st'.
Proof.
  intros HI. destruct (isnil sa && isnil sc && isnil ch) eqn:En; [|discriminate]. intros [= <-].
  rewrite !andb_true_iff, !isnil_true in En. destruct En as [[-> ->] ->].
  rewrite track_nil. split; [reflexivity | exact HI].
Qed.

Lemma obs_step_spec st h st' : Inv st -> obs_step st h = Some st' ->
  st' = track st h /\ Inv st' /\ step_ok st h = true.
Proof.
  intros HI E.
  assert (H : st' = track st h /\ Inv st').
  { destruct h as [b cand r sa sc ch|b ch]; cbn [obs_step] in E; pose proof (HI b) as Hs.
    - destruct (negb _); [discriminate|]. destruct r; [|exact (refusal_spec _ _ _ _ _ _ _ _ HI E)..].
      destruct (step _ _) as [s'|] eqn:Es; [|discriminate]. injection E as <-.
      pose proof (step_preserves _ (OTxn _ _) _ Hs I Es) as Hv. apply step_txn in Es. subst s'.
      split; [rewrite purge_all_eq; reflexivity | apply Inv_setS, purge_all_valid; assumption].
    - destruct (forallb _ _) eqn:Ev; [|discriminate].
      rewrite (step_repl_valid _ _ Ev) in E. injection E as <-.
      split; [rewrite purge_all_eq; reflexivity | apply Inv_setS, purge_all_valid; [exact HI|]].
      intros u e Hin. destruct (In_upsert _ _ _ Hin) as [Hw|Hd]; [|exact (Hs u e Hd)].
      rewrite forallb_forall in Ev. apply is_none_true. exact (Ev (u, e) Hw). }
  destruct H as [-> HI']. split; [reflexivity|]. split; [exact HI'|].
  (* every entry of the touched server is valid, hence satisfies the predicate; a refusal left no trace *)
  destruct h as [b cand r sa sc ch|b ch]; cbn [step_ok]; rewrite (all_sat_of_valid _ (HI' b)); [|reflexivity].
  revert E. cbn [obs_step]. destruct (negb _); [discriminate|].
  destruct r; [reflexivity|..]; destruct (isnil sa && isnil sc && isnil ch); (reflexivity || discriminate).
Qed.

Lemma hist_agree_ok hs : forall st, Inv st -> hist_agree st hs = true -> hist_ok st hs = true.
Proof.
  induction hs as [|h hs IH]; intros st HI; cbn [hist_agree hist_ok]; [reflexivity|].
  destruct (obs_step st h) as [st'|] eqn:E; [|discriminate].
  destruct (obs_step_spec st h st' HI E) as (-> & HI' & ->). exact (IH _ HI').
Qed.

Lemma agree_pcheck c : agree c = true -> pcheck c = true.
Proof.
  destruct c as [sch e r|sch e out|a0 b0 hs]; cbn [agree pcheck].
  - intros H. apply res_eqb_none in H. rewrite <- H, validate_invalid_sat. apply eqb_reflx.
  - rewrite andb_true_iff. intros [_ H]. rewrite <- validate_sat. exact H.
  - rewrite !andb_true_iff. intros [[Ha Hb] Hh].
    apply all_valid_AllValid in Ha, Hb.
    repeat split; try (apply all_sat_of_valid; assumption).
    apply hist_agree_ok; [intros []; assumption | exact Hh].
Qed.
