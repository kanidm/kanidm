(* A user's write decision equals the declarative specification.  For modify, apply_modify_access
   is first freed of its bookkeeping (apply_modify_plain), then evaluated for users
   (apply_modify_user: `user_ok` stops a user, touch_limit narrows him); create and delete are
   unfolded directly. *)
From Coq Require Import List NArith Bool.
Import ListNotations.
Require Import KV.C24.Model.
Open Scope N_scope.

Lemma mem_In x l : mem x l = true <-> In x l.
Proof.
  unfold mem. rewrite existsb_exists. split.
  - intros [y [Hy He]]. apply N.eqb_eq in He. subst. exact Hy.
  - intros H. exists x. split; [exact H | apply N.eqb_refl].
Qed.
Lemma mem_false_iff x l : mem x l = false <-> ~ In x l.
Proof. rewrite <- not_true_iff_false, mem_In. reflexivity. Qed.
Lemma mem_filter x P l : mem x (filter P l) = mem x l && P x.
Proof. apply eq_true_iff_eq. rewrite andb_true_iff, !mem_In, filter_In. reflexivity. Qed.
Lemma mem_inter x a b : mem x (inter a b) = mem x a && mem x b.
Proof. apply mem_filter. Qed.
Lemma mem_diff x a b : mem x (diff a b) = mem x a && negb (mem x b).
Proof. apply mem_filter. Qed.
Lemma subset_forallb a b : subset a b = forallb (fun x => mem x b) a.
Proof. reflexivity. Qed.
Lemma subset_In a b : subset a b = true <-> (forall x, In x a -> In x b).
Proof.
  unfold subset. rewrite forallb_forall. split; intros H x Hx; apply mem_In, H, Hx.
Qed.
Lemma intersects_In a b : intersects a b = true <-> exists x, In x a /\ In x b.
Proof.
  unfold intersects. rewrite existsb_exists.
  split; intros [x [Ha Hb]]; exists x; (split; [exact Ha | apply mem_In; exact Hb]).
Qed.
Lemma disjoint_In a b : disjoint a b = true <-> (forall x, In x a -> In x b -> False).
Proof.
  unfold disjoint. rewrite negb_true_iff, <- not_true_iff_false, intersects_In. split.
  - intros H x Ha Hb. apply H. exists x. split; assumption.
  - intros H [x [Ha Hb]]. exact (H x Ha Hb).
Qed.
Lemma forallb_andb {A} (f g : A -> bool) l :
  forallb (fun x => f x && g x) l = forallb f l && forallb g l.
Proof.
  induction l as [|x l IH]; [reflexivity|]. cbn [forallb]. rewrite IH.
  destruct (f x); [|reflexivity]. destruct (g x); [reflexivity|]. symmetry. apply andb_false_r.
Qed.
Lemma forallb_and_In {A} (f g : A -> bool) l x :
  forallb (fun y => f y && g y) l = true -> In x l -> f x = true /\ g x = true.
Proof. intros H Hx. apply andb_true_iff. exact (proj1 (forallb_forall _ l) H x Hx). Qed.
Lemma forallb_ext' {A} (f g : A -> bool) l : (forall x, f x = g x) -> forallb f l = forallb g l.
Proof. intros H. induction l as [|x l IH]; [reflexivity|]. cbn [forallb]. rewrite H, IH. reflexivity. Qed.
Lemma existsb_ext' {A} (f g : A -> bool) l : (forall x, f x = g x) -> existsb f l = existsb g l.
Proof. intros H. induction l as [|x l IH]; [reflexivity|]. cbn [existsb]. rewrite H, IH. reflexivity. Qed.
Lemma intersects_single cl k : intersects cl [k] = mem k cl.
Proof.
  unfold intersects, mem. apply existsb_ext'. intros x. cbn [existsb]. rewrite orb_false_r. apply N.eqb_sym.
Qed.
Lemma forallb_neg_intersects (f : N -> bool) l P :
  forallb (fun c => f c && negb (mem c P)) l = true -> intersects l P = false.
Proof.
  intros H. apply not_true_iff_false. rewrite intersects_In. intros [c [Hc Hm]].
  apply (forallb_and_In _ _ _ _ H) in Hc as [_ Hn]. apply mem_In in Hm. rewrite Hm in Hn. discriminate.
Qed.
Lemma ava_keys a e vs : ava a e = Some vs -> In a (attr_keys e).
Proof.
  induction e as [|[k v] e IH]; cbn [ava]; [discriminate|].
  destruct (N.eqb_spec a k) as [->|Hne]; intros H.
  - left. reflexivity.
  - right. apply IH. exact H.
Qed.
Lemma subset_nil_keys a e vs : ava a e = Some vs -> subset (attr_keys e) [] = false.
Proof.
  intros H. apply ava_keys in H. destruct (attr_keys e) as [|k r]; [destruct H | reflexivity].
Qed.

Lemma scoped_matches i e a : scoped i e a = acp_matches i e a.
Proof.
  unfold scoped, related, recv_ok, target_ok, acp_matches.
  destruct (a_recv a), (a_target a); cbn [andb];
    rewrite ?andb_true_r, ?andb_false_r; reflexivity.
Qed.
Lemma granted_exists sel i l e x :
  granted sel i l e x = true <-> exists a, In a l /\ acp_matches i e a = true /\ In x (sel a).
Proof.
  unfold granted. rewrite existsb_exists. split.
  - intros [a [Ha H]]. apply andb_true_iff in H as [H1 H2]. apply mem_In in H2. exists a. auto.
  - intros [a [Ha [H1 H2]]]. exists a. split; [exact Ha|]. apply andb_true_iff. split; [exact H1 | apply mem_In; exact H2].
Qed.
Lemma mem_allow_granted sel i l e x :
  mem x (flat_map sel (filter (scoped i e) l)) = granted sel i l e x.
Proof.
  apply eq_true_iff_eq. split; intros H.
  - apply mem_In, in_flat_map in H as [a [Ha Hx]]. apply filter_In in Ha as [Ha Hm].
    rewrite scoped_matches in Hm. apply granted_exists. exists a. auto.
  - apply granted_exists in H as [a [Ha [Hm Hx]]]. apply mem_In, in_flat_map. exists a.
    split; [apply filter_In; rewrite scoped_matches; auto | exact Hx].
Qed.

Lemma tombstone_protected cl :
  mem K_Tombstone cl = true -> disjoint cl PROTECTED_MOD_ENTRY_CLASSES = false.
Proof.
  intros H. unfold disjoint. apply negb_false_iff, intersects_In.
  exists K_Tombstone. split; apply mem_In; [exact H | reflexivity].
Qed.
Lemma tombstone_mod_protected e : is_tombstone e = true -> mod_protected e = true.
Proof.
  unfold is_tombstone, has_class, mod_protected. destruct (classes_of e) as [cl|]; [|discriminate].
  intros H. rewrite (tombstone_protected cl H), andb_false_r. reflexivity.
Qed.

Lemma protected_attrs_user i e : i_origin i = OUser ->
  modify_protected_attrs i e =
  if mod_protected e
  then if is_tombstone e || is_empty (protected_table (cur_classes e)) then MDeny
       else MConstrain (protected_table (cur_classes e))
  else MIgnore.
Proof.
  intros Ho. unfold modify_protected_attrs, mod_protected, is_tombstone, has_class, cur_classes. rewrite Ho.
  destruct (classes_of e) as [cl|]; [|reflexivity].
  destruct ((UUID_ANONYMOUS <? cuuid e) && disjoint cl PROTECTED_MOD_ENTRY_CLASSES); [reflexivity|].
  unfold modify_protected_entry_attrs, disjoint, LOCKED_ENTRY_CLASSES. rewrite intersects_single, negb_involutive.
  destruct (mem K_Tombstone cl); [reflexivity|]. destruct (is_empty (protected_table cl)); reflexivity.
Qed.
Lemma sync_constrain_user i e s : i_origin i = OUser ->
  modify_sync_constrain i e s =
  if is_sync_object e
  then match single A_SyncParentUuid e with Some u => MConstrain (SYNC_BASE ++ agreement u s) | None => MDeny end
  else MIgnore.
Proof.
  intros Ho. unfold modify_sync_constrain, is_sync_object, has_class. rewrite Ho.
  destruct (match classes_of e with Some cl => mem K_SyncObject cl | None => false end); reflexivity.
Qed.

(* the conjuncts of spec_modify_user that do not depend on the request *)
Definition user_ok (i : ident) (e : entry) : bool :=
  scope_rw i && negb (is_tombstone e)
  && (negb (mod_protected e) || negb (is_empty (protected_table (cur_classes e))))
  && (negb (is_sync_object e) || match single A_SyncParentUuid e with Some _ => true | None => false end).

(* the two closing steps of apply_modify_access: a non-empty constraint narrows what may be added
   or removed, and the selected profiles hand out what remains *)
Definition narrow (con l : list N) : list N := if negb (is_empty con) then inter con l else l.
Definition allow_within (i : ident) (l : list acp) (e : entry) (con : list N) : modify_result :=
  let sa := filter (scoped i e) l in
  RAllow (narrow con (flat_map a_s1 sa)) (narrow con (flat_map a_s2 sa))
         (diff (flat_map a_c1 sa) PROTECTED_MOD_PRES_ENTRY_CLASSES)
         (diff (flat_map a_c2 sa) PROTECTED_MOD_REM_ENTRY_CLASSES).

Lemma apply_modify_plain i l s e : modify_migration_attrs i e = MIgnore ->
  apply_modify_access i l s e =
  let prot := modify_protected_attrs i e in
  let sc := modify_sync_constrain i e s in
  match modify_ident_test i with
  | BDeny => RDeny
  | BGrant => if is_deny prot then RDeny else RGrant
  | BIgnore => if is_deny prot || is_deny sc then RDeny
               else allow_within i l e (constrain_of prot ++ constrain_of sc)
  end.
Proof.
  intros Hm. unfold apply_modify_access, allow_within, narrow. rewrite Hm.
  destruct (modify_ident_test i), (is_deny (modify_protected_attrs i e)); reflexivity.
Qed.

Lemma apply_modify_user i A e : i_origin i = OUser ->
  apply_modify_access i (ac_modify A) (ac_sync A) e =
  if user_ok i e then allow_within i (ac_modify A) e (touch_limit A e) else RDeny.
Proof.
  intros Ho. rewrite apply_modify_plain by (unfold modify_migration_attrs; rewrite Ho; reflexivity).
  cbv zeta. rewrite (protected_attrs_user i e Ho), (sync_constrain_user i e _ Ho).
  unfold modify_ident_test, user_ok, touch_limit, scope_rw. rewrite Ho.
  destruct (i_scope i); try reflexivity.
  destruct (mod_protected e) eqn:Hp.
  - destruct (is_tombstone e); [reflexivity|].
    destruct (is_empty (protected_table (cur_classes e))); [reflexivity|].
    destruct (is_sync_object e); [destruct (single A_SyncParentUuid e)|]; reflexivity.
  - (* a tombstone is protected *)
    destruct (is_tombstone e) eqn:Ht; [rewrite (tombstone_mod_protected e Ht) in Hp; discriminate|].
    destruct (is_sync_object e); [destruct (single A_SyncParentUuid e)|]; reflexivity.
Qed.

Lemma limit_empty i A e : user_ok i e = true ->
  is_empty (touch_limit A e) = negb (mod_protected e || is_sync_object e).
Proof.
  unfold user_ok, touch_limit. intros H. apply andb_true_iff in H as [H _]. apply andb_true_iff in H as [_ H].
  destruct (mod_protected e); cbn [opt app negb orb] in *.
  - destruct (protected_table (cur_classes e)); [discriminate | reflexivity].
  - destruct (is_sync_object e); reflexivity.
Qed.

Lemma mem_narrow i A e l x : user_ok i e = true ->
  mem x (narrow (touch_limit A e) l) = mem x l && within_limit A e x.
Proof.
  intros Hok. unfold narrow, within_limit. rewrite (limit_empty i A e Hok), negb_involutive.
  destruct (mod_protected e || is_sync_object e); cbn [negb orb].
  - rewrite mem_inter. apply andb_comm.
  - rewrite andb_true_r. reflexivity.
Qed.

Lemma subset_limited i A e sel req : user_ok i e = true ->
  subset req (narrow (touch_limit A e) (flat_map sel (filter (scoped i e) (ac_modify A))))
  = forallb (fun a => granted sel i (ac_modify A) e a && within_limit A e a) req.
Proof.
  intros Hok. unfold subset. apply forallb_ext'. intros x.
  rewrite (mem_narrow i A e _ x Hok), mem_allow_granted. reflexivity.
Qed.

Lemma subset_classes i A e sel req prot :
  subset req (diff (flat_map sel (filter (scoped i e) (ac_modify A))) prot)
  = forallb (fun c => granted sel i (ac_modify A) e c && negb (mem c prot)) req.
Proof.
  unfold subset. apply forallb_ext'. intros x. rewrite mem_diff, mem_allow_granted. reflexivity.
Qed.

Theorem modify_user_exact i A e ml : i_origin i = OUser ->
  modify_entry i A e ml = spec_modify_user i A e ml.
Proof.
  intros Ho. unfold modify_entry, spec_modify_user. rewrite (apply_modify_user i A e Ho).
  destruct (existsb is_purge_class ml); [rewrite andb_false_r; reflexivity|].
  destruct (existsb is_set_class ml && no_classes e); [rewrite !andb_false_r; reflexivity|].
  destruct (is_empty (adds ml) && is_empty (removes ml)); [rewrite !andb_false_r; reflexivity|].
  cbn [negb]. rewrite !andb_true_r. fold (user_ok i e).
  destruct (user_ok i e) eqn:Hok; [|reflexivity].
  unfold allow_within. rewrite !(subset_limited i A e _ _ Hok), !subset_classes. reflexivity.
Qed.

Lemma spec_modify_parts i A e ml : spec_modify_user i A e ml = true ->
  is_empty (adds ml) && is_empty (removes ml) = false
  /\ existsb is_purge_class ml = false /\ is_tombstone e = false
  /\ forallb (fun a => granted a_s1 i (ac_modify A) e a && within_limit A e a) (adds ml) = true
  /\ forallb (fun a => granted a_s2 i (ac_modify A) e a && within_limit A e a) (removes ml) = true
  /\ forallb (fun c => granted a_c1 i (ac_modify A) e c && negb (mem c PROTECTED_MOD_PRES_ENTRY_CLASSES)) (cls_adds e ml) = true
  /\ forallb (fun c => granted a_c2 i (ac_modify A) e c && negb (mem c PROTECTED_MOD_REM_ENTRY_CLASSES)) (cls_rems e ml) = true.
Proof.
  unfold spec_modify_user. intros H.
  repeat (apply andb_true_iff in H as [H ?]).
  repeat split; try assumption; apply negb_true_iff; assumption.
Qed.

Lemma granted_all sel Q i l e req x :
  forallb (fun a => granted sel i l e a && Q a) req = true -> In x req ->
  exists p, In p l /\ acp_matches i e p = true /\ In x (sel p).
Proof. intros H Hx. apply granted_exists. exact (proj1 (forallb_and_In _ _ _ x H Hx)). Qed.

(* a successful modify has something to add or remove, so some profile matches *)
Lemma modify_needs_match i A e ml : i_origin i = OUser -> modify_entry i A e ml = true ->
  exists p, In p (ac_modify A) /\ acp_matches i e p = true.
Proof.
  intros Ho H. rewrite (modify_user_exact i A e ml Ho) in H.
  apply spec_modify_parts in H as (Hne & _ & _ & Ha & Hr & _ & _).
  destruct (adds ml) as [|x xs].
  - destruct (removes ml) as [|x xs]; [discriminate Hne|].
    destruct (granted_all _ _ _ _ _ _ x Hr (or_introl eq_refl)) as (p & Hp & Hm & _). exists p. split; assumption.
  - destruct (granted_all _ _ _ _ _ _ x Ha (or_introl eq_refl)) as (p & Hp & Hm & _). exists p. split; assumption.
Qed.

Lemma create_acp_allows_spec i e cl a :
  create_acp_allows i e cl a =
  (match a_recv a with RGroup _ => acp_matches i e a | _ => false end
   && subset (attr_keys e) (a_s1 a) && subset cl (a_c1 a)).
Proof.
  unfold create_acp_allows, related, target_ok, acp_matches.
  destruct (a_recv a), (a_target a); cbn [andb]; rewrite ?andb_true_r, ?andb_false_r; reflexivity.
Qed.

Theorem create_user_exact i A e : i_origin i = OUser ->
  create_entry i A e = spec_create_user i A e.
Proof.
  intros Ho. unfold create_entry, spec_create_user.
  destruct (classes_of e) as [cl|] eqn:Ecl; [|rewrite andb_false_r; reflexivity].
  unfold apply_create_access, create_protected_filter_entry, create_message_queue,
    create_migration_filter_entry, create_filter_entry, scope_rw.
  rewrite Ho, Ecl, (existsb_ext' _ _ (ac_create A) (create_acp_allows_spec i e cl)).
  destruct (match euuid e with Some u => u <=? UUID_ANONYMOUS | None => false end);
    [rewrite andb_false_r; reflexivity|].
  destruct (disjoint cl PROTECTED_ENTRY_CLASSES), (i_scope i); try reflexivity.
  (* without a granting profile nothing is allowed, and the entry has at least its class attribute *)
  destruct (existsb _ (ac_create A)); [reflexivity|].
  cbn [i_deny i_grant i_pres i_cls orb app]. unfold classes_of in Ecl. rewrite (subset_nil_keys _ _ _ Ecl). reflexivity.
Qed.

Theorem delete_user_exact i A e : i_origin i = OUser ->
  delete_entry i A e = spec_delete_user i A e.
Proof.
  intros Ho. unfold delete_entry, spec_delete_user, delete_protected_filter_entry, delete_filter_entry, scope_rw.
  rewrite Ho, (existsb_ext' _ _ (ac_delete A) (scoped_matches i e)), (N.leb_antisym UUID_ANONYMOUS (cuuid e)).
  destruct (UUID_ANONYMOUS <? cuuid e); [|rewrite andb_false_r; reflexivity].
  destruct (classes_of e) as [cl|]; [destruct (disjoint cl PROTECTED_ENTRY_CLASSES)|].
  2: rewrite andb_false_r; reflexivity.
  all: destruct (i_scope i); try reflexivity; destruct (existsb (acp_matches i e) (ac_delete A)); reflexivity.
Qed.

Lemma delete_needs_match i A e : i_origin i = OUser -> delete_entry i A e = true ->
  exists p, In p (ac_delete A) /\ acp_matches i e p = true.
Proof.
  intros Ho H. rewrite (delete_user_exact i A e Ho) in H. unfold spec_delete_user in H.
  apply andb_true_iff in H as [_ H]. apply existsb_exists. exact H.
Qed.

Theorem user_exact i A o e : i_origin i = OUser -> entry_decision i A o e = spec_user i A o e.
Proof.
  intros Ho. destruct o; cbn [entry_decision spec_user].
  - apply modify_user_exact; exact Ho.
  - apply create_user_exact; exact Ho.
  - apply delete_user_exact; exact Ho.
  - apply modify_user_exact; exact Ho.
Qed.
Theorem decide_user_exact i A es o : i_origin i = OUser ->
  decide i A es o = forallb (spec_user i A o) es.
Proof. intros Ho. unfold decide. apply forallb_ext'. intros e. apply user_exact. exact Ho. Qed.

Lemma decide_user_spec i A es o e :
  i_origin i = OUser -> decide i A es o = true -> In e es -> spec_user i A o e = true.
Proof. intros Ho. rewrite (decide_user_exact i A es o Ho), forallb_forall. intros H He. exact (H e He). Qed.
Lemma decide_none i A es o : (forall e, entry_decision i A o e = false) -> decide i A es o = is_empty es.
Proof. intros H. destruct es as [|e es]; [reflexivity|]. unfold decide. cbn [forallb]. rewrite H. reflexivity. Qed.

Lemma spec_user_ro i A o e : scope_rw i = false -> spec_user i A o e = false.
Proof.
  intros H. destruct o; cbn [spec_user]; unfold spec_modify_user, spec_create_user, spec_delete_user;
    rewrite H; reflexivity.
Qed.

Theorem synch_entry_denied i A o e : i_origin i = OSynch -> entry_decision i A o e = false.
Proof.
  intros Ho.
  assert (Hm : forall ml, modify_entry i A e ml = false).
  { intros ml. unfold modify_entry.
    rewrite apply_modify_plain by (unfold modify_migration_attrs; rewrite Ho; reflexivity).
    unfold modify_ident_test. rewrite Ho.
    destruct (existsb is_purge_class ml), (existsb is_set_class ml && no_classes e),
      (is_empty (adds ml) && is_empty (removes ml)); reflexivity. }
  destruct o; cbn [entry_decision].
  - apply Hm.
  - unfold create_entry. destruct (classes_of e); [|reflexivity].
    unfold apply_create_access, create_protected_filter_entry. rewrite Ho. reflexivity.
  - unfold delete_entry, delete_protected_filter_entry. rewrite Ho. reflexivity.
  - apply Hm.
Qed.

Theorem protection_spec_false i A o e :
  protection_violation o e = true -> spec_user i A o e = false.
Proof.
  intros H. apply not_true_iff_false. intros E. revert H.
  destruct o; cbn [protection_violation spec_user] in *.
  - apply spec_modify_parts in E as (_ & Hp & Ht & _ & _ & Hc & Hd).
    rewrite Hp, Ht, (forallb_neg_intersects _ _ _ Hc), (forallb_neg_intersects _ _ _ Hd). discriminate.
  - unfold spec_create_user in E. unfold cur_classes.
    apply andb_true_iff in E as [E Hcl]. apply andb_true_iff in E as [_ Hu]. apply negb_true_iff in Hu. rewrite Hu.
    destruct (classes_of e) as [cl|]; [|discriminate].
    apply andb_true_iff in Hcl as [Hcl _]. apply negb_true_iff in Hcl. rewrite Hcl. discriminate.
  - unfold spec_delete_user in E. unfold cur_classes. rewrite (N.leb_antisym UUID_ANONYMOUS (cuuid e)).
    apply andb_true_iff in E as [E _]. apply andb_true_iff in E as [E Hcl]. apply andb_true_iff in E as [_ Hu].
    rewrite Hu. destruct (classes_of e) as [cl|]; [|discriminate].
    apply negb_true_iff in Hcl. rewrite Hcl. discriminate.
  - apply spec_modify_parts in E as (_ & _ & Ht & _). rewrite Ht. discriminate.
Qed.

Theorem agree_implies_pcheck c : agree c = true -> pcheck c = true.
Proof.
  destruct c as [i A es o impl | i A es o res unchanged]; cbn [agree pcheck].
  - intros H. apply eqb_prop in H. subst impl.
    destruct (i_origin i) eqn:Ho; try reflexivity.
    + rewrite (decide_user_exact i A es o Ho). apply eqb_reflx.
    + rewrite (decide_none i A es o (fun e => synch_entry_denied i A o e Ho)). destruct (is_empty es); reflexivity.
  - intros H.
    destruct (sres_ok res || negb unchanged) eqn:Hs; [|reflexivity].
    destruct (decide i A es o) eqn:Hd.
    2:{ apply andb_true_iff in H as [H1 H2]. subst unchanged. destruct res; discriminate. }
    destruct (i_origin i) eqn:Ho; try reflexivity.
    + rewrite <- (decide_user_exact i A es o Ho). exact Hd.
    + rewrite <- (decide_none i A es o (fun e => synch_entry_denied i A o e Ho)). exact Hd.
Qed.
