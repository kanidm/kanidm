(* Concrete values meeting the hypotheses of the implication theorems of Props.v (non-vacuity). *)
From Coq Require Import List NArith Bool.
Import ListNotations.
Require Import KV.C24.Model.
Open Scope N_scope.

Definition G1 : N := UUID_ANONYMOUS + 1001.
Definition G2 : N := UUID_ANONYMOUS + 1002.
Definition U1 : N := UUID_ANONYMOUS + 2001.
Definition alice : ident := mkI OUser ScRW U1 [G1].
Definition alice_ro : ident := mkI OUser ScRO U1 [G1].
Definition agent : ident := mkI OSynch ScRW (UUID_ANONYMOUS + 3000) [].
(* a person managed by alice, a built-in system group, a recycled person, a tombstone *)
Definition bob : entry :=
  [(A_Class, [K_Object; K_Account; K_Person]); (A_Uuid, [UUID_ANONYMOUS + 4001]); (A_Name, [1]);
   (A_EntryManagedBy, [U1])].
Definition sysgroup : entry :=
  [(A_Class, [K_Object; K_System; K_Group]); (A_Uuid, [1]); (A_Name, [2])].
Definition binned : entry :=
  [(A_Class, [K_Object; K_Person; K_Recycled]); (A_Uuid, [UUID_ANONYMOUS + 4002]); (A_Name, [3])].
Definition tomb : entry := [(A_Class, [K_Object; K_Tombstone]); (A_Uuid, [UUID_ANONYMOUS + 4003])].
Definition all : option tf := Some (TPres A_Class).
(* grants split over a group-received and an entry-manager profile *)
Definition P_attrs : acp := mkA (RGroup [G1; G2]) (Some (TAnd [TEq A_Class K_Person; TNot (TEq A_Class K_Recycled)]))
                               [A_Class; A_DisplayName] [A_Description] [] [].
Definition P_cls : acp := mkA RManager all [] [A_Class] [K_PosixAccount] [K_Account].
(* a profile granting everything, including protected classes *)
Definition P_every : acp :=
  mkA (RGroup [G1]) all [A_Class; A_Name; A_Member; A_Description] [A_Class; A_Name; A_Member; A_Description]
      [K_System; K_Recycled; K_Tombstone; K_Person; K_Object] [K_System; K_Recycled; K_Tombstone; K_Person].
Definition PS : acps := mkAcps [P_attrs; P_cls] [] [] [].
Definition PE : acps := mkAcps [P_every] [P_every] [P_every] [].
Definition ml1 : list md :=
  [MPresent A_DisplayName 0; MPurged A_Description; MSet A_Class [K_Object; K_Person; K_PosixAccount]].

(* hypotheses of C24_modify_needs_grants: an allowed modify whose grants come from two profiles,
   with a Set(class) adding posixaccount and removing account *)
Example C24_witness_modify_allowed :
  i_origin alice = OUser /\ decide alice PS [bob] (OpModify ml1) = true /\
  cls_adds bob ml1 = [K_PosixAccount] /\ cls_rems bob ml1 = [K_Account].
Proof. vm_compute. repeat split; reflexivity. Qed.
(* one missing grant (removal of description) flips the decision *)
Example C24_witness_modify_ungranted :
  decide alice (mkAcps [mkA (RGroup [G1]) all [A_Class; A_DisplayName] [] [] []; P_cls] [] [] [])
         [bob] (OpModify ml1) = false.
Proof. vm_compute. reflexivity. Qed.
(* C24_readonly_never: the same request under read-only scope; C24_sync_never: a delete by `agent`,
   whose origin is OSynch, under the profile that grants everything *)
Example C24_witness_readonly :
  i_scope alice_ro <> ScRW /\ [bob] <> [] /\ decide alice_ro PS [bob] (OpModify ml1) = false
  /\ decide agent PE [bob] OpDelete = false.
Proof. vm_compute. repeat split; try discriminate; reflexivity. Qed.

(* C24_create_needs_grant: allowed by one profile; denied when the same grants are split *)
Definition newp : entry := [(A_Class, [K_Object; K_Person]); (A_Name, [4]); (A_Uuid, [UUID_ANONYMOUS + 4004])].
Example C24_witness_create :
  decide alice (mkAcps [] [mkA (RGroup [G1]) all [A_Class; A_Name; A_Uuid] [] [K_Object; K_Person] []] [] [])
         [newp] OpCreate = true /\
  decide alice (mkAcps [] [mkA (RGroup [G1]) all [A_Class; A_Name] [] [K_Object; K_Person] [];
                           mkA (RGroup [G1]) all [A_Uuid] [] [K_Object; K_Person] []] [] [])
         [newp] OpCreate = false.
Proof. vm_compute. split; reflexivity. Qed.

(* C24_delete_needs_grant, C24_revive_needs_grants: allowed instances (the revive removes the
   protected class recycled from a recycled, hence protected, entry) *)
Example C24_witness_delete_revive :
  decide alice (mkAcps [] [] [mkA RManager all [] [] [] []] []) [bob] OpDelete = true /\
  mod_protected binned = true /\ decide alice PE [binned] OpRevive = true.
Proof. vm_compute. repeat split; reflexivity. Qed.

(* C24_protected: with a profile that grants everything, each protection still denies *)
Example C24_witness_protected :
  protection_violation (OpModify [MPresent A_Class K_System]) bob = true /\
  decide alice PE [bob] (OpModify [MPresent A_Class K_System]) = false /\
  decide alice PE [bob] (OpModify [MPresent A_Class K_Person]) = true /\
  protection_violation (OpModify [MRemoved A_Class K_System]) sysgroup = true /\
  decide alice PE [sysgroup] (OpModify [MRemoved A_Class K_System]) = false /\
  protection_violation (OpModify [MPurged A_Class]) bob = true /\
  decide alice PE [bob] (OpModify [MPurged A_Class]) = false /\
  protection_violation (OpModify [MPresent A_Description 0]) tomb = true /\
  decide alice PE [tomb] (OpModify [MPresent A_Description 0]) = false /\
  decide alice PE [tomb] OpRevive = false /\
  protection_violation OpDelete sysgroup = true /\ decide alice PE [sysgroup] OpDelete = false /\
  decide alice PE [bob] OpDelete = true /\
  protection_violation OpCreate binned = true /\ decide alice PE [binned] OpCreate = false.
Proof. vm_compute. repeat split; reflexivity. Qed.

(* C24_modify_within_limits: on the built-in system group only `member` is open *)
Example C24_witness_limits :
  mod_protected sysgroup = true /\ touch_limit PE sysgroup = [A_Member] /\
  decide alice PE [sysgroup] (OpModify [MPresent A_Member U1]) = true /\
  decide alice PE [sysgroup] (OpModify [MPresent A_Description 0]) = false.
Proof. vm_compute. repeat split; reflexivity. Qed.

(* C24_agree_implies_property: both case forms with agree = true, and that pcheck and agree can fail *)
Example C24_witness_agree :
  agree (CFn alice PS [bob] (OpModify ml1) true) = true /\
  agree (CSrv alice PS [bob] (OpModify ml1) SOk false) = true /\
  pcheck (CSrv alice_ro PS [bob] (OpModify ml1) SOther false) = false /\
  agree (CSrv alice_ro PS [bob] (OpModify ml1) SDenied true) = true /\
  agree (CFn alice_ro PS [bob] (OpModify ml1) true) = false.
Proof. vm_compute. repeat split; reflexivity. Qed.
