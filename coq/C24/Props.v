(* Identities, profile sets, entries and modify lists are arbitrary (no size bound anywhere);
   `decide i A es o` is the transcription of the access decision of the four write operations
   (modify / create / delete / recycle-bin revive) for identity i, profiles A and targets es. *)
From Coq Require Import List NArith Bool.
Import ListNotations.
Require Import KV.C24.Model KV.C24.Proofs.
Open Scope N_scope.

(* A USER's write is decided exactly by the declarative specification: read-write scope, every
   added / removed attribute and class granted by a profile matching the user and the entry
   (create: one profile grants everything), within the protection rules. Both directions. *)
Theorem C24_user_decision_exact : forall i A es o,
  i_origin i = OUser -> decide i A es o = forallb (spec_user i A o) es.
Proof. exact decide_user_exact. Qed.

(* Modify succeeds ONLY IF every attribute it adds or removes and every class it adds or removes
   (for Set(class, ..): the difference with the entry's classes) is granted, for every target
   entry, by a modify profile matching that user and that entry. *)
Theorem C24_modify_needs_grants : forall i A es ml e,
  i_origin i = OUser -> decide i A es (OpModify ml) = true -> In e es ->
  (forall a, In a (adds ml) ->
     exists p, In p (ac_modify A) /\ acp_matches i e p = true /\ In a (a_s1 p)) /\
  (forall a, In a (removes ml) ->
     exists p, In p (ac_modify A) /\ acp_matches i e p = true /\ In a (a_s2 p)) /\
  (forall c, In c (cls_adds e ml) ->
     exists p, In p (ac_modify A) /\ acp_matches i e p = true /\ In c (a_c1 p)) /\
  (forall c, In c (cls_rems e ml) ->
     exists p, In p (ac_modify A) /\ acp_matches i e p = true /\ In c (a_c2 p)).
Proof.
  intros i A es ml e Ho Hd He. apply (decide_user_spec _ _ _ _ e Ho) in Hd; [|exact He].
  apply spec_modify_parts in Hd as (_ & _ & _ & H1 & H2 & H3 & H4).
  repeat split; intros x.
  - exact (granted_all _ _ _ _ _ _ x H1).
  - exact (granted_all _ _ _ _ _ _ x H2).
  - exact (granted_all _ _ _ _ _ _ x H3).
  - exact (granted_all _ _ _ _ _ _ x H4).
Qed.

(* On a protected entry (built-in uuid range or a protected class) and on a synchronised entry a
   user can touch only the attributes the protection table / sync agreement leaves open. *)
Theorem C24_modify_within_limits : forall i A es ml e a,
  i_origin i = OUser -> decide i A es (OpModify ml) = true -> In e es ->
  mod_protected e = true \/ is_sync_object e = true ->
  In a (adds ml) \/ In a (removes ml) -> In a (touch_limit A e).
Proof.
  intros i A es ml e a Ho Hd He Hp Ha. apply (decide_user_spec _ _ _ _ e Ho) in Hd; [|exact He].
  apply spec_modify_parts in Hd as (_ & _ & _ & H1 & H2 & _ & _).
  assert (Hw : within_limit A e a = true).
  { destruct Ha as [Ha|Ha]; [exact (proj2 (forallb_and_In _ _ _ a H1 Ha)) | exact (proj2 (forallb_and_In _ _ _ a H2 Ha))]. }
  unfold within_limit in Hw. apply mem_In.
  destruct Hp as [Hp|Hp]; rewrite Hp, ?orb_true_r in Hw; exact Hw.
Qed.

(* Create succeeds only if ONE group-received create profile matching the user and the new entry
   grants all of its attributes and all of its classes. *)
Theorem C24_create_needs_grant : forall i A es e,
  i_origin i = OUser -> decide i A es OpCreate = true -> In e es ->
  exists p cl, In p (ac_create A) /\ acp_matches i e p = true /\ classes_of e = Some cl /\
    (forall a, In a (attr_keys e) -> In a (a_s1 p)) /\ (forall c, In c cl -> In c (a_c1 p)).
Proof.
  intros i A es e Ho Hd He. apply (decide_user_spec _ _ _ _ e Ho) in Hd; [|exact He].
  unfold spec_user, spec_create_user in Hd. apply andb_true_iff in Hd as [_ Hd].
  destruct (classes_of e) as [cl|]; [|discriminate].
  apply andb_true_iff in Hd as [_ Hd]. apply existsb_exists in Hd as [p [Hp H]].
  apply andb_true_iff in H as [H H3]. apply andb_true_iff in H as [H1 H2].
  exists p, cl. repeat split; try assumption.
  - destruct (a_recv p); try discriminate. exact H1.
  - apply subset_In. exact H2.
  - apply subset_In. exact H3.
Qed.

(* Delete succeeds only if a delete profile matches the user and the entry. *)
Theorem C24_delete_needs_grant : forall i A es e,
  i_origin i = OUser -> decide i A es OpDelete = true -> In e es ->
  exists p, In p (ac_delete A) /\ acp_matches i e p = true.
Proof.
  intros i A es e Ho Hd He. apply (delete_needs_match i A e Ho).
  exact (proj1 (forallb_forall _ es) Hd e He).
Qed.

(* Revive succeeds only if matching modify profiles grant removal of attribute class and
   removal of class recycled. *)
Theorem C24_revive_needs_grants : forall i A es e,
  i_origin i = OUser -> decide i A es OpRevive = true -> In e es ->
  (exists p, In p (ac_modify A) /\ acp_matches i e p = true /\ In A_Class (a_s2 p)) /\
  (exists p, In p (ac_modify A) /\ acp_matches i e p = true /\ In K_Recycled (a_c2 p)).
Proof.
  intros i A es e Ho Hd He. apply (decide_user_spec _ _ _ _ e Ho) in Hd; [|exact He].
  apply spec_modify_parts in Hd as (_ & _ & _ & _ & H2 & _ & H4).
  split.
  - exact (granted_all _ _ _ _ _ _ A_Class H2 (or_introl eq_refl)).
  - exact (granted_all _ _ _ _ _ _ K_Recycled H4 (or_introl eq_refl)).
Qed.

(* Read-only (and synchronise-scope) user identities can never create, modify, delete or revive
   (on a non-empty target list: over no targets every operation is vacuously allowed). *)
Theorem C24_readonly_never : forall i A es o,
  i_origin i = OUser -> i_scope i <> ScRW -> es <> [] -> decide i A es o = false.
Proof.
  intros i A es o Ho Hs Hne. rewrite decide_none; [destruct es; [congruence | reflexivity]|].
  intros e. rewrite (user_exact i A o e Ho). apply spec_user_ro.
  unfold scope_rw. destruct (i_scope i); congruence.
Qed.

(* Synchronisation identities cannot use these operations at all, on a non-empty target list. *)
Theorem C24_sync_never : forall i A es o,
  i_origin i = OSynch -> es <> [] -> decide i A es o = false.
Proof.
  intros i A es o Ho Hne. rewrite decide_none; [destruct es; [congruence | reflexivity]|].
  intros e. apply synch_entry_denied. exact Ho.
Qed.

(* Regardless of grants (A is arbitrary): no user can add a protected class, remove one (recycled
   is not among the classes protected against removal), modify or revive a tombstone, purge
   attribute class, or create / delete protected or built-in entries. *)
Theorem C24_protected : forall i A es o e,
  i_origin i = OUser -> In e es -> protection_violation o e = true -> decide i A es o = false.
Proof.
  intros i A es o e Ho He Hv. apply not_true_iff_false. intros Hd.
  apply (decide_user_spec _ _ _ _ e Ho) in Hd; [|exact He].
  rewrite (protection_spec_false i A o e Hv) in Hd. discriminate.
Qed.

(* Bridge to the implementation: on every recorded case where the model and kanidm agree, the
   implementation's own answer satisfies the property's executable predicate. *)
Theorem C24_agree_implies_property : forall c, agree c = true -> pcheck c = true.
Proof. exact agree_implies_pcheck. Qed.
