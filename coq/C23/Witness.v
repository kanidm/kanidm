(* KV.C23.Witness — non-vacuity: concrete non-trivial values meet the hypotheses of the
   implication theorems, and the model really withholds things. *)
From Coq Require Import List NArith Bool.
Import ListNotations.
Require Import KV.Base.Filter KV.C23.Model KV.C23.Proofs.
Open Scope N_scope.

(* leaves: class=person(7), class=group(9), class=recycled(24), name=alice (value 100), displayname=x (101) *)
Definition L_person : leaf := (KEq, A_CLASS, 7).
Definition L_group : leaf := (KEq, A_CLASS, 9).
Definition L_rec : leaf := (KEq, A_CLASS, C_RECYCLED).
Definition L_alice : leaf := (KEq, A_NAME, 100).
Definition L_dn : leaf := (KEq, A_DISPLAYNAME, 101).
(* alice (uuid 1): live person; bob (uuid 2): recycled person; grp (uuid 3): group managed by alice *)
Definition alice := mkE 1 [0; 6; 7] [0; 1; 2; 3] [] [] None [L_person; L_alice; L_dn].
Definition bob := mkE 2 [0; 6; 7; 24] [0; 1; 2; 3] [] [] None [L_person; L_rec; L_dn].
Definition grp := mkE 3 [0; 9] [0; 1; 2; 50] [1] [] None [L_group].
Definition world := [alice; bob; grp].
(* profile 1: members of group 10 may read class and name of persons;
   profile 2: the entry manager may read class, name and attribute 50 of groups;
   profile 3: no receiver (does nothing) *)
Definition acps :=
  [mkA (RGroup [10]) (Some (FLeaf KEq A_CLASS 7 None)) [A_CLASS; A_NAME];
   mkA RMgr (Some (FLeaf KEq A_CLASS 9 None)) [A_CLASS; A_NAME; 50];
   mkA RNone (Some (FLeaf KEq A_CLASS 7 None)) [A_DISPLAYNAME]].
Definition u_alice := mkU 1 (Some [10]) [0; 6; 7] None.
Definition i_alice := mkI (OUser u_alice) ScRO.
Definition f_person := FLeaf KEq A_CLASS 7 None.
Definition f_dn := FLeaf KEq A_DISPLAYNAME 101 None.

(* hypotheses of every `reader` theorem and of the wf premises *)
Example C23_witness_reader : reader i_alice = Some u_alice /\ forallb wf_entry world = true.
Proof. vm_compute. split; reflexivity. Qed.

(* C23_attrs_sound / _complete / _entry_needs_filter_attrs: a search that releases a strict
   subset of an entry's attributes, hides the recycled entry, and shows nothing for a filter
   on an unreadable attribute although entries match it *)
Example C23_witness_search_ext :
  search_ext i_alice acps MHidden f_person None world = Some [(1, [A_CLASS; A_NAME])]
  /\ search_ext i_alice acps MHidden f_dn None world = Some []
  /\ be_search (ignore_hidden f_dn) world = [alice]
  /\ search_ext i_alice acps MRecycle f_person None world = Some [(2, [A_CLASS; A_NAME])]
  /\ search_ext i_alice acps MHidden (FLeaf KEq A_CLASS 9 None) (Some [A_NAME; 50; A_UUID]) world
     = Some [(3, [A_NAME; 50])].
Proof. vm_compute. repeat split; reflexivity. Qed.
Example C23_witness_may_read :
  may_read u_alice acps alice A_NAME = true /\ may_read u_alice acps alice A_DISPLAYNAME = false
  /\ may_read u_alice acps grp 50 = true /\ may_read u_alice acps bob A_NAME = true.
Proof. vm_compute. repeat split; reflexivity. Qed.
(* the first conjunct is the hypothesis of C23_exists_sound, the third the `fattrs .. <> []` of
   C23_search_complete; the second: `exists` is false on the unreadable attribute *)
Example C23_witness_exists :
  exists_ i_alice acps MHidden f_person world = true /\ exists_ i_alice acps MHidden f_dn world = false
  /\ fattrs (snd (wrap MHidden f_person)) <> [].
Proof. vm_compute. repeat split; try reflexivity. discriminate. Qed.
(* `reader .. = None` of C23_denied_callers for a synchronise-scope session and a sync identity (the
   latter is also a non-user for C23_external_interface_users_only); C23_internal_roles: System is
   shown both persons (the recycled one too, MRaw), MessageQueue nothing; the AccountRequest search
   is empty because its presence leaf is true of no entry of `world` *)
Example C23_witness_callers :
  reader (mkI (OUser u_alice) ScSync) = None /\ reader (mkI OSynch ScSync) = None
  /\ search (mkI (OInternal RSystem) ScRW) acps MRaw f_person world = [alice; bob]
  /\ search (mkI (OInternal RAccountRequest) ScRO) acps MRaw (FLeaf KPres A_CLASS 0 None) world = []
  /\ search (mkI (OInternal RMessageQueue) ScRW) acps MRaw f_person world = [].
Proof. vm_compute. repeat split; reflexivity. Qed.
(* built-in rule: an OAuth2 client is visible to members of a group in its scope map, not to anonymous *)
Definition o2 := mkE 4 [0; 3; 6] [0; 1; 2; 3; 4; 60] [] [10] None [(KEq, A_CLASS, C_OAUTH2_RS)].
Example C23_witness_oauth2 :
  search_ext i_alice [] MHidden (leaf_class C_OAUTH2_RS) None [o2] = Some [(4, [0; 1; 2; 3; 4])]
  /\ search_ext (mkI (OUser (mkU UUID_ANON (Some [10]) [0; 6] None)) ScRO) [] MHidden (leaf_class C_OAUTH2_RS) None [o2]
     = Some [].
Proof. vm_compute. split; reflexivity. Qed.
(* hypotheses of C23_ldap_search_sound (a result entry) and of both halves of
   C23_ldap_compare_sound (answers 0 and 1); all three compare answers occur *)
Example C23_witness_ldap :
  ldap_search i_alice acps f_person None (Some [A_NAME]) world = Some [(1, [A_NAME])]
  /\ ldap_compare i_alice acps (FLeaf KEq A_NAME 100 None) f_person world = 0
  /\ ldap_compare i_alice acps (FLeaf KEq A_NAME 100 None) (FLeaf KEq A_CLASS 9 None) world = 1
  (* alice HAS this display name, but may not read the attribute: the answer is compareFalse *)
  /\ ldap_compare i_alice acps (FLeaf KEq A_NAME 100 None) f_dn world = 1
  /\ ldap_compare i_alice acps (FLeaf KEq A_NAME 200 None) f_person world = 2.
Proof. vm_compute. repeat split; reflexivity. Qed.
(* C23_agree_implies_property: a case with all five query kinds on which agree holds, and a
   forged answer (alice's display name released) that pcheck rejects *)
Definition good_case := CWorld world acps i_alice
  [mkQ (QSearch MHidden) f_person (OIds [1]);
   mkQ (QSearchExt MHidden None) f_person (OExt [(1, [A_CLASS; A_NAME])]);
   mkQ (QExists MHidden false) f_dn (OBool false);
   mkQ (QLdapSearch None (Some [A_NAME])) f_person (OExt [(1, [A_NAME])]);
   mkQ (QLdapCompare f_person) (FLeaf KEq A_NAME 100 None) (OCode 0)].
Definition forged_case := CWorld world acps i_alice
  [mkQ (QSearchExt MHidden None) f_person (OExt [(1, [A_CLASS; A_NAME; A_DISPLAYNAME])])].
Definition forged_hidden := CWorld world acps i_alice [mkQ (QSearch MHidden) f_person (OIds [1; 2])].
Example C23_witness_agree :
  agree good_case = true /\ pcheck good_case = true
  /\ pcheck forged_case = false /\ pcheck forged_hidden = false.
Proof. vm_compute. repeat split; reflexivity. Qed.
