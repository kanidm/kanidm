(* The search access pipeline refines the declarative grant rule. Every search is a filter by `shown`;
   for a reader `shown` is `spec_reveals` (stated from may_read only), for the callers that may not
   search it is false, for an internal role it implies role_may_see. *)
From Coq Require Import List NArith Bool.
Import ListNotations.
Require Import KV.Base.Filter KV.C23.Model.
Open Scope N_scope.

Lemma memN_In : forall a l, memN a l = true <-> In a l.
Proof.
  intros a l. unfold memN. rewrite existsb_exists. split.
  - intros [x [Hin He]]. apply N.eqb_eq in He. subst. exact Hin.
  - intros Hin. exists a. split; [exact Hin | apply N.eqb_refl].
Qed.
Lemma memN_false : forall a l, memN a l = false <-> ~ In a l.
Proof. intros a l. rewrite <- memN_In. symmetry. apply not_true_iff_false. Qed.
Lemma memN_app : forall a l1 l2, memN a (l1 ++ l2) = memN a l1 || memN a l2.
Proof. intros a l1 l2. apply existsb_app. Qed.
Lemma inter_nonempty_spec : forall a b, inter_nonempty a b = true <-> exists x, In x a /\ In x b.
Proof.
  intros a b. unfold inter_nonempty. rewrite existsb_exists.
  split; intros [x [Hx Hm]]; exists x; (split; [exact Hx | apply memN_In; exact Hm]).
Qed.
Lemma inter_nonempty_nil_r : forall a, inter_nonempty a [] = false.
Proof. induction a as [|x a IH]; [reflexivity | exact IH]. Qed.
Lemma subsetN_spec : forall a b, subsetN a b = true <-> forall x, In x a -> In x b.
Proof.
  intros a b. unfold subsetN. rewrite forallb_forall.
  split; intros H x Hx; apply memN_In, H, Hx.
Qed.
Lemma In_fmap : forall {A B} (f : A -> option B) l y,
  In y (fmap f l) <-> exists x, In x l /\ f x = Some y.
Proof.
  intros A B f l y. induction l as [|x l IH]; cbn [fmap].
  - split; [intros [] | intros [x [[] _]]].
  - destruct (f x) as [z|] eqn:E; cbn [In]; rewrite IH; split.
    + intros [-> | [x' [Hin Hf]]]; eauto.
    + intros [x' [[<- | Hin] Hf]]; [left; congruence | eauto].
    + intros [x' [Hin Hf]]; eauto.
    + intros [x' [[<- | Hin] Hf]]; [congruence | eauto].
Qed.
Lemma fmap_total : forall {A B} (f : A -> option B) (g : A -> B) l,
  (forall x, f x = Some (g x)) -> fmap f l = map g l.
Proof.
  intros A B f g l H. induction l as [|x l IH]; [reflexivity|]. cbn [fmap map]. rewrite H, IH. reflexivity.
Qed.
Lemma is_nil_false : forall {A} (l : list A), is_nil l = false <-> exists x, In x l.
Proof.
  intros A [|x l]; cbn; split; try discriminate.
  - intros [x []].
  - intros _. exists x. left. reflexivity.
  - reflexivity.
Qed.
Lemma filter_filter : forall {A} (p q : A -> bool) l,
  filter p (filter q l) = filter (fun x => q x && p x) l.
Proof.
  intros A p q l. induction l as [|x l IH]; [reflexivity|]. cbn [filter].
  destruct (q x); cbn [andb filter]; [destruct (p x); rewrite IH; reflexivity | exact IH].
Qed.
Lemma filter_false : forall {A} (l : list A), filter (fun _ => false) l = [].
Proof. induction l as [|x l IH]; [reflexivity | exact IH]. Qed.

Lemma listN_eqb_eq : forall a b, listN_eqb a b = true -> a = b.
Proof.
  induction a as [|x a IH]; intros [|y b]; cbn [listN_eqb]; try discriminate; [reflexivity|].
  intros H. apply andb_true_iff in H as [H1 H2]. apply N.eqb_eq in H1. subst. f_equal. apply IH. exact H2.
Qed.
Lemma listN_eqb_refl : forall l, listN_eqb l l = true.
Proof. induction l as [|x l IH]; [reflexivity|]. cbn [listN_eqb]. rewrite N.eqb_refl, IH. reflexivity. Qed.
Lemma ext_eqb_eq : forall a b, ext_eqb a b = true -> a = b.
Proof.
  induction a as [|[x l] a IH]; intros [|[y l'] b]; cbn [ext_eqb]; try discriminate; [reflexivity|].
  intros H. apply andb_true_iff in H as [H H3]. apply andb_true_iff in H as [H1 H2].
  apply N.eqb_eq in H1. apply listN_eqb_eq in H2. subst. f_equal. apply IH. exact H3.
Qed.
Lemma ext_eqb_refl : forall l, ext_eqb l l = true.
Proof.
  induction l as [|[x a] l IH]; [reflexivity|]. cbn [ext_eqb]. rewrite N.eqb_refl, listN_eqb_refl, IH. reflexivity.
Qed.
Lemma outcome_eqb_eq : forall a b, outcome_eqb a b = true -> a = b.
Proof.
  intros [|x|x|x|x] [|y|y|y|y]; cbn [outcome_eqb]; try discriminate; intros H; [reflexivity | f_equal..].
  - apply listN_eqb_eq, H.
  - apply ext_eqb_eq, H.
  - apply eqb_prop, H.
  - apply N.eqb_eq, H.
Qed.

Lemma reader_inv : forall i u, reader i = Some u -> i_origin i = OUser u /\ i_scope i <> ScSync.
Proof.
  intros [o s] u. unfold reader. cbn [i_origin i_scope].
  destruct o as [u'| |r]; destruct s; try discriminate; intros [= ->]; split; try reflexivity; discriminate.
Qed.
Lemma not_internal : forall i o, i_origin i = o -> match o with OInternal _ => False | _ => True end ->
  forall r, i_origin i <> OInternal r.
Proof. intros i o <- H r E. rewrite E in H. exact H. Qed.
(* sync identities and synchronise-scope sessions are refused by the profile module *)
Lemma denied_sdeny : forall i rel e, reader i = None -> (forall r, i_origin i <> OInternal r) ->
  search_filter_entry i rel e = SDeny.
Proof.
  intros [o s] rel e Hr Hn. unfold reader in Hr. unfold search_filter_entry. cbn [i_origin i_scope] in *.
  destruct o as [u| |r]; [destruct s; [discriminate..|] | | contradiction (Hn r)]; reflexivity.
Qed.

Lemma nonuser_modules_ignore : forall i e, (forall u, i_origin i <> OUser u) ->
  search_oauth2_filter_entry i e = SIgnore /\ search_applications_filter_entry i e = SIgnore
  /\ search_sync_account_filter_entry i e = SIgnore.
Proof.
  intros i e H. unfold search_oauth2_filter_entry, search_applications_filter_entry, search_sync_account_filter_entry.
  destruct (i_origin i) as [u| |r]; [exfalso; apply (H u); reflexivity | repeat split..].
Qed.
Lemma user_modules : forall i u e, i_origin i = OUser u ->
  search_oauth2_filter_entry i e = (if rule_oauth2 u e then SAllow O2_ATTRS else SIgnore)
  /\ search_applications_filter_entry i e = (if rule_application u e then SAllow APP_ATTRS else SIgnore)
  /\ search_sync_account_filter_entry i e = (if rule_sync u e then SAllow SYNC_ATTRS else SIgnore).
Proof.
  intros i u e Ho.
  unfold search_oauth2_filter_entry, search_applications_filter_entry, search_sync_account_filter_entry,
    rule_oauth2, rule_application, rule_sync.
  rewrite Ho. repeat split.
  - destruct (u_uuid u =? UUID_ANON); reflexivity.
  - destruct (u_uuid u =? UUID_ANON); reflexivity.
  - destruct (memN C_SYNC_OBJECT (u_class u) && memN C_ACCOUNT (u_class u)); [|reflexivity].
    destruct (memN C_SYNC_ACCOUNT (e_class e)); reflexivity.
Qed.

Definition builtin_allow (u : user) (e : entry) : list N :=
  (if rule_oauth2 u e then O2_ATTRS else []) ++ (if rule_application u e then APP_ATTRS else [])
  ++ (if rule_sync u e then SYNC_ATTRS else []).

Lemma builtin_allow_mem : forall u e a, memN a (builtin_allow u e) = builtin_read u e a.
Proof.
  intros u e a. unfold builtin_allow, builtin_read. rewrite !memN_app, orb_assoc.
  destruct (rule_oauth2 u e), (rule_application u e), (rule_sync u e); reflexivity.
Qed.

Lemma related_char : forall i acps req r,
  In r (related i acps req) <->
  exists p, In p acps /\ resolve_acp i p = Some r /\
            match req with Some q => inter_nonempty (r_attrs r) q = true | None => True end.
Proof.
  intros i acps req r. unfold related. destruct req as [q|]; rewrite ?filter_In, In_fmap.
  - split; [intros [[p [Hp Hr]] Hq] | intros [p [Hp [Hr Hq]]]]; eauto.
  - split; intros [p [Hp Hr]]; exists p; tauto.
Qed.

Lemma resolve_char : forall i u p e, i_origin i = OUser u ->
  match resolve_acp i p with
  | Some r => r_attrs r = a_attrs p /\ acp_applies u e r = receiver_ok u e p && target_ok e p
  | None => receiver_ok u e p && target_ok e p = false
  end.
Proof.
  intros i u p e Ho. unfold resolve_acp, ident_memberof, acp_applies, receiver_ok, target_ok. rewrite Ho.
  destruct (a_recv p) as [gs| |]; [destruct (mo_intersects (u_mo u) gs) | |]; destruct (a_target p) as [f|];
    cbn [r_attrs r_cond r_target]; try split; try reflexivity.
  - destruct (e_mgr e); [|reflexivity]. unfold mo_intersects.
    destruct (u_mo u); [rewrite inter_nonempty_nil_r|]; reflexivity.
  - apply andb_false_r.
Qed.

Definition user_allow (u : user) (rel : list racp) (e : entry) : list N :=
  flat_map (fun a => if acp_applies u e a then r_attrs a else []) rel.

(* Trimming the profiles by the requested attributes loses nothing that was requested: a profile
   that grants a requested attribute shares that attribute with the request. *)
Lemma user_allow_char : forall i u acps req e a, i_origin i = OUser u -> requested req a = true ->
  (In a (user_allow u (related i acps req) e) <-> exists p, In p acps /\ acp_grants u e a p = true).
Proof.
  intros i u acps req e a Ho Hq. unfold user_allow, acp_grants. rewrite in_flat_map. split.
  - intros [r [Hr Ha]]. apply related_char in Hr as [p [Hp [Hres _]]].
    pose proof (resolve_char i u p e Ho) as Hc. rewrite Hres in Hc. destruct Hc as [Hat Happ].
    rewrite Happ, Hat in Ha. exists p. split; [exact Hp|].
    destruct (receiver_ok u e p && target_ok e p); [apply memN_In; exact Ha | destruct Ha].
  - intros [p [Hp Hg]]. apply andb_true_iff in Hg as [Hg Hm].
    pose proof (resolve_char i u p e Ho) as Hc. destruct (resolve_acp i p) as [r|] eqn:Hres; [|congruence].
    destruct Hc as [Hat Happ]. exists r. split.
    + apply related_char. exists p. split; [exact Hp|]. split; [exact Hres|]. rewrite Hat.
      destruct req as [q|]; [|exact I]. apply inter_nonempty_spec. exists a. split; apply memN_In; assumption.
    + rewrite Happ, Hg, Hat. apply memN_In. exact Hm.
Qed.

Definition allow_set (i : ident) (u : user) (acps : list acp) (req : option (list N)) (e : entry) : list N :=
  user_allow u (related i acps req) e ++ builtin_allow u e.

Lemma apply_reader : forall i u acps req e, reader i = Some u ->
  apply_search_access i (related i acps req) e = FAllow (allow_set i u acps req e).
Proof.
  intros i u acps req e Hr. destruct (reader_inv i u Hr) as [Ho Hs].
  destruct (user_modules i u e Ho) as [E1 [E2 E3]].
  unfold apply_search_access, search_filter_entry, allow_set, builtin_allow. rewrite E1, E2, E3, Ho.
  destruct (i_scope i); [| | contradiction Hs; reflexivity];
    destruct (rule_oauth2 u e), (rule_application u e), (rule_sync u e); reflexivity.
Qed.

Lemma allow_set_mem : forall i u acps req e a, reader i = Some u -> requested req a = true ->
  memN a (allow_set i u acps req e) = may_read u acps e a.
Proof.
  intros i u acps req e a Hr Hq. destruct (reader_inv i u Hr) as [Ho _].
  unfold allow_set, may_read. rewrite memN_app, builtin_allow_mem. f_equal.
  apply eq_true_iff_eq. rewrite memN_In, (user_allow_char i u acps req e a Ho Hq), existsb_exists. reflexivity.
Qed.

Lemma entry_allowed_spec : forall i u acps q e, reader i = Some u ->
  entry_allowed i (related i acps None) q e = forallb (may_read u acps e) q.
Proof.
  intros i u acps q e Hr. unfold entry_allowed. rewrite (apply_reader i u acps None e Hr).
  assert (Hm : forall a, In a (allow_set i u acps None e) <-> may_read u acps e a = true).
  { intros a. rewrite <- memN_In, (allow_set_mem i u acps None e a Hr eq_refl). reflexivity. }
  apply eq_true_iff_eq. rewrite subsetN_spec, forallb_forall. split; intros H a Ha; apply Hm, H, Ha.
Qed.

Definition shown (i : ident) (acps : list acp) (m : mode) (f : filt) (e : entry) : bool :=
  negb (is_nil (fattrs (snd (wrap m f)))) && ematches e (fst (wrap m f))
  && entry_allowed i (related i acps None) (fattrs (snd (wrap m f))) e.

Lemma search_shown : forall i acps m f es, search i acps m f es = filter (shown i acps m f) es.
Proof.
  intros i acps m f es. unfold search, filter_entries, be_search, shown.
  destruct (fattrs (snd (wrap m f))) as [|a q]; cbn [is_nil negb andb].
  - symmetry. apply filter_false.
  - apply filter_filter.
Qed.
Lemma search_In : forall i acps m f es e,
  In e (search i acps m f es) <-> In e es /\ shown i acps m f e = true.
Proof. intros i acps m f es e. rewrite search_shown. apply filter_In. Qed.

(* what a reader is shown, stated from the grant rules only. [may_reveal] (Model, used by pcheck) asks
   for [mode_ok] where this asks for a non-empty attribute set; on coherent entries this one is the
   stronger ([reveal_of_spec]). *)
Definition spec_reveals (u : user) (acps : list acp) (m : mode) (f : filt) (e : entry) : bool :=
  negb (is_nil (fattrs (snd (wrap m f))))
  && ematches e (fst (wrap m f))
  && forallb (may_read u acps e) (fattrs (snd (wrap m f))).
Definition spec_release (u : user) (acps : list acp) (req : option (list N)) (e : entry) : N * list N :=
  (e_id e, filter (fun a => requested req a && may_read u acps e a) (e_attrs e)).

Lemma search_spec : forall i u acps m f es, reader i = Some u ->
  search i acps m f es = filter (spec_reveals u acps m f) es.
Proof.
  intros i u acps m f es Hr. rewrite search_shown. apply filter_ext. intros e.
  unfold shown, spec_reveals. rewrite (entry_allowed_spec i u acps _ e Hr). reflexivity.
Qed.

Lemma search_denied : forall i acps m f es, reader i = None -> (forall r, i_origin i <> OInternal r) ->
  search i acps m f es = [].
Proof.
  intros i acps m f es Hr Hn. rewrite search_shown, (filter_ext _ (fun _ => false)); [apply filter_false|].
  intros e. unfold shown, entry_allowed, apply_search_access. rewrite (denied_sdeny i _ e Hr Hn). apply andb_false_r.
Qed.

Lemma shown_internal : forall i r acps m f e, i_origin i = OInternal r ->
  shown i acps m f e = true -> role_may_see r e = true.
Proof.
  intros i r acps m f e Ho H. apply andb_true_iff in H as [_ H].
  unfold entry_allowed, apply_search_access, search_filter_entry in H.
  rewrite Ho in H. destruct r; cbn [role_may_see].
  - reflexivity.
  - destruct (negb (is_nil (e_class e)) && forallb _ (e_class e)) eqn:E; [|discriminate].
    apply andb_true_iff in E. apply E.
  - destruct (memN C_ACCOUNT (e_class e)); [reflexivity | discriminate].
  - discriminate.
Qed.

Lemma wrap_match : forall m e f, wf_entry e = true ->
  ematches e (fst (wrap m f)) = mode_ok m e && ematches e f.
Proof.
  intros m e f Hwf. unfold wf_entry in Hwf. apply andb_true_iff in Hwf as [W1 W2].
  apply eqb_prop in W1. apply eqb_prop in W2.
  destruct m; cbn [wrap fst mode_ok]; unfold ematches, ignore_hidden, recycled, leaf_class, is_hidden;
    cbn [ematch forallb existsb].
  - rewrite W1, W2, orb_false_r, andb_true_r, orb_comm. reflexivity.
  - rewrite W1, andb_true_r. reflexivity.
  - reflexivity.
Qed.
Lemma search_mode_ok : forall i acps m f es e, wf_entry e = true ->
  In e (search i acps m f es) -> mode_ok m e = true.
Proof.
  intros i acps m f es e Hwf H. apply search_In in H as [_ H].
  apply andb_true_iff in H as [H _]. apply andb_true_iff in H as [_ H].
  rewrite (wrap_match m e f Hwf) in H. apply andb_true_iff in H. apply H.
Qed.

Lemma reduce_spec : forall i u acps req e, reader i = Some u ->
  reduce_entry i acps req e = Some (spec_release u acps req e).
Proof.
  intros i u acps req e Hr. unfold reduce_entry, spec_release. rewrite (apply_reader i u acps req e Hr).
  do 2 f_equal. apply filter_ext. intros a. destruct (requested req a) eqn:Eq; [|reflexivity].
  apply (allow_set_mem i u acps req e a Hr Eq).
Qed.

Lemma search_ext_spec : forall i u acps m f req es, reader i = Some u ->
  search_ext i acps m f req es
  = Some (map (spec_release u acps req) (filter (spec_reveals u acps m f) es)).
Proof.
  intros i u acps m f req es Hr. destruct (reader_inv i u Hr) as [Ho _]. unfold search_ext. rewrite Ho.
  rewrite (fmap_total _ _ _ (fun e => reduce_spec i u acps req e Hr)), (search_spec i u acps m f es Hr).
  reflexivity.
Qed.

Lemma exists_search : forall i acps m f es, (forall r, i_origin i <> OInternal r) ->
  exists_ i acps m f es = negb (is_nil (search i acps m f es)).
Proof.
  intros i acps m f es H. unfold exists_, search.
  destruct (i_origin i) as [u| |r]; [reflexivity | reflexivity | contradiction (H r); reflexivity].
Qed.

Lemma exists_spec : forall i u acps m f es, reader i = Some u ->
  exists_ i acps m f es = existsb (spec_reveals u acps m f) es.
Proof.
  intros i u acps m f es Hr. destruct (reader_inv i u Hr) as [Ho _].
  rewrite (exists_search i acps m f es (not_internal i _ Ho I)), (search_spec i u acps m f es Hr).
  apply eq_true_iff_eq. rewrite negb_true_iff, is_nil_false, existsb_exists.
  split; intros [e H]; exists e; apply filter_In; exact H.
Qed.

Lemma exists_denied : forall i acps m f es, reader i = None -> (forall r, i_origin i <> OInternal r) ->
  exists_ i acps m f es = false.
Proof.
  intros i acps m f es Hr Hn. rewrite (exists_search i acps m f es Hn), (search_denied i acps m f es Hr Hn).
  reflexivity.
Qed.
Lemma search_ext_denied : forall i u acps m f req es, i_origin i = OUser u -> reader i = None ->
  search_ext i acps m f req es = Some [].
Proof.
  intros i u acps m f req es Ho Hr. unfold search_ext.
  rewrite Ho, (search_denied i acps m f es Hr (not_internal i _ Ho I)). reflexivity.
Qed.

Lemma spec_reveals_iff : forall u acps m f e, spec_reveals u acps m f e = true <->
  fattrs (snd (wrap m f)) <> [] /\ ematches e (fst (wrap m f)) = true
  /\ forall a, In a (fattrs (snd (wrap m f))) -> may_read u acps e a = true.
Proof.
  intros u acps m f e. unfold spec_reveals. rewrite !andb_true_iff, forallb_forall, negb_true_iff.
  destruct (fattrs (snd (wrap m f))); cbn [is_nil]; intuition congruence.
Qed.

Lemma search_ext_elem : forall i u acps m f req es l id attrs,
  reader i = Some u -> search_ext i acps m f req es = Some l -> In (id, attrs) l ->
  exists e, In e es /\ e_id e = id /\ spec_reveals u acps m f e = true
            /\ attrs = filter (fun a => requested req a && may_read u acps e a) (e_attrs e).
Proof.
  intros i u acps m f req es l id attrs Hr Hs Hin.
  rewrite (search_ext_spec i u acps m f req es Hr) in Hs. injection Hs as <-.
  apply in_map_iff in Hin as [e [He Hin]]. unfold spec_release in He. injection He as <- <-.
  apply filter_In in Hin as [Hin Hs]. exists e. repeat split; assumption.
Qed.

Definition readable_match (u : user) (acps : list acp) (e : entry) (g : filt) : bool :=
  ematches e g && forallb (may_read u acps e) (fattrs g).

Lemma readable_match_iff : forall u acps e g, readable_match u acps e g = true <->
  ematches e g = true /\ forall a, In a (fattrs g) -> may_read u acps e a = true.
Proof. intros u acps e g. unfold readable_match. rewrite andb_true_iff, forallb_forall. reflexivity. Qed.

Lemma readable_match_and : forall u acps e l s,
  readable_match u acps e (FAnd l s) = forallb (readable_match u acps e) l.
Proof.
  intros u acps e l s. unfold readable_match, ematches. cbn [ematch fattrs].
  induction l as [|g l IH]; [reflexivity|]. cbn [forallb flat_map]. rewrite forallb_app, <- IH.
  destruct (ematch (sem e) g), (forallb (may_read u acps e) (fattrs g)), (forallb (ematch (sem e)) l); reflexivity.
Qed.

Lemma reveals_hidden : forall u acps g e, wf_entry e = true ->
  spec_reveals u acps MHidden g e
  = negb (is_nil (fattrs g)) && negb (is_hidden e) && readable_match u acps e g.
Proof.
  intros u acps g e Hwf. unfold spec_reveals, readable_match. rewrite (wrap_match MHidden e g Hwf).
  cbn [wrap snd mode_ok]. rewrite !andb_assoc. reflexivity.
Qed.

Lemma readable_ldap_filter : forall u acps e f ext,
  readable_match u acps e (ldap_search_filter f ext)
  = readable_match u acps e f
    && match ext with Some x => readable_match u acps e x | None => true end
    && readable_match u acps e ldap_excl.
Proof.
  intros u acps e f ext. unfold ldap_search_filter.
  destruct ext as [x|]; rewrite readable_match_and; cbn [forallb]; rewrite !andb_true_r, ?andb_assoc; reflexivity.
Qed.
Lemma readable_excl : forall u acps e,
  readable_match u acps e ldap_excl = ematches e ldap_excl && may_read u acps e A_CLASS.
Proof.
  intros u acps e. unfold readable_match. f_equal. cbn. destruct (may_read u acps e A_CLASS); reflexivity.
Qed.

Lemma reveals_ldap_filter : forall u acps f ext e, wf_entry e = true ->
  spec_reveals u acps MHidden (ldap_search_filter f ext) e = true ->
  is_hidden e = false /\ readable_match u acps e f = true
  /\ match ext with Some x => readable_match u acps e x = true | None => True end
  /\ may_read u acps e A_CLASS = true.
Proof.
  intros u acps f ext e Hwf H. rewrite (reveals_hidden u acps _ e Hwf), readable_ldap_filter, readable_excl in H.
  rewrite !andb_true_iff, !negb_true_iff in H. destruct ext; intuition.
Qed.

Lemma exists_ldap_filter : forall i u acps f ext es,
  reader i = Some u -> (forall e, In e es -> wf_entry e = true) ->
  exists_ i acps MHidden (ldap_search_filter f ext) es = true ->
  exists e, In e es /\ is_hidden e = false /\ readable_match u acps e f = true
            /\ match ext with Some x => readable_match u acps e x = true | None => True end
            /\ may_read u acps e A_CLASS = true.
Proof.
  intros i u acps f ext es Hr Hwf H. rewrite (exists_spec i u acps MHidden _ es Hr) in H.
  apply existsb_exists in H as [e [He Hs]]. exists e. split; [exact He|].
  exact (reveals_ldap_filter u acps f ext e (Hwf e He) Hs).
Qed.

Lemma reveal_of_spec : forall u acps m f e, wf_entry e = true ->
  spec_reveals u acps m f e = true -> may_reveal u acps m f e = true.
Proof.
  intros u acps m f e Hwf H. unfold spec_reveals in H. unfold may_reveal.
  apply andb_true_iff in H as [H H3]. apply andb_true_iff in H as [_ H2]. rewrite H2, H3.
  rewrite (wrap_match m e f Hwf) in H2. apply andb_true_iff in H2 as [-> _]. reflexivity.
Qed.

Lemma in_world_self : forall es e p, In e es -> p e = true -> in_world es (e_id e) p = true.
Proof.
  intros es e p Hin Hp. unfold in_world. apply existsb_exists. exists e. split; [exact Hin|].
  rewrite N.eqb_refl, Hp. reflexivity.
Qed.
Lemma in_world_filter : forall es (p q : entry -> bool), (forall e, In e es -> p e = true -> q e = true) ->
  forallb (fun id => in_world es id q) (map e_id (filter p es)) = true.
Proof.
  intros es p q H. apply forallb_forall. intros id Hid. apply in_map_iff in Hid as [e [<- He]].
  apply filter_In in He as [He Hp]. apply in_world_self; [exact He | apply H; assumption].
Qed.

Section Bridge.
  Variables (es : list entry) (acps : list acp) (i : ident).
  Hypothesis Hwf : forall e, In e es -> wf_entry e = true.

  Lemma ids_ok_run : forall m f, ids_ok es acps i m f (map e_id (search i acps m f es)) = true.
  Proof.
    intros m f. unfold ids_ok. destruct (reader i) as [u|] eqn:Hr.
    - destruct (reader_inv i u Hr) as [-> _]. rewrite (search_spec i u acps m f es Hr).
      apply in_world_filter. intros e He. apply reveal_of_spec, Hwf, He.
    - destruct (i_origin i) as [u| |r] eqn:Ho.
      1, 2: rewrite (search_denied i acps m f es Hr (not_internal i _ Ho I)); reflexivity.
      rewrite search_shown. apply in_world_filter. intros e _. apply shown_internal, Ho.
  Qed.

  Lemma ext_ok_run : forall m f req l,
    search_ext i acps m f req es = Some l -> ext_ok es acps i m f req l = true.
  Proof.
    intros m f req l Hs. unfold ext_ok. destruct (reader i) as [u|] eqn:Hr.
    - rewrite (search_ext_spec i u acps m f req es Hr) in Hs. injection Hs as <-.
      apply forallb_forall. intros r Hin. apply in_map_iff in Hin as [e [<- He]]. apply filter_In in He as [He Hsp].
      unfold spec_release. cbn [fst snd]. apply in_world_self; [exact He|].
      rewrite (reveal_of_spec u acps m f e (Hwf e He) Hsp). apply forallb_forall. intros a Ha.
      apply filter_In in Ha as [H1 H2]. apply andb_true_iff in H2 as [H2 H3].
      apply memN_In in H1. rewrite H1, H2, H3. reflexivity.
    - unfold search_ext in Hs. destruct (i_origin i) as [u| |r] eqn:Ho; try discriminate.
      rewrite (search_denied i acps m f es Hr (not_internal i _ Ho I)) in Hs. injection Hs as <-. reflexivity.
  Qed.

  Lemma bool_ok_run : forall m f, bool_ok es acps i m f (exists_ i acps m f es) = true.
  Proof.
    intros m f. unfold bool_ok. destruct (reader i) as [u|] eqn:Hr.
    - destruct (reader_inv i u Hr) as [Ho _]. rewrite Ho, (exists_spec i u acps m f es Hr).
      destruct (existsb (spec_reveals u acps m f) es) eqn:E; [|reflexivity].
      apply existsb_exists in E as [e [He Hs]]. apply existsb_exists. exists e.
      split; [exact He | apply reveal_of_spec; [apply Hwf, He | exact Hs]].
    - destruct (i_origin i) as [u| |r] eqn:Ho; [| | reflexivity];
        rewrite (exists_denied i acps m f es Hr (not_internal i _ Ho I)); reflexivity.
  Qed.

  Lemma bool_ok_true_of_exists : forall m f,
    exists_ i acps m f es = true -> bool_ok es acps i m f true = true.
  Proof. intros m f H. pose proof (bool_ok_run m f) as P. rewrite H in P. exact P. Qed.

  Lemma pcheck_q_run : forall k f, pcheck_q es acps i (mkQ k f (run es acps i k f)) = true.
  Proof.
    intros k f. unfold pcheck_q. cbn [q_kind q_f q_out]. destruct k as [m|m req|m outside|ext req|ava]; cbn [run].
    - apply ids_ok_run.
    - destruct (search_ext i acps m f req es) as [l|] eqn:E; [|reflexivity]. apply (ext_ok_run m f req l E).
    - destruct outside; [reflexivity|]. rewrite orb_false_r. apply bool_ok_run.
    - unfold ldap_search. destruct (search_ext i acps MHidden (ldap_search_filter f ext) req es) as [l|] eqn:E; [|reflexivity].
      apply (ext_ok_run MHidden _ req l E).
    - unfold ldap_compare.
      destruct (exists_ i acps MHidden (FAnd [f; ava; ldap_excl] None) es) eqn:E1; [cbn; apply bool_ok_true_of_exists, E1|].
      destruct (exists_ i acps MHidden (FAnd [f; ldap_excl] None) es) eqn:E2; [cbn; apply bool_ok_true_of_exists, E2|].
      reflexivity.
  Qed.
End Bridge.
