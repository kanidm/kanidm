(* Vocabulary: a READER is a user identity whose session scope is read-only or read-write
   (`reader i = Some u`). `may_read u acps e a` is the declarative grant rule: some loaded
   profile whose receiver matches (u, e) and whose target matches e lists attribute a, or a
   built-in visibility rule (OAuth2 client / application / sync account) covers a.
   All statements hold for ANY set of profiles, ANY entries, ANY filters and ANY leaf truth. *)
From Coq Require Import List NArith Bool.
Import ListNotations.
Require Import KV.Base.Filter KV.C23.Model KV.C23.Proofs.
Open Scope N_scope.

(* search: a reader is shown exactly the entries that match the processed filter and on which
   EVERY attribute named in the original filter is readable (and nothing when the filter names
   no attribute). *)
Theorem C23_search_is_spec : forall i u acps m f es, reader i = Some u ->
  search i acps m f es = filter (spec_reveals u acps m f) es.
Proof. exact search_spec. Qed.

(* search_ext: for each such entry exactly the attributes that are present, requested and
   readable are released; trimming the profiles by the requested attributes changes nothing. *)
Theorem C23_search_ext_is_spec : forall i u acps m f req es, reader i = Some u ->
  search_ext i acps m f req es
  = Some (map (spec_release u acps req) (filter (spec_reveals u acps m f) es)).
Proof. exact search_ext_spec. Qed.

(* exists: true exactly when some entry would be shown by the corresponding search. *)
Theorem C23_exists_is_spec : forall i u acps m f es, reader i = Some u ->
  exists_ i acps m f es = existsb (spec_reveals u acps m f) es.
Proof. exact exists_spec. Qed.
Theorem C23_exists_agrees : forall i acps m f es, (forall r, i_origin i <> OInternal r) ->
  exists_ i acps m f es = negb (is_nil (search i acps m f es)).
Proof. exact exists_search. Qed.

(* Every released (entry, attribute) is covered by a read grant, was requested, and is an
   attribute of that entry. *)
Theorem C23_attrs_sound : forall i u acps m f req es l id attrs a,
  reader i = Some u -> search_ext i acps m f req es = Some l ->
  In (id, attrs) l -> In a attrs ->
  exists e, In e es /\ e_id e = id /\ In a (e_attrs e) /\ requested req a = true
            /\ may_read u acps e a = true.
Proof.
  intros i u acps m f req es l id attrs a Hr Hs Hin Ha.
  destruct (search_ext_elem i u acps m f req es l id attrs Hr Hs Hin) as [e [He [Hid [_ ->]]]].
  apply filter_In in Ha as [Ha1 Ha2]. apply andb_true_iff in Ha2 as [Hq Hm].
  exists e. repeat split; assumption.
Qed.

(* ... and nothing readable is withheld: a revealed entry carries EXACTLY its present,
   requested, readable attributes (so the model is not vacuously safe). *)
Theorem C23_attrs_complete : forall i u acps m f req es l e,
  reader i = Some u -> search_ext i acps m f req es = Some l ->
  In e (search i acps m f es) ->
  exists attrs, In (e_id e, attrs) l /\
    forall a, In a attrs <-> (In a (e_attrs e) /\ requested req a = true /\ may_read u acps e a = true).
Proof.
  intros i u acps m f req es l e Hr Hs Hin.
  rewrite (search_ext_spec i u acps m f req es Hr) in Hs. injection Hs as <-.
  rewrite (search_spec i u acps m f es Hr) in Hin.
  exists (snd (spec_release u acps req e)). split.
  - apply (in_map (spec_release u acps req)), Hin.
  - intros a. unfold spec_release. cbn [snd]. rewrite filter_In, andb_true_iff. tauto.
Qed.

(* An entry is revealed only if it matches the filter AND every attribute the caller named in
   the filter is readable on it: no probing through unreadable attributes. *)
Theorem C23_entry_needs_filter_attrs : forall i u acps m f req es l id attrs,
  reader i = Some u -> search_ext i acps m f req es = Some l -> In (id, attrs) l ->
  exists e, In e es /\ e_id e = id /\ ematches e (fst (wrap m f)) = true
            /\ forall a, In a (fattrs (snd (wrap m f))) -> may_read u acps e a = true.
Proof.
  intros i u acps m f req es l id attrs Hr Hs Hin.
  destruct (search_ext_elem i u acps m f req es l id attrs Hr Hs Hin) as [e [He [Hid [Hsp _]]]].
  apply spec_reveals_iff in Hsp as [_ Hsp]. exists e. auto.
Qed.
(* the same for the entry list of `search` *)
Theorem C23_search_needs_filter_attrs : forall i u acps m f es e,
  reader i = Some u -> In e (search i acps m f es) ->
  In e es /\ ematches e (fst (wrap m f)) = true
  /\ forall a, In a (fattrs (snd (wrap m f))) -> may_read u acps e a = true.
Proof.
  intros i u acps m f es e Hr. rewrite (search_spec i u acps m f es Hr), filter_In, spec_reveals_iff. tauto.
Qed.
(* ... and conversely, when the processed filter names an attribute at all *)
Theorem C23_search_complete : forall i u acps m f es e, reader i = Some u ->
  fattrs (snd (wrap m f)) <> [] -> In e es -> ematches e (fst (wrap m f)) = true ->
  (forall a, In a (fattrs (snd (wrap m f))) -> may_read u acps e a = true) ->
  In e (search i acps m f es).
Proof.
  intros i u acps m f es e Hr. rewrite (search_spec i u acps m f es Hr), filter_In, spec_reveals_iff. tauto.
Qed.
(* the same as C23_entry_needs_filter_attrs for a true answer of `exists` *)
Theorem C23_exists_sound : forall i u acps m f es,
  reader i = Some u -> exists_ i acps m f es = true ->
  exists e, In e es /\ ematches e (fst (wrap m f)) = true
            /\ forall a, In a (fattrs (snd (wrap m f))) -> may_read u acps e a = true.
Proof.
  intros i u acps m f es Hr H. rewrite (exists_spec i u acps m f es Hr) in H.
  apply existsb_exists in H as [e [Hin Hs]]. apply spec_reveals_iff in Hs as [_ Hs]. exists e. auto.
Qed.

(* Deleted (tombstone) and recycled entries never appear in a search whose processed filter is
   the ignore-hidden wrapping — whoever asks, internal callers included; a recycle-bin search
   returns recycled entries only. (wf_entry: the truth of the two class leaves is what the
   entry's class list says; `agree` checks it on every observed case.) *)
Theorem C23_no_hidden : forall i acps f es e, wf_entry e = true ->
  In e (search i acps MHidden f es) -> is_hidden e = false.
Proof. intros i acps f es e Hwf H. apply negb_true_iff, (search_mode_ok i acps MHidden f es e Hwf H). Qed.
Theorem C23_recycle_bin_only_recycled : forall i acps f es e, wf_entry e = true ->
  In e (search i acps MRecycle f es) -> memN C_RECYCLED (e_class e) = true.
Proof. intros i acps f es e. exact (search_mode_ok i acps MRecycle f es e). Qed.
Theorem C23_no_hidden_ext : forall i acps f req es l id attrs,
  (forall e, In e es -> wf_entry e = true) ->
  search_ext i acps MHidden f req es = Some l -> In (id, attrs) l ->
  exists e, In e es /\ e_id e = id /\ is_hidden e = false.
Proof.
  intros i acps f req es l id attrs Hwf Hs Hin. unfold search_ext in Hs.
  destruct (i_origin i) as [u| |r]; try discriminate. injection Hs as <-.
  apply In_fmap in Hin as [e [He Hred]]. unfold reduce_entry in Hred.
  destruct (apply_search_access _ _ e); try discriminate. injection Hred as <- _.
  assert (Hin : In e es) by (apply search_In in He; tauto).
  exists e. repeat split; [exact Hin|]. apply (C23_no_hidden _ acps f es e (Hwf e Hin) He).
Qed.

(* Callers that may not search: sync identities and user sessions with the synchronise scope
   see nothing; the external interface (attribute release) is for user identities only. *)
Theorem C23_denied_callers : forall i acps m f es,
  reader i = None -> (forall r, i_origin i <> OInternal r) -> search i acps m f es = [].
Proof. exact search_denied. Qed.
Theorem C23_external_interface_users_only : forall i acps m f req es,
  (forall u, i_origin i <> OUser u) -> search_ext i acps m f req es = None.
Proof.
  intros i acps m f req es H. unfold search_ext.
  destruct (i_origin i) as [u| |r]; [contradiction (H u) | |]; reflexivity.
Qed.
(* internal roles: System sees all, AccountRequest only accounts, Migration only entries
   whose classes are migration classes, MessageQueue nothing. *)
Theorem C23_internal_roles : forall i r acps m f es e, i_origin i = OInternal r ->
  In e (search i acps m f es) -> In e es /\ role_may_see r e = true.
Proof.
  intros i r acps m f es e Ho H. apply search_In in H as [Hin H].
  split; [exact Hin | exact (shown_internal i r acps m f e Ho H)].
Qed.

(* LDAP search = search_ext on And[client filter; rdn of the base; not(schema/profile classes)]
   under the ignore-hidden wrapper: a result entry is live, matches the client filter, and
   the caller can read `class` (the wrapper names it) and every attribute of the client filter
   on it; released attributes obey C23_attrs_sound (ldap_search is search_ext by definition). *)
Theorem C23_ldap_search_sound : forall i u acps f ext req es l id attrs,
  reader i = Some u -> (forall e, In e es -> wf_entry e = true) ->
  ldap_search i acps f ext req es = Some l -> In (id, attrs) l ->
  exists e, In e es /\ e_id e = id /\ is_hidden e = false /\ ematches e f = true
            /\ may_read u acps e A_CLASS = true
            /\ (forall a, In a (fattrs f) -> may_read u acps e a = true)
            /\ (forall a, In a attrs -> may_read u acps e a = true /\ requested req a = true).
Proof.
  intros i u acps f ext req es l id attrs Hr Hwf Hs Hin. unfold ldap_search in Hs.
  destruct (search_ext_elem i u acps MHidden _ req es l id attrs Hr Hs Hin) as [e [He [Hid [Hsp ->]]]].
  destruct (reveals_ldap_filter u acps f ext e (Hwf e He) Hsp) as [Hh [Hf [_ Hc]]].
  apply readable_match_iff in Hf as [Hm Ha].
  exists e. repeat split; try assumption;
    apply filter_In in H as [_ H]; apply andb_true_iff in H; apply H.
Qed.

(* LDAP compare answers compareTrue only if some live entry named by the dn carries the
   asserted value AND the caller can read `class`, the rdn attribute and the asserted attribute
   on it; compareFalse only if such an entry exists and `class` and the rdn attribute are
   readable. Otherwise noSuchObject: an unreadable entry is indistinguishable from none. *)
Theorem C23_ldap_compare_sound : forall i u acps dn ava es,
  reader i = Some u -> (forall e, In e es -> wf_entry e = true) ->
  (ldap_compare i acps dn ava es = 0 ->
     exists e, In e es /\ is_hidden e = false /\ ematches e dn = true /\ ematches e ava = true
               /\ may_read u acps e A_CLASS = true
               /\ forall a, In a (fattrs dn ++ fattrs ava) -> may_read u acps e a = true)
  /\ (ldap_compare i acps dn ava es = 1 ->
     exists e, In e es /\ is_hidden e = false /\ ematches e dn = true
               /\ may_read u acps e A_CLASS = true
               /\ forall a, In a (fattrs dn) -> may_read u acps e a = true).
Proof.
  intros i u acps dn ava es Hr Hwf. unfold ldap_compare.
  change (FAnd [dn; ava; ldap_excl] None) with (ldap_search_filter dn (Some ava)).
  change (FAnd [dn; ldap_excl] None) with (ldap_search_filter dn None).
  destruct (exists_ i acps MHidden (ldap_search_filter dn (Some ava)) es) eqn:E1.
  - split; [intros _ | discriminate].
    destruct (exists_ldap_filter i u acps dn (Some ava) es Hr Hwf E1) as [e [He [Hh [Hd [Ha Hc]]]]].
    apply readable_match_iff in Hd as [Hd Hd']. apply readable_match_iff in Ha as [Ha Ha'].
    exists e. repeat split; try assumption. intros a Hin. apply in_app_iff in Hin as [Hin | Hin]; auto.
  - destruct (exists_ i acps MHidden (ldap_search_filter dn None) es) eqn:E2; [|split; discriminate].
    split; [discriminate | intros _].
    destruct (exists_ldap_filter i u acps dn None es Hr Hwf E2) as [e [He [Hh [Hd [_ Hc]]]]].
    apply readable_match_iff in Hd as [Hd Hd']. exists e. repeat split; assumption.
Qed.

(* Soundness of the run-time tie: whenever the implementation's answers agree with the model
   on a case (and the case data is coherent), every answer of the IMPLEMENTATION satisfies the
   property's executable predicate `pcheck`, which is stated from may_read only. *)
Theorem C23_agree_implies_property : forall c : case, agree c = true -> pcheck c = true.
Proof.
  intros [es acps i qs]. cbn [agree pcheck]. intros H. apply andb_true_iff in H as [Hwf Hq].
  apply forallb_forall. intros [k f o] Hin.
  assert (Ho := proj1 (forallb_forall _ _) Hq _ Hin). cbn [q_kind q_f q_out] in Ho.
  apply outcome_eqb_eq in Ho. rewrite <- Ho. apply pcheck_q_run. apply forallb_forall. exact Hwf.
Qed.
