(* KV.C40.Witness — non-vacuity: concrete non-trivial worlds meet the hypotheses of the implication
   theorems, binds really succeed and really are refused, and the refutation witness is concrete. *)
From Coq Require Import List NArith Bool.
Import ListNotations.
Require Import KV.Base.Filter KV.C23.Model KV.C23.Proofs KV.C40.Model KV.C40.Proofs.
Open Scope N_scope.

(* bytes: "dc=x" base DN, names "al" (alice, uuid 1), "an" (anonymous, uuid 0), application "mail"
   (uuid 4, linked group 10); secrets "pw1" (alice POSIX), "ap1" (alice's application password for
   mail), token "tok" (service account, uuid 3, read-write) *)
Definition s_base : str := [100; 99; 61; 120].
Definition s_al : str := [97; 108].
Definition s_an : str := [97; 110].
Definition s_mail : str := [109; 97; 105; 108].
Definition s_pw1 : str := [112; 119; 49].
Definition s_ap1 : str := [97; 112; 49].
Definition s_tok : str := [116; 111; 107].
(* "name=AL,dc=x" and "al,app=mail,dc=x" *)
Definition dn_al : str := [110; 97; 109; 101; 61; 65; 76; 44; 100; 99; 61; 120].
Definition dn_al_mail : str := [97; 108; 44; 97; 112; 112; 61; 109; 97; 105; 108; 44; 100; 99; 61; 120].

Definition anon_user := mkU UUID_ANON (Some [20]) [0; 6] None.
Definition svc_user := mkU 3 (Some [21]) [0; 6; 13] None.
(* members of group 20 (anonymous) read class+name of persons; members of 21 read everything listed *)
Definition w_acps : list acp :=
  [mkA (RGroup [20]) (Some (FLeaf KEq A_CLASS 7 None)) [A_CLASS; A_NAME];
   mkA (RGroup [21]) (Some (FLeaf KEq A_CLASS 7 None)) [A_CLASS; A_NAME; A_DISPLAYNAME]].
Definition e_alice := mkE 1 [0; 6; 7] [0; 1; 2; 3] [] [] None [(KEq, A_CLASS, 7); (KEq, A_NAME, 100)].
Definition e_schema := mkE 9 [0; 26] [0; 1; 2] [] [] None [(KEq, A_CLASS, C_CLASSTYPE); (KEq, A_NAME, 100)].
Definition mk_world (flag : bool) : world :=
  mkW flag s_base [(s_al, 1); (s_an, 0)]
    [mkAc 0 true true None None false false [20] [];
     mkAc 1 true true (Some s_pw1) None false false [10] [(4, s_ap1)];
     mkAc 3 true true None None false false [21] []]
    [mkApp s_mail 4 10]
    [(s_tok, TkLive 3 ScRW)]
    [(0, (anon_user, w_acps)); (3, (svc_user, w_acps))]
    [e_alice; e_schema].
Definition w_on := mk_world true.
Definition w_off := mk_world false.

(* parsing: upper-case name with base DN, and the application form *)
Example C40_witness_targets :
  bind_target w_on dn_al s_pw1 = Ok (TAccount 1)
  /\ bind_target w_on dn_al_mail s_ap1 = Ok (TApp s_mail 1)
  /\ bind_target w_on [] s_tok = Ok TToken
  /\ bind_target w_on [] [] = Ok (TAccount UUID_ANON).
Proof. vm_compute. repeat split; reflexivity. Qed.

(* C40_unix_bind_sound / C40_unix_bind_needs_flag: the same bind succeeds with the flag and is
   refused without it; a wrong password is refused *)
Example C40_witness_flag :
  do_bind w_on dn_al s_pw1 = Ok (Some (SUnix 1))
  /\ do_bind w_off dn_al s_pw1 = Ok None
  /\ do_bind w_on dn_al s_ap1 = Ok None
  /\ w_flag w_off = false /\ 1 <> UUID_ANON.
Proof. vm_compute. repeat split; try reflexivity. discriminate. Qed.

(* C40_app_bind_needs_group: the application bind succeeds (also with the flag off); without the
   membership it is refused *)
Definition w_nogroup : world :=
  mkW false s_base [(s_al, 1); (s_an, 0)]
    [mkAc 0 true true None None false false [20] [];
     mkAc 1 true true (Some s_pw1) None false false [] [(4, s_ap1)]]
    [mkApp s_mail 4 10] [] [(0, (anon_user, w_acps))] [e_alice].
Example C40_witness_app :
  do_bind w_off dn_al_mail s_ap1 = Ok (Some (SUnix 1))
  /\ do_bind w_nogroup dn_al_mail s_ap1 = Ok None
  /\ do_bind w_off dn_al_mail s_pw1 = Ok None.
Proof. vm_compute. repeat split; reflexivity. Qed.

(* C40_pw_bind_is_anonymous / C40_pw_session_equals_anonymous: alice's session is the anonymous
   reader; the token session is the service account with its own (larger) rights *)
Example C40_witness_identity :
  effective w_on (SUnix 1) = Ok (mkI (OUser anon_user) ScRO, w_acps)
  /\ effective w_on (SUnix UUID_ANON) = Ok (mkI (OUser anon_user) ScRO, w_acps)
  /\ effective w_on (SApi 3 ScRW) = Ok (mkI (OUser svc_user) ScRW, w_acps)
  /\ do_bind w_on [] s_tok = Ok (Some (SApi 3 ScRW)).
Proof. vm_compute. repeat split; reflexivity. Qed.
Definition f_person := FLeaf KEq A_CLASS 7 None.
Definition f_name := FLeaf KEq A_NAME 100 None.
Example C40_witness_searches :
  do_search w_on (SUnix 1) BDomain LSub f_person None = SoEntries [(1, [A_CLASS; A_NAME])]
  /\ do_search w_on (SApi 3 ScRW) BDomain LSub f_person None = SoEntries [(1, [A_CLASS; A_NAME; A_DISPLAYNAME])]
  /\ do_search w_on (SUnix 1) BEmpty LBase f_person None = SoRoot
  /\ do_search w_on (SUnix 1) BBad LSub f_person None = SoErr EConstraint.
Proof. vm_compute. repeat split; reflexivity. Qed.

(* a connection: failed bind keeps the connection unbound, the search binds anonymously, the token
   bind replaces the token, whoami, unbind; C40_no_write on it *)
Definition ops1 : list op :=
  [OpBind dn_al s_ap1; OpSearch BDomain LSub f_person None; OpBind [] s_tok;
   OpSearch BDomain LSub f_person (Some [A_DISPLAYNAME]); OpWhoami; OpUnbind].
Example C40_witness_connection :
  run_conn w_on None ops1
  = [RInvalidCred; REntries (Some (SUnix UUID_ANON)) [(1, [A_CLASS; A_NAME])]; RBound (SApi 3 ScRW);
     REntries None [(1, [A_DISPLAYNAME])]; RWhoami true; RUnbind]
  /\ steps (w_on, None) ops1 = (w_on, Some (SApi 3 ScRW)).
Proof. vm_compute. split; reflexivity. Qed.

(* hypotheses of C40_search_eq_native_partial / _when_class_readable / C40_ldap_never_shows_more:
   a reader, coherent entries, a filter that names an attribute; the schema entry matches the
   client's filter natively (for a caller that can read it) and is hidden by the gateway *)
Definition full_acps : list acp := [mkA (RGroup [21]) (Some f_name) [A_CLASS; A_NAME]].
Example C40_witness_search_hyps :
  reader (mkI (OUser svc_user) ScRO) = Some svc_user
  /\ forallb wf40 [e_alice; e_schema] = true
  /\ fattrs (nat_filter f_name None) <> []
  /\ native (mkI (OUser svc_user) ScRO) full_acps f_name None None [e_alice; e_schema]
     = Some [(1, [A_CLASS; A_NAME]); (9, [A_CLASS; A_NAME])]
  /\ ldap_search (mkI (OUser svc_user) ScRO) full_acps f_name None None [e_alice; e_schema]
     = Some [(1, [A_CLASS; A_NAME])].
Proof. vm_compute. repeat split; try reflexivity. discriminate. Qed.

(* the refutation witness of C40_refuted, concretely: natively visible by name, hidden by the gateway *)
Example C40_witness_refuted :
  ldap_search cx_ident cx_acps cx_filter None None [cx_entry] = Some []
  /\ native cx_ident cx_acps cx_filter None None [cx_entry] = Some [(5, [A_NAME])]
  /\ may_read cx_user cx_acps cx_entry A_CLASS = false
  /\ forallb wf40 [cx_entry] = true.
Proof. vm_compute. repeat split; reflexivity. Qed.

(* a full observed case: agrees, satisfies the stated predicate; and one inside the recorded class *)
Definition case_ok : case :=
  CConn w_on None
    [mkO (OpBind dn_al s_pw1) (RBound (SUnix 1)) false None None;
     mkO (OpSearch BDomain LSub f_person None) (REntries None [(1, [A_CLASS; A_NAME])]) false
         (Some ([(1, [A_CLASS; A_NAME])], [(1, [A_CLASS; A_NAME])])) None;
     mkO (OpCompare (BRdn f_name) f_person) (RCompare None 0) false None (Some (true, true))].
Example C40_witness_case : agree case_ok = true /\ pcheck case_ok = true /\ known case_ok = false.
Proof. vm_compute. repeat split; reflexivity. Qed.
Definition w_cx : world :=
  mkW false s_base [(s_an, 0)] [mkAc 0 true true None None false false [10] []] [] []
    [(0, (cx_user, cx_acps))] [cx_entry].
Definition case_known : case :=
  CConn w_cx None
    [mkO (OpSearch BDomain LSub cx_filter None) (REntries (Some (SUnix UUID_ANON)) []) false
         (Some ([(5, [A_NAME])], [(5, [A_NAME])])) None].
Example C40_witness_known :
  agree case_known = true /\ pcheck case_known = false /\ known case_known = true
  /\ pcheck_exact case_known = true.
Proof. vm_compute. repeat split; reflexivity. Qed.
(* a write would be noticed: the bind of case_ok with a changed fingerprint neither agrees nor passes *)
Definition case_written : case :=
  CConn w_on None [mkO (OpBind dn_al s_pw1) (RBound (SUnix 1)) true None None].
Example C40_witness_write_detected : agree case_written = false /\ pcheck case_written = false /\ known case_written = false.
Proof. vm_compute. repeat split; reflexivity. Qed.
