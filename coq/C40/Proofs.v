(* Binds: what each authentication path demands of a success gives [do_bind_ok]. Searches: on coherent
   entries the gateway's filter reveals what the native filter reveals and [ldap_keeps] lets through
   ([reveals_ldap]); [ldap_from_native] says the same of the result lists, which [obs_ok] compares. *)
From Coq Require Import List NArith Bool.
Import ListNotations.
Require Import KV.Base.Filter KV.C23.Model KV.C23.Proofs KV.C40.Model.
Open Scope N_scope.

(* a connection as a state machine over (directory facts, bound token): the directory component is
   threaded through unchanged because no operation of `op` produces one *)
Definition cstate := (world * option session)%type.
Definition step (st : cstate) (o : op) : cstate * resp :=
  let r := do_op (fst st) (snd st) o in ((fst st, next_cur (snd st) r), r).
Fixpoint steps (st : cstate) (ops : list op) : cstate :=
  match ops with [] => st | o :: r => steps (fst (step st o)) r end.

Lemma steps_world : forall ops st, fst (steps st ops) = fst st.
Proof. induction ops as [|o r IH]; intros st; [reflexivity|]. cbn [steps]. rewrite IH. reflexivity. Qed.

Lemma run_conn_length : forall w ops cur, length (run_conn w cur ops) = length ops.
Proof. intros w ops. induction ops as [|o r IH]; intros cur; [reflexivity|]. cbn [run_conn length]. rewrite IH. reflexivity. Qed.

Lemma scope_eqb_refl : forall s, scope_eqb s s = true.
Proof. intros []; reflexivity. Qed.
Lemma session_eqb_refl : forall s, session_eqb s s = true.
Proof. intros [u|a sc]; cbn; [apply N.eqb_refl | rewrite N.eqb_refl, scope_eqb_refl; reflexivity]. Qed.

Lemma session_eqb_eq : forall a b, session_eqb a b = true -> a = b.
Proof.
  intros [x|x s] [y|y t] H; cbn in H; try discriminate.
  - apply N.eqb_eq in H. subst. reflexivity.
  - apply andb_true_iff in H as [H1 H2]. apply N.eqb_eq in H1. subst.
    destruct s, t; try discriminate; reflexivity.
Qed.
Lemma osession_eqb_eq : forall a b, osession_eqb a b = true -> a = b.
Proof.
  intros [x|] [y|] H; cbn in H; try discriminate; [|reflexivity]. f_equal. apply session_eqb_eq. exact H.
Qed.
Lemma resp_eqb_eq : forall a b, resp_eqb a b = true -> a = b.
Proof.
  intros a b H. destruct a, b; cbn in H; try discriminate; try reflexivity.
  - f_equal. apply session_eqb_eq. exact H.
  - destruct e, e0; try discriminate; reflexivity.
  - apply osession_eqb_eq in H. subst. reflexivity.
  - apply andb_true_iff in H as [H1 H2]. apply osession_eqb_eq in H1. apply ext_eqb_eq in H2. subst. reflexivity.
  - apply andb_true_iff in H as [H1 H2]. apply osession_eqb_eq in H1. apply N.eqb_eq in H2. subst. reflexivity.
  - apply eqb_prop in H. subst. reflexivity.
Qed.
Lemma onat_eqb_eq : forall a b, onat_eqb a b = true -> a = b.
Proof.
  intros [[x y]|] [[x' y']|] H; cbn in H; try discriminate; [|reflexivity].
  apply andb_true_iff in H as [H1 H2]. apply ext_eqb_eq in H1. apply ext_eqb_eq in H2. subst. reflexivity.
Qed.
Lemma onex_eqb_eq : forall a b, onex_eqb a b = true -> a = b.
Proof.
  intros [[x y]|] [[x' y']|] H; cbn in H; try discriminate; [|reflexivity].
  apply andb_true_iff in H as [H1 H2]. apply eqb_prop in H1. apply eqb_prop in H2. subst. reflexivity.
Qed.

Lemma effective_prescribed : forall w s x, effective w s = Ok x -> prescribed w s = Some x.
Proof.
  intros w [u|a sc] x; unfold effective, prescribed; (destruct (find_acct w _) as [ac|]; [|discriminate]).
  - destruct (negb (ac_account ac)); [discriminate|]. destruct (negb (ac_valid ac)); [discriminate|].
    destruct (assoc_n UUID_ANON (w_prin w)) as [[usr acps]|]; [|discriminate]. intros [= <-]. reflexivity.
  - destruct (negb (ac_valid ac)); [discriminate|].
    destruct (assoc_n a (w_prin w)) as [[usr acps]|]; [|discriminate]. intros [= <-]. reflexivity.
Qed.
Lemma prescribed_user : forall w s i acps, prescribed w s = Some (i, acps) -> exists usr, i_origin i = OUser usr.
Proof.
  intros w [u|a sc] i acps; unfold prescribed; (destruct (assoc_n _ (w_prin w)) as [[usr acps']|]; [|discriminate]);
    intros [= <- _]; exists usr; reflexivity.
Qed.

Lemma unix_pass_secret : forall w u pw, w_flag w = true ->
  auth_with_unix_pass w u pw = Ok true -> unix_secret_ok w u pw = true.
Proof.
  intros w u pw Hf H. unfold auth_with_unix_pass in H. unfold unix_secret_ok. rewrite Hf.
  destruct (find_acct w u) as [a|]; [|discriminate].
  destruct (ac_account a); [|discriminate]. destruct (ac_valid a); [|discriminate]. cbn [negb andb] in *.
  destruct (ac_locked a); [destruct (if ac_fallback a then _ else _); discriminate|].
  destruct (ac_unix a) as [c|].
  - assert (Hc : str_eqb c pw = true) by (destruct (ac_fallback a); injection H as H; exact H).
    cbn. rewrite Hc. reflexivity.
  - destruct (ac_fallback a); [|discriminate]. destruct (ac_primary a) as [p|]; [|discriminate].
    injection H as H. cbn. rewrite H. reflexivity.
Qed.

Lemma auth_ldap_some : forall w u pw s, auth_ldap w u pw = Ok (Some s) ->
  s = SUnix u /\ (u = UUID_ANON \/ (w_flag w = true /\ unix_secret_ok w u pw = true)).
Proof.
  intros w u pw s H. unfold auth_ldap in H. destruct (u =? UUID_ANON) eqn:Eu.
  - apply N.eqb_eq in Eu. subst u.
    destruct (find_acct w UUID_ANON) as [a|]; [|discriminate].
    destruct (negb (ac_account a)); [discriminate|]. destruct (negb (ac_valid a)); [discriminate|].
    injection H as <-. split; [reflexivity | left; reflexivity].
  - destruct (w_flag w) eqn:Ef; cbn [negb] in H; [|discriminate].
    destruct (auth_with_unix_pass w u pw) as [[|]|e] eqn:Ea; try discriminate.
    injection H as <-. split; [reflexivity|]. right. split; [reflexivity|].
    apply unix_pass_secret; assumption.
Qed.

Lemma app_auth_some : forall w an u pw s, application_auth_ldap w an u pw = Ok (Some s) ->
  s = SUnix u /\ u <> UUID_ANON /\
  exists a ap, find_acct w u = Some a /\ ac_account a = true /\ ac_valid a = true
    /\ find_app w an = Some ap /\ memN (ap_group ap) (ac_mo a) = true
    /\ existsb (fun p => (fst p =? ap_id ap) && str_eqb (snd p) pw) (ac_apppw a) = true.
Proof.
  intros w an u pw s H. unfold application_auth_ldap in H.
  destruct (find_acct w u) as [a|] eqn:Ea; [|discriminate].
  destruct (ac_account a) eqn:Eacc; cbn [negb] in H; [|discriminate].
  destruct (u =? UUID_ANON) eqn:Eu; [discriminate|].
  destruct (ac_valid a) eqn:Ev; cbn [negb] in H; [|discriminate].
  destruct (find_app w an) as [ap|] eqn:Eap; [|discriminate].
  destruct (memN (ap_group ap) (ac_mo a)) eqn:Em; cbn [negb] in H; [|discriminate].
  destruct (existsb _ (ac_apppw a)) eqn:Ex; [|discriminate].
  injection H as <-. split; [reflexivity|]. split; [apply N.eqb_neq; exact Eu|].
  exists a, ap. repeat split; assumption.
Qed.

Lemma token_auth_some : forall w pw s, token_auth_ldap w pw = Ok (Some s) ->
  exists a sc, s = SApi a sc /\ assoc_s pw (w_tokens w) = Some (TkLive a sc).
Proof.
  intros w pw s H. unfold token_auth_ldap in H.
  destruct (assoc_s pw (w_tokens w)) as [[a sc|]|]; try discriminate.
  destruct (find_acct w a); [|discriminate]. injection H as <-. exists a, sc. split; reflexivity.
Qed.

Lemma do_bind_ok : forall w dn pw s, do_bind w dn pw = Ok (Some s) -> bind_ok w pw s = true.
Proof.
  intros w dn pw s H. unfold do_bind in H.
  destruct (bind_target w dn pw) as [[u| |an u]|e]; [| | |discriminate].
  - destruct (auth_ldap_some w u pw s H) as [-> [-> | [_ Hs]]]; unfold bind_ok.
    + reflexivity.
    + rewrite Hs. rewrite orb_true_r. reflexivity.
  - destruct (token_auth_some w pw s H) as [a [sc [-> Ht]]]. unfold bind_ok. rewrite Ht.
    apply (session_eqb_refl (SApi a sc)).
  - destruct (app_auth_some w an u pw s H) as [-> [Hn [a [ap [Hf [Hacc [Hv [Hap [Hm Hx]]]]]]]]].
    unfold bind_ok. apply orb_true_iff. right. unfold app_secret_ok.
    apply N.eqb_neq in Hn. rewrite Hn, Hf, Hacc, Hv. cbn [negb andb].
    apply existsb_exists. exists ap. split; [apply (find_some _ _ Hap)|].
    rewrite Hm, Hx. reflexivity.
Qed.

(* `do_bind w [] []` is `auth_ldap w UUID_ANON []` by computation *)
Lemma implicit_bind : forall w s, do_bind w [] [] = Ok (Some s) -> s = SUnix UUID_ANON.
Proof. intros w s H. apply (auth_ldap_some w UUID_ANON [] s H). Qed.

(* what [wf40] (Model) checks of an entry, as a proposition *)
Definition wf3 (e : entry) : Prop :=
  wf_entry e = true
  /\ sem e KEq A_CLASS C_CLASSTYPE = memN C_CLASSTYPE (e_class e)
  /\ sem e KEq A_CLASS C_ATTRIBUTETYPE = memN C_ATTRIBUTETYPE (e_class e)
  /\ sem e KEq A_CLASS C_ACP = memN C_ACP (e_class e)
  /\ memN A_CLASS (e_attrs e) = true.
Lemma wf40_wf3 : forall e, wf40 e = true -> wf3 e.
Proof.
  intros e H. unfold wf40 in H. rewrite !andb_true_iff, !eqb_true_iff in H. unfold wf3. tauto.
Qed.

Lemma excl_match : forall e, wf3 e -> ematches e ldap_excl = negb (schema_or_acp e).
Proof.
  intros e [_ [H1 [H2 [H3 _]]]]. unfold ematches, ldap_excl, leaf_class, schema_or_acp.
  cbn [ematch existsb]. rewrite H1, H2, H3. rewrite orb_false_r, orb_assoc. reflexivity.
Qed.

Lemma is_nil_app : forall {A} (l1 l2 : list A), is_nil (l1 ++ l2) = is_nil l1 && is_nil l2.
Proof. intros A [|x l1] l2; reflexivity. Qed.
(* the exclusion term names `class` *)
Lemma ldap_filter_names : forall f ext, is_nil (fattrs (ldap_search_filter f ext)) = false.
Proof.
  intros f ext. unfold ldap_search_filter. destruct ext; cbn [fattrs flat_map]; rewrite !is_nil_app;
    cbn [fattrs ldap_excl flat_map leaf_class Datatypes.app is_nil]; rewrite !andb_false_r; reflexivity.
Qed.
Lemma nat_filter_attrs : forall f ext, fattrs f <> [] -> fattrs (nat_filter f ext) <> [].
Proof.
  intros f [x|] H; [|exact H]. cbn [nat_filter fattrs flat_map].
  destruct (fattrs f) as [|a q]; [contradiction H; reflexivity | discriminate].
Qed.
Lemma readable_nat_filter : forall u acps e f ext,
  readable_match u acps e (nat_filter f ext)
  = readable_match u acps e f && match ext with Some x => readable_match u acps e x | None => true end.
Proof.
  intros u acps e f ext. destruct ext as [x|]; cbn [nat_filter];
    [rewrite readable_match_and; cbn [forallb]|]; rewrite andb_true_r; reflexivity.
Qed.

(* what the gateway's class exclusion adds to the client's filter, per entry *)
Definition ldap_keeps (u : user) (acps : list acp) (e : entry) : bool :=
  negb (schema_or_acp e) && may_read u acps e A_CLASS.

Lemma reveals_ldap : forall u acps f ext e, wf3 e -> fattrs (nat_filter f ext) <> [] ->
  spec_reveals u acps MHidden (ldap_search_filter f ext) e
  = spec_reveals u acps MHidden (nat_filter f ext) e && ldap_keeps u acps e.
Proof.
  intros u acps f ext e Hwf Hne. pose proof Hwf as [Hwe _]. unfold ldap_keeps.
  rewrite !(reveals_hidden u acps _ e Hwe), readable_ldap_filter, readable_nat_filter, readable_excl,
    (excl_match e Hwf), ldap_filter_names.
  destruct (fattrs (nat_filter f ext)); [contradiction Hne; reflexivity|].
  cbn [is_nil negb andb]. rewrite !andb_assoc. reflexivity.
Qed.

Lemma ldap_search_char : forall i u acps f ext req es,
  reader i = Some u -> (forall e, In e es -> wf3 e) -> fattrs (nat_filter f ext) <> [] ->
  ldap_search i acps f ext req es
  = Some (map (spec_release u acps req)
           (filter (ldap_keeps u acps) (filter (spec_reveals u acps MHidden (nat_filter f ext)) es))).
Proof.
  intros i u acps f ext req es Hr Hwf Hne. unfold ldap_search.
  rewrite (search_ext_spec i u acps MHidden _ req es Hr), filter_filter. do 2 f_equal.
  apply filter_ext_in. intros e He. apply (reveals_ldap u acps f ext e (Hwf e He) Hne).
Qed.
Lemma native_char : forall i u acps f ext req es, reader i = Some u ->
  native i acps f ext req es
  = Some (map (spec_release u acps req) (filter (spec_reveals u acps MHidden (nat_filter f ext)) es)).
Proof. intros i u acps f ext req es Hr. apply (search_ext_spec i u acps MHidden _ req es Hr). Qed.

(* "LDAP search = native search minus schema / profile entries", in model terms *)
Definition search_full_statement : Prop :=
  forall i u acps f ext req es,
    reader i = Some u -> (forall e, In e es -> wf3 e) -> fattrs (nat_filter f ext) <> [] ->
    ldap_search i acps f ext req es
    = match native i acps f ext req es with
      | Some _ => Some (map (spec_release u acps req)
                    (filter (fun e => negb (schema_or_acp e))
                       (filter (spec_reveals u acps MHidden (nat_filter f ext)) es)))
      | None => None
      end.

(* counterexample to search_full_statement (C40_refuted): the OAuth2 client entry 5, of which
   anonymous (member of group 10) may read `name` only *)
Definition cx_entry : entry := mkE 5 [0; 3; 6] [0; 1; 2; 3] [] [] None [(KEq, A_NAME, 100)].
Definition cx_acps : list acp := [mkA (RGroup [10]) (Some (FLeaf KEq A_NAME 100 None)) [A_NAME]].
Definition cx_user : user := mkU UUID_ANON (Some [10]) [0; 6] None.
Definition cx_ident : ident := mkI (OUser cx_user) ScRO.
Definition cx_filter : filt := FLeaf KEq A_NAME 100 None.

Lemma filter_map_comm : forall {A B} (g : A -> B) (p : B -> bool) l,
  filter p (map g l) = map g (filter (fun x => p (g x)) l).
Proof.
  intros A B g p l. induction l as [|x l IH]; [reflexivity|]. cbn [map filter].
  destruct (p (g x)); cbn [map]; rewrite IH; reflexivity.
Qed.
Lemma existsb_false : forall {A} (p : A -> bool) l, existsb p l = false -> forall x, In x l -> p x = false.
Proof.
  intros A p l H x Hx. destruct (p x) eqn:E; [|reflexivity].
  rewrite <- H. symmetry. apply existsb_exists. exists x. split; assumption.
Qed.

Lemma nodupN_NoDup : forall l, nodupN l = true -> NoDup l.
Proof.
  induction l as [|x l IH]; intros H; [constructor|]. cbn [nodupN] in H.
  apply andb_true_iff in H as [H1 H2]. constructor; [|apply IH; exact H2].
  apply negb_true_iff in H1. apply memN_false in H1. exact H1.
Qed.
Lemma NoDup_map_inj : forall {A B} (key : A -> B) l x y,
  NoDup (map key l) -> In x l -> In y l -> key x = key y -> x = y.
Proof.
  intros A B key l x y. induction l as [|z l IH]; intros Hnd Hx Hy Hk; [destruct Hx|].
  cbn [map] in Hnd. inversion Hnd as [|? ? Hnot Hnd']; subst.
  destruct Hx as [<-|Hx], Hy as [<-|Hy]; [reflexivity | | | apply IH; assumption]; exfalso; apply Hnot.
  - rewrite Hk. apply in_map, Hy.
  - rewrite <- Hk. apply in_map, Hx.
Qed.
Lemma existsb_key : forall {A} (key : A -> N) (p : A -> bool) l l' x,
  NoDup (map key l) -> incl l' l -> In x l' ->
  existsb (fun y => (key y =? key x) && p y) l' = p x.
Proof.
  intros A key p l l' x Hnd Hi Hx. apply eq_true_iff_eq. rewrite existsb_exists. split.
  - intros [y [Hy H]]. apply andb_true_iff in H as [Hk Hp]. apply N.eqb_eq in Hk.
    rewrite <- (NoDup_map_inj key l y x Hnd (Hi y Hy) (Hi x Hx) Hk). exact Hp.
  - intros Hp. exists x. rewrite N.eqb_refl. split; assumption.
Qed.

Lemma id_is_char : forall es e p, NoDup (map e_id es) -> In e es -> id_is es (e_id e) p = p e.
Proof. intros es e p Hnd He. apply (existsb_key e_id p es es e Hnd (incl_refl es) He). Qed.
Lemma class_readable_char : forall u acps P es e, NoDup (map e_id es) -> In e es -> P e = true ->
  memN A_CLASS (e_attrs e) = true ->
  class_readable (map (spec_release u acps None) (filter P es)) (e_id e) = may_read u acps e A_CLASS.
Proof.
  intros u acps P es e Hnd He HP Hc. unfold class_readable.
  rewrite (existsb_key fst (fun r => memN A_CLASS (snd r)) (map (spec_release u acps None) es) _
             (spec_release u acps None e)).
  - apply eq_true_iff_eq. cbn [spec_release snd requested andb]. rewrite memN_In, filter_In, <- memN_In, Hc. tauto.
  - rewrite map_map. exact Hnd.
  - apply incl_map, incl_filter.
  - apply in_map, filter_In. split; assumption.
Qed.

Lemma wf_world_inv : forall w, wf_world w = true ->
  (forall e, In e (w_es w) -> wf3 e) /\ NoDup (map e_id (w_es w)).
Proof.
  intros w H. unfold wf_world in H. apply andb_true_iff in H as [H1 H2]. split.
  - intros e He. apply wf40_wf3. apply (proj1 (forallb_forall _ _) H1 e He).
  - apply nodupN_NoDup. exact H2.
Qed.

(* [ldap_search_char] on the result lists, from the two native results; an identity that is no reader
   gets nothing on either side *)
Lemma ldap_from_native : forall i usr acps f ext req es,
  i_origin i = OUser usr -> (forall e, In e es -> wf3 e) -> NoDup (map e_id es) ->
  fattrs (nat_filter f ext) <> [] ->
  exists nreq nall,
    native i acps f ext req es = Some nreq /\ native i acps f ext None es = Some nall
    /\ ldap_search i acps f ext req es = Some (minus_schema_classless es nall nreq).
Proof.
  intros i usr acps f ext req es Ho Hwf Hnd Hne. destruct (reader i) as [u|] eqn:Hr.
  - do 2 eexists. split; [apply (native_char i u), Hr|]. split; [apply (native_char i u), Hr|].
    rewrite (ldap_search_char i u acps f ext req es Hr Hwf Hne). f_equal.
    unfold minus_schema_classless. rewrite filter_map_comm. f_equal.
    apply filter_ext_in. intros e He. apply filter_In in He as [He HP]. unfold ldap_keeps.
    change (fst (spec_release u acps req e)) with (e_id e).
    rewrite (id_is_char es e schema_or_acp Hnd He), (class_readable_char u acps _ es e Hnd He HP); [reflexivity|].
    apply (Hwf e He).
  - exists [], []. unfold native, ldap_search. rewrite !(search_ext_denied i usr) by assumption.
    repeat split; reflexivity.
Qed.

(* where [needs_native] is false the scope selects nothing, and no native twin is asked for *)
Lemma do_search_entries : forall w s b sc f req l bnd, do_search w s b sc f req = SoEntries l ->
  if needs_native (OpSearch b sc f req) (REntries bnd l)
  then exists ext i acps,
         ext_filter sc (match b with BRdn x => Some x | _ => None end) = Some ext
         /\ effective w s = Ok (i, acps) /\ ldap_search i acps f ext req (w_es w) = Some l
  else l = [].
Proof.
  intros w s b sc f req l bnd H. unfold do_search in H.
  destruct b as [| |x|], sc; try discriminate; cbn [needs_native ext_filter] in *.
  (* below an rdn, scopes one and children answer with no entries *)
  all: try (injection H as <-; reflexivity).
  all: destruct (effective w s) as [[i acps]|e]; [|discriminate].
  all: destruct (ldap_search i acps f _ req (w_es w)) as [l'|] eqn:El; [|discriminate].
  all: injection H as <-; eexists; exists i, acps; repeat split; exact El.
Qed.

(* the session a search or compare runs with: the connection's token, or on an unbound connection
   the session of the implicit anonymous bind, which the response then carries *)
Definition runs_as (cur bnd : option session) (s : session) : Prop :=
  (cur = Some s /\ bnd = None) \/ (cur = None /\ bnd = Some s /\ s = SUnix UUID_ANON).
Lemma runs_as_inv : forall cur bnd s, runs_as cur bnd s ->
  match bnd with Some s' => session_eqb s' (SUnix UUID_ANON) | None => true end = true
  /\ (forall l, op_session cur (REntries bnd l) = Some s)
  /\ (forall c, op_session cur (RCompare bnd c) = Some s).
Proof. intros cur bnd s [[-> ->] | [-> [-> ->]]]; repeat split. Qed.

Definition search_resp (bnd : option session) (x : sout) : resp :=
  match x with SoErr e => RErr e | SoRoot => RRootDse bnd | SoEntries l => REntries bnd l end.

Lemma search_obs_ok : forall w cur bnd s b sc f req nex,
  wf_world w = true -> fattrs f <> [] -> runs_as cur bnd s ->
  let o := OpSearch b sc f req in
  let r := search_resp bnd (do_search w s b sc f req) in
  obs_ok false w (mkO o r false (native_of w cur o r) nex) = true.
Proof.
  intros w cur bnd s b sc f req nex Hw Hf Hrun o r. subst o r.
  destruct (wf_world_inv w Hw) as [Hwf Hnd]. destruct (runs_as_inv cur bnd s Hrun) as [Hm [Hs _]].
  unfold obs_ok. cbn [o_op o_resp o_changed o_native negb andb].
  destruct (do_search w s b sc f req) as [e| |l] eqn:Ed; cbn [search_resp]; [reflexivity | exact Hm |].
  rewrite Hm. cbn [andb]. pose proof (do_search_entries w s b sc f req l bnd Ed) as Hc.
  destruct (needs_native _ _); [|subst l; reflexivity].
  destruct Hc as [ext [i [acps [Hx [He Hl]]]]].
  apply effective_prescribed in He. destruct (prescribed_user w s i acps He) as [usr Ho].
  destruct (ldap_from_native i usr acps f ext req (w_es w) Ho Hwf Hnd (nat_filter_attrs f ext Hf))
    as [nreq [nall [H1 [H2 H3]]]].
  unfold native_of. rewrite Hs, He, Hx, H1, H2. rewrite H3 in Hl. injection Hl as <-. apply ext_eqb_refl.
Qed.

Lemma exists_ldap_native : forall i usr acps f ext es,
  i_origin i = OUser usr -> (forall e, In e es -> wf3 e) -> fattrs (nat_filter f ext) <> [] ->
  exists_ i acps MHidden (ldap_search_filter f ext) es = true ->
  exists_ i acps MHidden (nat_filter f ext) es = true.
Proof.
  intros i usr acps f ext es Ho Hwf Hne H. destruct (reader i) as [u|] eqn:Hr.
  - rewrite (exists_spec i u) in H |- * by exact Hr.
    apply existsb_exists in H as [e [He Hs]]. apply existsb_exists. exists e. split; [exact He|].
    rewrite (reveals_ldap u acps f ext e (Hwf e He) Hne) in Hs. apply andb_true_iff in Hs. apply Hs.
  - rewrite (exists_denied i acps _ _ es Hr (not_internal i _ Ho I)) in H. discriminate.
Qed.

(* ldap_compare's two filters are ldap_search_filter dn (Some ava) and ldap_search_filter dn None *)
Lemma compare_core : forall i usr acps dn ava es,
  i_origin i = OUser usr -> (forall e, In e es -> wf3 e) -> fattrs dn <> [] ->
  let c := ldap_compare i acps dn ava es in
  (if c =? 0 then exists_ i acps MHidden (FAnd [dn; ava] None) es
   else if c =? 1 then exists_ i acps MHidden dn es else c =? 2) = true.
Proof.
  intros i usr acps dn ava es Ho Hwf Hne c. subst c. unfold ldap_compare.
  destruct (exists_ i acps MHidden (FAnd [dn; ava; ldap_excl] None) es) eqn:E1.
  - apply (exists_ldap_native i usr acps dn (Some ava) es Ho Hwf (nat_filter_attrs dn _ Hne) E1).
  - destruct (exists_ i acps MHidden (FAnd [dn; ldap_excl] None) es) eqn:E2; [|reflexivity].
    apply (exists_ldap_native i usr acps dn None es Ho Hwf Hne E2).
Qed.

Definition compare_resp (bnd : option session) (x : res N) : resp :=
  match x with Ok c => RCompare bnd c | Err e => RErr e end.

Lemma compare_obs_ok : forall w cur bnd s b ava nat,
  wf_world w = true -> op_wf (OpCompare b ava) = true -> runs_as cur bnd s ->
  let o := OpCompare b ava in
  let r := compare_resp bnd (do_compare w s b ava) in
  obs_ok false w (mkO o r false nat (nexists_of w cur o r)) = true.
Proof.
  intros w cur bnd s b ava nat Hw Hwf Hrun o r. subst o r.
  destruct (wf_world_inv w Hw) as [Hwf3 _]. destruct (runs_as_inv cur bnd s Hrun) as [Hm [_ Hs]].
  unfold obs_ok, do_compare. cbn [o_op o_resp o_changed o_nexists negb andb].
  destruct b as [| |dn|]; try reflexivity.
  destruct (effective w s) as [[i acps]|e] eqn:Ee; [|reflexivity]. cbn [compare_resp].
  apply effective_prescribed in Ee. destruct (prescribed_user w s i acps Ee) as [usr Ho].
  cbn [op_wf] in Hwf. apply negb_true_iff in Hwf.
  assert (Hne : fattrs dn <> []) by (intros Hz; rewrite Hz in Hwf; discriminate).
  unfold nexists_of. rewrite Hm, Hs, Ee. apply (compare_core i usr acps dn ava (w_es w) Ho Hwf3 Hne).
Qed.

Lemma obs_ok_run : forall w cur o, wf_world w = true -> op_wf o = true ->
  let r := do_op w cur o in
  obs_ok false w (mkO o r false (native_of w cur o r) (nexists_of w cur o r)) = true.
Proof.
  intros w cur o Hw Hwf r. subst r. destruct o as [dn pw|b sc f req| |b ava|]; cbn [do_op].
  - destruct (do_bind w dn pw) as [[s|]|e] eqn:E; [apply (do_bind_ok w dn pw s E) | reflexivity..].
  - cbn [op_wf] in Hwf. apply negb_true_iff in Hwf.
    assert (Hf : fattrs f <> []) by (intros Hz; rewrite Hz in Hwf; discriminate).
    destruct cur as [s|]; [apply (search_obs_ok w (Some s) None s); auto; left; auto|].
    destruct (do_bind w [] []) as [[s|]|e] eqn:Eb; [|reflexivity..].
    apply (search_obs_ok w None (Some s) s); auto. right. repeat split. apply (implicit_bind w s Eb).
  - reflexivity.
  - destruct cur as [s|]; [apply (compare_obs_ok w (Some s) None s); auto; left; auto|].
    destruct (do_bind w [] []) as [[s|]|e] eqn:Eb; [|reflexivity..].
    apply (compare_obs_ok w None (Some s) s); auto. right. repeat split. apply (implicit_bind w s Eb).
  - reflexivity.
Qed.

Lemma run_exact : forall w os cur,
  wf_world w = true -> run_obs w cur os = true -> run_native w cur os = true ->
  forallb (fun o => op_wf (o_op o)) os = true ->
  forallb (fun o => negb (o_changed o)) os = true ->
  forallb (obs_ok false w) os = true.
Proof.
  intros w os. induction os as [|[o r ch nat nex] os IH]; intros cur Hw Ho Hn Hwf Hc; [reflexivity|].
  cbn [run_obs run_native forallb o_op o_resp o_changed o_native o_nexists] in *.
  apply andb_true_iff in Ho as [Ho1 Ho2]. apply andb_true_iff in Hn as [Hn1 Hn3].
  apply andb_true_iff in Hn1 as [Hn1 Hn2]. apply andb_true_iff in Hwf as [Hwf1 Hwf2].
  apply andb_true_iff in Hc as [Hc1 Hc2].
  apply resp_eqb_eq in Ho1. apply onat_eqb_eq in Hn1. apply onex_eqb_eq in Hn2. apply negb_true_iff in Hc1.
  subst r nat nex ch. rewrite (obs_ok_run w cur o Hw Hwf1). apply (IH _ Hw Ho2 Hn3 Hwf2 Hc2).
Qed.

Lemma agree_exact : forall c, agree c = true -> pcheck_exact c = true.
Proof.
  intros [w cur0 os] H. unfold agree in H. rewrite !andb_true_iff in H.
  destruct H as [[[[Hw Ho] Hn] Hwf] Hc]. apply (run_exact w os cur0 Hw Ho Hn Hwf Hc).
Qed.

Lemma partial_full : forall es l nat, has_classless es nat = false ->
  search_partial_ok es l nat = true -> search_full_ok es l nat = true.
Proof.
  intros es l [[nreq nall]|] Hh Hp; [|discriminate]. cbn [search_partial_ok search_full_ok has_classless] in *.
  apply ext_eqb_eq in Hp. subst l.
  assert (E : minus_schema_classless es nall nreq = minus_schema es nreq).
  { apply filter_ext_in. intros r Hr. pose proof (existsb_false _ _ Hh r Hr) as Hx. cbn beta in Hx.
    destruct (negb (id_is es (fst r) schema_or_acp)), (class_readable nall (fst r)); try reflexivity; discriminate. }
  rewrite E. apply ext_eqb_refl.
Qed.

Lemma obs_ok_full : forall w o,
  (needs_native (o_op o) (o_resp o) && has_classless (w_es w) (o_native o)) = false ->
  obs_ok false w o = true -> obs_ok true w o = true.
Proof.
  intros w o Hk H. unfold obs_ok in *. apply andb_true_iff in H as [H1 H2]. rewrite H1. cbn [andb].
  destruct (o_op o) as [dn pw|b sc f req| |b ava|]; try exact H2.
  destruct (o_resp o) as [s| |e|bd|bd l|bd c| |bb]; try exact H2.
  apply andb_true_iff in H2 as [H2 H3]. rewrite H2. cbn [andb].
  destruct (needs_native (OpSearch b sc f req) (REntries bd l)) eqn:En; [|exact H3].
  cbn [andb] in Hk. apply (partial_full _ _ _ Hk H3).
Qed.

Lemma exact_stated_or_known : forall c, pcheck_exact c = true -> pcheck c = true \/ known c = true.
Proof.
  intros [w cur0 os] H.
  destruct (existsb (fun o => needs_native (o_op o) (o_resp o) && has_classless (w_es w) (o_native o)) os) eqn:E.
  - right. unfold known. rewrite H, E. reflexivity.
  - left. unfold pcheck. unfold pcheck_exact in H. apply forallb_forall. intros o Ho.
    apply obs_ok_full; [apply (existsb_false _ _ E o Ho) | apply (proj1 (forallb_forall _ _) H o Ho)].
Qed.
