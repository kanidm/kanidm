(* Vocabulary. `world` = the facts the gateway reads (unix-bind flag, name index, accounts with the
   secrets their credentials verify, applications, verifiable tokens, possible identities, entries).
   `do_op w cur o` = LdapServer::do_op with the connection's current token `cur`.
   `effective w s` = validate_ldap_session. `ldap_search` / `native` = KV.C23.Model searches.
   All statements hold for ANY world, ANY bind DN / secret bytes, ANY filters, ANY operation lists. *)
From Coq Require Import List NArith Bool.
Import ListNotations.
Require Import KV.Base.Filter KV.C23.Model KV.C23.Proofs KV.C40.Model KV.C40.Proofs.
Open Scope N_scope.

(* Whatever operations a connection performs (the five constructors of `op` are the five of
   ldap3_proto's ServerOps; the hook's exhaustive match stops compiling when one is added), the
   directory facts are the same afterwards: no operation yields a new directory. On the
   implementation side the harness fingerprints the whole database around every operation;
   C40_agree_no_write: a case only agrees when no fingerprint changed. *)
Theorem C40_no_write : forall ops w cur, fst (steps (w, cur) ops) = w.
Proof. intros ops w cur. exact (steps_world ops (w, cur)). Qed.
Theorem C40_agree_no_write : forall w cur0 os o,
  agree (CConn w cur0 os) = true -> In o os -> o_changed o = false.
Proof.
  intros w cur0 os o H Hin. unfold agree in H. apply andb_true_iff in H as [_ H].
  apply (proj1 (forallb_forall _ _) H) in Hin. apply negb_true_iff in Hin. exact Hin.
Qed.

(* A bind that is not a token bind yields a UnixBind session ... *)
Theorem C40_pw_bind_session : forall w dn pw s,
  do_bind w dn pw = Ok (Some s) -> bind_target w dn pw <> Ok TToken -> exists u, s = SUnix u.
Proof.
  intros w dn pw s H Hn. unfold do_bind in H.
  destruct (bind_target w dn pw) as [[u| |an u]|e]; [| contradiction Hn; reflexivity | | discriminate].
  - destruct (auth_ldap_some w u pw s H) as [-> _]. exists u. reflexivity.
  - destruct (app_auth_some w an u pw s H) as [-> _]. exists u. reflexivity.
Qed.
(* ... and every operation of such a session runs as the ANONYMOUS entry with read-only scope,
   whoever bound: the identity does not depend on the account at all. *)
Theorem C40_pw_bind_is_anonymous : forall w u i acps,
  effective w (SUnix u) = Ok (i, acps) ->
  exists anon, assoc_n UUID_ANON (w_prin w) = Some (anon, acps) /\ i = mkI (OUser anon) ScRO.
Proof.
  intros w u i acps H. apply effective_prescribed in H. unfold prescribed in H.
  destruct (assoc_n UUID_ANON (w_prin w)) as [[anon a]|]; [|discriminate].
  injection H as <- <-. exists anon. split; reflexivity.
Qed.
(* Hence a password session sees exactly what an anonymous bind sees, in every search and compare
   (the only difference it can make: the session dies when the bound account is gone or expired).
   That both sessions resolve to the same `x` is no restriction: the theorem after this one. *)
Theorem C40_pw_session_equals_anonymous : forall w u x b sc f req ava,
  effective w (SUnix u) = Ok x -> effective w (SUnix UUID_ANON) = Ok x ->
  do_search w (SUnix u) b sc f req = do_search w (SUnix UUID_ANON) b sc f req
  /\ do_compare w (SUnix u) b ava = do_compare w (SUnix UUID_ANON) b ava.
Proof.
  intros w u x b sc f req ava H1 H2. unfold do_search, do_compare. rewrite H1, H2. split; reflexivity.
Qed.
Theorem C40_pw_session_identity_unique : forall w u x y,
  effective w (SUnix u) = Ok x -> effective w (SUnix UUID_ANON) = Ok y -> x = y.
Proof.
  intros w u x y H1 H2. apply effective_prescribed in H1, H2. cbn [prescribed] in H1, H2. congruence.
Qed.
(* a password session is only usable while the account that bound is a valid account *)
Theorem C40_pw_session_needs_valid_account : forall w u x,
  effective w (SUnix u) = Ok x ->
  exists a, find_acct w u = Some a /\ ac_account a = true /\ ac_valid a = true.
Proof.
  intros w u x H. unfold effective in H. destruct (find_acct w u) as [a|]; [|discriminate]. exists a.
  destruct (ac_account a); [|discriminate]. destruct (ac_valid a); [|discriminate]. repeat split.
Qed.

(* A POSIX password bind (any account but anonymous) is refused while the domain's unix-bind flag is
   off, whatever the secret. *)
Theorem C40_unix_bind_needs_flag : forall w dn pw u,
  w_flag w = false -> bind_target w dn pw = Ok (TAccount u) -> u <> UUID_ANON ->
  do_bind w dn pw = Ok None.
Proof.
  intros w dn pw u Hf Ht Hu. unfold do_bind, auth_ldap. apply N.eqb_neq in Hu. rewrite Ht, Hu, Hf. reflexivity.
Qed.
(* and when one succeeds, the flag is on and the secret is the account's POSIX password (or, under
   the fallback policy and without a POSIX password, its primary password), the account is valid
   and not soft locked *)
Theorem C40_unix_bind_sound : forall w dn pw u s,
  bind_target w dn pw = Ok (TAccount u) -> do_bind w dn pw = Ok (Some s) ->
  s = SUnix u /\ (u = UUID_ANON \/ (w_flag w = true /\ unix_secret_ok w u pw = true)).
Proof.
  intros w dn pw u s Ht H. unfold do_bind in H. rewrite Ht in H. apply auth_ldap_some. exact H.
Qed.

(* An application bind succeeds only for a valid account (not anonymous) that is a member of the
   application's linked group and holds an application password of that application equal to the
   secret. *)
Theorem C40_app_bind_needs_group : forall w dn pw an u s,
  bind_target w dn pw = Ok (TApp an u) -> do_bind w dn pw = Ok (Some s) ->
  s = SUnix u /\ u <> UUID_ANON /\
  exists a ap, find_acct w u = Some a /\ ac_account a = true /\ ac_valid a = true
    /\ find_app w an = Some ap /\ memN (ap_group ap) (ac_mo a) = true
    /\ existsb (fun p => (fst p =? ap_id ap) && str_eqb (snd p) pw) (ac_apppw a) = true.
Proof.
  intros w dn pw an u s Ht H. unfold do_bind in H. rewrite Ht in H. apply app_auth_some. exact H.
Qed.

(* every successful bind presented a secret that proves the bound identity (the predicate the run
   evaluates on the implementation's answers) *)
Theorem C40_bind_proves_identity : forall w dn pw s,
  do_bind w dn pw = Ok (Some s) -> bind_ok w pw s = true.
Proof. exact do_bind_ok. Qed.

(* an operation on an unbound connection binds anonymously and nothing else *)
Theorem C40_implicit_bind_is_anonymous : forall w s, do_bind w [] [] = Ok (Some s) -> s = SUnix UUID_ANON.
Proof. exact implicit_bind. Qed.

(* The statement of the property: the gateway returns what the native search with the client's
   filter returns to the same identity, minus schema and access-control entries. *)
Definition C40_full_statement : Prop := search_full_statement.

(* It does NOT hold of the code: the gateway names `class` in the caller's filter (its exclusion
   term), so an entry whose `class` the identity may not read is hidden although the native search
   shows it (witness: a profile that lets anonymous read only `name` of an OAuth2 client). *)
Theorem C40_refuted : ~ C40_full_statement.
Proof.
  intros H.
  assert (Hwf : forall e, In e [cx_entry] -> wf3 e).
  { intros e [<-|[]]. unfold wf3. vm_compute. repeat split; reflexivity. }
  specialize (H cx_ident cx_user cx_acps cx_filter None None [cx_entry] eq_refl Hwf).
  vm_compute in H. discriminate H. discriminate.
Qed.

(* What holds (missing for the full statement: entries with unreadable `class`): the gateway returns
   EXACTLY the native result restricted to entries that are no schema / profile entry AND whose
   `class` is readable, with exactly the same attributes per entry. *)
Theorem C40_search_eq_native_partial : forall i u acps f ext req es,
  reader i = Some u -> (forall e, In e es -> wf3 e) -> fattrs (nat_filter f ext) <> [] ->
  ldap_search i acps f ext req es
  = Some (map (spec_release u acps req)
       (filter (fun e => negb (schema_or_acp e) && may_read u acps e A_CLASS)
          (filter (spec_reveals u acps MHidden (nat_filter f ext)) es)))
  /\ native i acps f ext req es
  = Some (map (spec_release u acps req) (filter (spec_reveals u acps MHidden (nat_filter f ext)) es)).
Proof.
  intros i u acps f ext req es Hr Hwf Hne. split.
  - apply ldap_search_char; assumption.
  - apply native_char. assumption.
Qed.
(* so the equation of the full statement (whose `match` on the native result takes the `Some` branch
   for every reader) holds on every directory where `class` is readable on the entries the native
   search shows *)
Theorem C40_search_eq_native_when_class_readable : forall i u acps f ext req es,
  reader i = Some u -> (forall e, In e es -> wf3 e) -> fattrs (nat_filter f ext) <> [] ->
  (forall e, In e es -> spec_reveals u acps MHidden (nat_filter f ext) e = true ->
             schema_or_acp e = false -> may_read u acps e A_CLASS = true) ->
  ldap_search i acps f ext req es
  = Some (map (spec_release u acps req)
       (filter (fun e => negb (schema_or_acp e))
          (filter (spec_reveals u acps MHidden (nat_filter f ext)) es))).
Proof.
  intros i u acps f ext req es Hr Hwf Hne Hc.
  rewrite (ldap_search_char i u acps f ext req es Hr Hwf Hne). do 2 f_equal.
  apply filter_ext_in. intros e He. apply filter_In in He as [He Hs]. unfold ldap_keeps.
  destruct (schema_or_acp e) eqn:Es; [reflexivity|]. rewrite (Hc e He Hs Es). reflexivity.
Qed.
(* the security direction, unconditionally: the gateway never shows an entry or attribute that the
   native search by the same identity does not show, and never a schema / profile entry *)
Theorem C40_ldap_never_shows_more : forall i u acps f ext req es l r,
  reader i = Some u -> (forall e, In e es -> wf3 e) -> fattrs (nat_filter f ext) <> [] ->
  ldap_search i acps f ext req es = Some l -> In r l ->
  exists n e, native i acps f ext req es = Some n /\ In r n
              /\ In e es /\ e_id e = fst r /\ schema_or_acp e = false.
Proof.
  intros i u acps f ext req es l r Hr Hwf Hne Hs Hin.
  rewrite (ldap_search_char i u acps f ext req es Hr Hwf Hne) in Hs. injection Hs as <-.
  apply in_map_iff in Hin as [e [<- Hin]]. apply filter_In in Hin as [Hin Hk].
  exists (map (spec_release u acps req) (filter (spec_reveals u acps MHidden (nat_filter f ext)) es)), e.
  split; [apply native_char; exact Hr|]. split; [apply in_map; exact Hin|].
  apply filter_In in Hin as [He _]. repeat split; try assumption.
  unfold ldap_keeps in Hk. apply andb_true_iff in Hk as [Hk _]. apply negb_true_iff in Hk. exact Hk.
Qed.

(* Whenever the implementation's answers agree with the model on a connection (and the case data
   is coherent), every answer of the IMPLEMENTATION satisfies the property's executable predicate
   in its exact form (`obs_ok false`: binds proved their identity, nothing was written, implicit
   binds are anonymous, each search equals the native search by the prescribed identity minus
   schema / profile entries and entries with unreadable `class`, each compare answer is backed by
   the native existence check). *)
Theorem C40_agree_implies_exact : forall c : case, agree c = true -> pcheck_exact c = true.
Proof. exact agree_exact. Qed.
(* hence the stated predicate `pcheck` can only fail inside the recorded class `known` *)
Theorem C40_agree_implies_property : forall c : case,
  agree c = true -> pcheck c = true \/ known c = true.
Proof. intros c H. apply exact_stated_or_known, agree_exact, H. Qed.
(* and inside the recorded class nothing else is wrong: `known` includes the exact predicate *)
Theorem C40_known_is_exact : forall c : case, known c = true -> pcheck_exact c = true.
Proof. intros [w cur0 os] H. unfold known in H. apply andb_true_iff in H as [H _]. exact H. Qed.
