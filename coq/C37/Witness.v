(* Non-vacuity: concrete histories meeting the hypotheses of the implication theorems. *)
From Coq Require Import List NArith Bool Lia.
Import ListNotations.
Require Import KV.C37.Model KV.C37.Proofs.
Open Scope N_scope.

(* one link on account 0 (which has password 1): exchanged twice, the second session sets password 2
   and commits; then everything else is tried *)
Definition w_ops : list op :=
  [ OInit 0 (Some 0) 10;                 (* link 0, expiry 10 + 300 s *)
    OExchange 0 11;                      (* session 0 *)
    OSetPw 0 900000000011 3 12;
    OExchange 0 13;                      (* session 1 supersedes session 0 *)
    OSetPw 1 900000000013 2 14;
    OCommit 0 900000000011 15;           (* refused: superseded *)
    OCommit 1 900000000013 16;           (* accepted *)
    OCommit 1 900000000013 17;           (* refused: session gone *)
    OExchange 0 18;                      (* refused: consumed *)
    OCancel 1 900000000013 19;
    ORevoke 0 20 ].

Definition results (tr : list (st * op * res)) : list res := map (fun e => snd e) tr.

Example C37_witness_history :
  results (trace (init 1 0) w_ops) =
  [ RIntent 300000000010; RTok 0 900000000011; ROk; RTok 1 900000000013; ROk;
    RErr EConflict; ROk; RErr EInvalidState; RErr ESessionExpired; RErr EInvalidState; RErr EEmptyRequest ]
  /\ ncommits 0 (trace (init 1 0) w_ops) = 1%nat
  /\ cred0 (run (init 1 0) w_ops) = 2
  /\ wf (init 1 0).
Proof. split; [vm_compute; reflexivity|]. split; [vm_compute; reflexivity|]. split; [vm_compute; reflexivity | apply wf_init]. Qed.

(* hypotheses of C37_no_exchange_after_commit: an accepted commit of link 0 followed by an exchange of link 0 *)
Example C37_witness_commit_then_exchange :
  exists tr1 e tr2, trace (init 1 0) w_ops = tr1 ++ e :: tr2 /\ commits_on 0 e = true /\
    exists s' ct r, In (s', OExchange 0 ct, r) tr2.
Proof.
  exists (firstn 6 (trace (init 1 0) w_ops)), (nth 6 (trace (init 1 0) w_ops) (init 0 0, ORevoke 0 0, ROk)),
         (skipn 7 (trace (init 1 0) w_ops)).
  split; [vm_compute; reflexivity|]. split; [vm_compute; reflexivity|].
  eexists _, 18, _. vm_compute. right. left. reflexivity.
Qed.

(* hypotheses of C37_superseded_cannot_commit: two accepted exchanges of link 0, then a commit of the first session *)
Example C37_witness_superseded :
  exists tr1 s1 tr2 s3 tr3,
    trace (init 1 0) w_ops = tr1 ++ (s1, OExchange 0 11, RTok 0 900000000011) :: tr2
                                 ++ (s3, OExchange 0 13, RTok 1 900000000013) :: tr3 /\
    exists s', In (s', OCommit 0 900000000011 15, RErr EConflict) tr3.
Proof.
  set (tr := trace (init 1 0) w_ops).
  exists (firstn 1 tr), (fst (fst (nth 1 tr (init 0 0, ORevoke 0 0, ROk)))),
         (firstn 1 (skipn 2 tr)), (fst (fst (nth 3 tr (init 0 0, ORevoke 0 0, ROk)))), (skipn 4 tr).
  split; [vm_compute; reflexivity|].
  eexists. vm_compute. right. left. reflexivity.
Qed.

(* hypotheses of C37_no_exchange_after_expiry: 1 ns before the expiry the exchange is accepted,
   exactly at the expiry (and after a cancel in between) it is refused; presented again with the
   EARLIER time stamp after that refusal it is accepted once more (time going backwards) *)
Example C37_witness_expiry :
  results (trace (init 0 1)
    [ OInit 1 None 5; OExchange 0 3600000000004; OCancel 0 4500000000004 3600000000004;
      OExchange 0 3600000000005; OExchange 0 3600000000004 ])
  = [ RIntent 3600000000005; RTok 0 4500000000004; ROk; RErr ESessionExpired; RTok 1 4500000000004 ].
Proof. vm_compute. reflexivity. Qed.

(* hypothesis of C37_stale_session_cannot_commit: after a cancel the session is stale *)
Example C37_witness_stale :
  stale 0 0 (run (init 1 0) [OInit 0 None 5; OExchange 0 6; OCancel 0 900000000006 7]).
Proof.
  split; [split|].
  - vm_compute. reflexivity.
  - vm_compute. intros x [].
  - vm_compute. intros l [E|[]] _ m t. subst l. cbn. discriminate.
Qed.

(* two links on one account: the older, still pending session of link 0 writes back the OLD credential
   after link 1's session changed it — each link still commits once *)
Example C37_witness_two_links :
  let tr := trace (init 1 0)
    [ OInit 0 None 5; OInit 0 None 5; OExchange 0 6; OExchange 1 6;
      OSetPw 1 900000000006 2 7; OCommit 1 900000000006 8; OCommit 0 900000000006 9;
      OCommit 0 900000000006 9; OExchange 1 9 ] in
  results tr = [ RIntent 3600000000005; RIntent 3600000000005; RTok 0 900000000006; RTok 1 900000000006;
                 ROk; ROk; ROk; RErr EInvalidState; RErr ESessionExpired ]
  /\ ncommits 0 tr = 1%nat /\ ncommits 1 tr = 1%nat.
Proof. vm_compute. repeat split; reflexivity. Qed.

(* a correspondence case as the harness prints it: agree and pcheck both hold *)
Example C37_witness_agree :
  let c := CHist 1 0
    [ (OInit 0 (Some 0) 10, RIntent 300000000010, ([(0, 0, LValid 300000000010)], 1, 0));
      (OExchange 0 11, RTok 0 900000000011, ([(0, 0, LInProgress 300000000010 0 900000000011)], 1, 0));
      (OSetPw 0 900000000011 2 12, ROk, ([(0, 0, LInProgress 300000000010 0 900000000011)], 1, 0));
      (OCommit 0 900000000011 13, ROk, ([(0, 0, LConsumed 300000000010)], 2, 0));
      (OExchange 0 14, RErr ESessionExpired, ([(0, 0, LConsumed 300000000010)], 2, 0)) ] in
  agree c = true /\ pcheck c = true.
Proof. vm_compute. split; reflexivity. Qed.

(* the monitor is not trivially true: an exchange after a commit, a commit by a superseded session,
   an exchange at the expiry instant, a credential change without a commit and a second accepted
   commit are all rejected by pcheck *)
Example C37_witness_monitor_rejects :
  pcheck (CHist 1 0
    [ (OInit 0 None 10, RIntent 100, ([], 1, 0)); (OExchange 0 11, RTok 0 50, ([], 1, 0));
      (OCommit 0 50 12, ROk, ([], 2, 0)); (OExchange 0 13, RTok 1 60, ([], 2, 0)) ]) = false
  /\ pcheck (CHist 1 0
    [ (OInit 0 None 10, RIntent 100, ([], 1, 0)); (OExchange 0 11, RTok 0 50, ([], 1, 0));
      (OExchange 0 12, RTok 1 60, ([], 1, 0)); (OCommit 0 50 13, ROk, ([], 2, 0)) ]) = false
  /\ pcheck (CHist 1 0
    [ (OInit 0 None 10, RIntent 100, ([], 1, 0)); (OExchange 0 100, RTok 0 50, ([], 1, 0)) ]) = false
  /\ pcheck (CHist 1 0
    [ (OInit 0 None 10, RIntent 100, ([], 1, 0)); (OExchange 0 11, RTok 0 50, ([], 2, 0)) ]) = false
  /\ pcheck (CHist 1 0
    [ (OInit 0 None 10, RIntent 100, ([], 1, 0)); (OExchange 0 11, RTok 0 50, ([], 1, 0));
      (OCommit 0 50 12, ROk, ([], 2, 0)); (OExchange 0 13, RErr ESessionExpired, ([], 2, 0));
      (OCommit 0 50 14, ROk, ([], 3, 0)) ]) = false.
Proof. vm_compute. repeat split; reflexivity. Qed.
