(* Vocabulary (Model.v, Proofs.v): [step s o] = (state after, result) of
   one server call at its harness-chosen time; [trace s ops] = the list of (state before, op, result) of a history;
   [commits_on k e] = trace entry e is an ACCEPTED commit of a session started from link k;
   [ncommits k tr] = how many entries of tr are such commits; [is_err r] = the call was refused;
   [wf s] = link ids are below the link counter and session ids below the session counter (holds
   of [init], kept by every call); [stale sid k s] = session id sid was issued for link k and no
   copy of link k is waiting for it.  Every theorem quantifies over ALL op lists (any length, any
   interleaving of init / exchange / set-password / commit / cancel / revoke, any number of links and
   sessions, ARBITRARY time stamps incl. regressions, arbitrary — even forged — session tokens). *)
From Coq Require Import List NArith Bool Lia.
Import ListNotations.
Require Import KV.C37.Model KV.C37.Proofs.
Open Scope N_scope.

(* A reset link leads to at most one accepted commit: in any history from any well-formed state
   (in particular from the initial one), the accepted commits that belong to link k number <= 1. *)
Theorem C37_at_most_one_commit : forall (s : st) (ops : list op) (k : N),
  wf s -> (ncommits k (trace s ops) <= 1)%nat.
Proof. intros s ops k H. apply ncommits_le_1. exact H. Qed.

Theorem C37_at_most_one_commit_from_init : forall c0 c1 ops k,
  (ncommits k (trace (init c0 c1) ops) <= 1)%nat.
Proof. intros. apply C37_at_most_one_commit, wf_init. Qed.

(* Stored credentials change ONLY through an accepted commit (so "at most one accepted commit per
   link" is "at most one committed credential change per link") ... *)
Theorem C37_credentials_change_only_by_commit : forall s o,
  is_commit o = false \/ is_err (snd (step s o)) ->
  cred0 (fst (step s o)) = cred0 s /\ cred1 (fst (step s o)) = cred1 s.
Proof.
  intros s o. destruct (step_outcome s o) as [e | s' r Ha]; cbn [fst snd fail]; [split; reflexivity|].
  intros [Hc | He]; [|destruct (accepted_ok _ _ _ _ Ha He)].
  destruct Ha; try discriminate Hc; split; reflexivity.
Qed.

(* ... which writes the credential staged in that session to that session's account and to no other. *)
Theorem C37_commit_writes_staged : forall s sid mttl ct,
  snd (step s (OCommit sid mttl ct)) = ROk ->
  exists x, find_sess sid (sessions s) = Some x /\
    get_cred (s_acct x) (fst (step s (OCommit sid mttl ct))) = s_staged x /\
    (s_acct x = 0 -> cred1 (fst (step s (OCommit sid mttl ct))) = cred1 s) /\
    (s_acct x <> 0 -> cred0 (fst (step s (OCommit sid mttl ct))) = cred0 s).
Proof.
  intros s sid mttl ct. destruct (step_outcome s (OCommit sid mttl ct)) as [e | s' r Ha]; [discriminate|].
  inversion Ha as [| | | ? ? ? x l m t _ Hx _ _ _ | |]; subst. intros _. exists x. split; [exact Hx|].
  unfold get_cred, set_cred. cbn.
  destruct (N.eqb_spec (s_acct x) 0); cbn; repeat split; auto; intros; congruence.
Qed.

(* A refused call changes nothing at all (links, sessions, credentials). *)
Theorem C37_refused_changes_nothing : forall s o, is_err (snd (step s o)) -> fst (step s o) = s.
Proof.
  intros s o. destruct (step_outcome s o) as [e | s' r Ha]; [reflexivity|].
  intros He. destruct (accepted_ok _ _ _ _ Ha He).
Qed.

(* Once a commit for link k has been accepted, no later exchange of link k is accepted. *)
Theorem C37_no_exchange_after_commit : forall s ops k tr1 e tr2,
  wf s -> trace s ops = tr1 ++ e :: tr2 -> commits_on k e = true ->
  forall s' ct r, In (s', OExchange k ct, r) tr2 -> is_err r.
Proof.
  intros s ops k tr1 [[s1 o] r1] tr2 Hwf Ht Hc s' ct r Hin.
  destruct (trace_split wf wf_step _ _ _ _ _ _ _ Hwf Ht) as (Hwf1 & -> & ops2 & ->).
  destruct (trace_inv _ (dead_step k) _ _ (commit_makes_dead k _ _ Hwf1 Hc) _ _ _ Hin) as [Hd ->].
  apply dead_no_exchange, Hd.
Qed.

(* The link created by an init at time ct0 expires at e = ct0 + clamp(ttl) with
   300 s <= clamp <= 86400 s, and no later exchange of it at a time ct >= e is accepted
   (whatever happened in between: exchanges, cancels, other links, time going backwards). *)
Theorem C37_no_exchange_after_expiry : forall s ops tr1 s1 a ttl ct0 e tr2,
  wf s -> trace s ops = tr1 ++ (s1, OInit a ttl ct0, RIntent e) :: tr2 ->
  (e = ct0 + clamp_ttl ttl /\ ct0 + MIN_INTENT_TTL <= e <= ct0 + MAX_INTENT_TTL) /\
  forall s' ct r, In (s', OExchange (nlink s1) ct, r) tr2 -> e <= ct -> is_err r.
Proof.
  intros s ops tr1 s1 a ttl ct0 e tr2 Hwf Ht.
  destruct (trace_split wf wf_step _ _ _ _ _ _ _ Hwf Ht) as (Hwf1 & [= ->] & ops2 & ->).
  split; [split; [reflexivity | pose proof (clamp_bounds ttl); lia]|].
  intros s' ct r Hin Hle.
  destruct (trace_inv _ (expiry_step _ _) _ _ (init_expiry s1 a ttl ct0 Hwf1) _ _ _ Hin) as [Hx ->].
  exact (expired_no_exchange _ _ _ _ Hx Hle).
Qed.

(* A session superseded by a later accepted exchange of the same link can never commit:
   if link k was exchanged (session sid1) and later exchanged again (session sid2), then the two
   sessions differ and every commit presented for sid1 afterwards is refused — for any token ttl. *)
Theorem C37_superseded_cannot_commit :
  forall s ops k tr1 s1 ct1 sid1 m1 tr2 s3 ct2 sid2 m2 tr3,
  wf s ->
  trace s ops = tr1 ++ (s1, OExchange k ct1, RTok sid1 m1) :: tr2
                    ++ (s3, OExchange k ct2, RTok sid2 m2) :: tr3 ->
  sid1 <> sid2 /\
  forall s' mttl ct r, In (s', OCommit sid1 mttl ct, r) tr3 -> is_err r.
Proof.
  intros s ops k tr1 s1 ct1 sid1 m1 tr2 s3 ct2 sid2 m2 tr3 Hwf Ht.
  destruct (trace_split wf wf_step _ _ _ _ _ _ _ Hwf Ht) as (Hwf1 & Hr1 & ops2 & Ht2).
  destruct (exchange_owns _ _ _ _ _ Hwf1 (eq_sym Hr1)) as [_ Hown].
  (* up to the second exchange the state stays well-formed and sid1 stays a session of k *)
  assert (Hinv : invariant (fun s => wf s /\ owns sid1 k s))
    by (intros s0 o [H1 H2]; split; [apply wf_step, H1 | apply owns_step, H2]).
  destruct (trace_split _ Hinv _ _ _ _ _ _ _ (conj (wf_step _ _ Hwf1) Hown) (eq_sym Ht2))
    as ([Hwf3 Hown3] & Hr3 & ops4 & ->).
  destruct (exchange_owns _ _ _ _ _ Hwf3 (eq_sym Hr3)) as [-> _].
  split; [destruct Hown3; lia|].
  apply (stale_trace sid1 k). exact (exchange_supersedes _ _ _ _ _ _ Hown3 (eq_sym Hr3)).
Qed.

(* More generally: whenever link k is no longer waiting for session sid (superseded, cancelled,
   consumed, revoked or purged), sid can never commit again. *)
Theorem C37_stale_session_cannot_commit : forall sid k s ops,
  stale sid k s ->
  forall s' mttl ct r, In (s', OCommit sid mttl ct, r) (trace s ops) -> is_err r.
Proof. intros sid k s ops H. apply (stale_trace sid k). exact H. Qed.

(* Soundness of the run-time tie: whenever the implementation's observations (results, link states
   and stored credentials after every call) agree with the model, the single-use monitor — which
   is stated without the link state machine — accepts those observations. *)
Theorem C37_agree_implies_property : forall c : case, agree c = true -> pcheck c = true.
Proof.
  intros [c0 c1 steps | ttl ct out]; cbn [agree pcheck].
  - apply sim_run, R_init.
  - intros ->%N.eqb_eq. pose proof (clamp_bounds ttl).
    apply andb_true_iff. split; apply N.leb_le; lia.
Qed.
