(* Every fact about [step] is read off [step_outcome] (refused, or accepted with the guards' facts and the
   written state); the state of a single link moves by [lstep], so what holds for ever of one link (consumed,
   its expiry, not waiting for a session) is preserved by one lemma, [links_at_step]; [trace_split] /
   [trace_inv] carry such invariants along a history.  The bridge agree -> pcheck is a simulation [R] between
   the model state and the monitor. *)
From Coq Require Import List NArith Bool Lia.
Import ListNotations.
Require Import KV.C37.Model.
Open Scope N_scope.
Arguments N.add : simpl never.
Arguments N.mul : simpl never.
Arguments N.ltb : simpl never.
Arguments N.leb : simpl never.
Arguments N.eqb : simpl never.
Arguments N.sub : simpl never.
Arguments clamp_ttl : simpl never.
Arguments SESSION_TTL : simpl never.

Lemma find_eqb {A} (key : A -> N) k ls x :
  find (fun y => key y =? k) ls = Some x -> In x ls /\ key x = k.
Proof. intros H. apply find_some in H. rewrite N.eqb_eq in H. exact H. Qed.

Lemma find_link_in k ls l : find_link k ls = Some l -> In l ls /\ l_id l = k.
Proof. apply find_eqb. Qed.

Lemma find_sess_in sid ss x : find_sess sid ss = Some x -> In x ss /\ s_id x = sid.
Proof. apply find_eqb. Qed.

Lemma in_set_link k x ls l' :
  In l' (set_link k x ls) ->
  exists l, In l ls /\ l_id l' = l_id l /\ l_acct l' = l_acct l /\
            ((l_id l = k /\ l_st l' = x) \/ (l_id l <> k /\ l' = l)).
Proof.
  unfold set_link. intros (l & <- & Hin)%in_map_iff. exists l.
  destruct (N.eqb_spec (l_id l) k); cbn; auto 6.
Qed.

Lemma in_stage sid pw ss x' :
  In x' (stage sid pw ss) ->
  exists x, In x ss /\ s_id x' = s_id x /\ s_link x' = s_link x /\ s_acct x' = s_acct x.
Proof.
  unfold stage. intros (x & <- & Hin)%in_map_iff. exists x.
  destruct (s_id x =? sid); cbn; auto.
Qed.

Lemma in_del_sess sid ss x : In x (del_sess sid ss) -> In x ss /\ s_id x <> sid.
Proof.
  unfold del_sess. intros [Hin Hb]%filter_In. split; [exact Hin|].
  intros E. rewrite E, N.eqb_refl in Hb. discriminate.
Qed.

Definition is_err (r : res) : Prop := exists e, r = RErr e.
Definition is_commit (o : op) : bool := match o with OCommit _ _ _ => true | _ => false end.

(* [accepted s o s' r]: the server accepts o in state s; facts its guards have established (not all
   of them: set-password records none, cancel not its ttl test), the state it writes and the
   result it returns *)
Inductive accepted (s : st) : op -> st -> res -> Prop :=
| AInit a ttl ct :
    accepted s (OInit a ttl ct)
      (mkst (filter (fun l => negb ((l_acct l =? a) && (ls_mttl (l_st l) <=? ct))) (links s)
               ++ [mklink (nlink s) a (LValid (ct + clamp_ttl ttl))])
            (sessions s) (cred0 s) (cred1 s) (nlink s + 1) (nsid s))
      (RIntent (ct + clamp_ttl ttl))
| AExchange k ct l :
    find_link k (links s) = Some l -> (forall m, l_st l <> LConsumed m) -> ct < ls_mttl (l_st l) ->
    accepted s (OExchange k ct)
      (mkst (set_link k (LInProgress (ls_mttl (l_st l)) (nsid s) (ct + SESSION_TTL)) (links s))
            (filter (fun x => negb (s_exp x <? ct)) (sessions s)
               ++ [mksess (nsid s) (ct + SESSION_TTL) k (l_acct l) (get_cred (l_acct l) s)])
            (cred0 s) (cred1 s) (nlink s) (nsid s + 1))
      (RTok (nsid s) (ct + SESSION_TTL))
| ASetPw sid mttl pw ct :
    accepted s (OSetPw sid mttl pw ct)
      (mkst (links s) (stage sid pw (sessions s)) (cred0 s) (cred1 s) (nlink s) (nsid s)) ROk
| ACommit sid mttl ct x l m t :
    ct < mttl -> find_sess sid (sessions s) = Some x -> s_staged x <> 0 ->
    find_link (s_link x) (links s) = Some l -> l_st l = LInProgress m sid t ->
    accepted s (OCommit sid mttl ct)
      (mkst (set_link (s_link x) (LConsumed m) (links s)) (del_sess sid (sessions s))
            (fst (set_cred (s_acct x) (s_staged x) s)) (snd (set_cred (s_acct x) (s_staged x) s))
            (nlink s) (nsid s))
      ROk
| ACancel sid mttl ct x l m t :
    find_sess sid (sessions s) = Some x ->
    find_link (s_link x) (links s) = Some l -> l_st l = LInProgress m sid t ->
    accepted s (OCancel sid mttl ct)
      (mkst (set_link (s_link x) (LValid m) (links s)) (del_sess sid (sessions s))
            (cred0 s) (cred1 s) (nlink s) (nsid s))
      ROk
| ARevoke k ct l :
    find_link k (links s) = Some l ->
    accepted s (ORevoke k ct)
      (mkst (set_link k (LConsumed (ls_mttl (l_st l))) (links s)) (sessions s)
            (cred0 s) (cred1 s) (nlink s) (nsid s))
      ROk.

Inductive outcome (s : st) (o : op) : st * res -> Prop :=
| Refused e : outcome s o (fail s e)
| Accepted s' r : accepted s o s' r -> outcome s o (s', r).

Lemma step_outcome s o : outcome s o (step s o).
Proof.
  destruct o as [a ttl ct | k ct | sid mttl pw ct | sid mttl ct | sid mttl ct | k ct]; cbn [step].
  - apply Accepted, AInit.
  - destruct (find_link k (links s)) as [[id a [m|m sid t|m]]|] eqn:Hl; cbn [l_st l_acct];
      try apply Refused;
      (destruct (N.leb_spec m ct) as [|Hlt]; [apply Refused|]);
      apply Accepted, (AExchange s k ct _ Hl); [discriminate | exact Hlt | discriminate | exact Hlt].
  - destruct (mttl <=? ct); [apply Refused|].
    destruct (find_sess sid (sessions s)); [apply Accepted, ASetPw | apply Refused].
  - destruct (N.leb_spec mttl ct) as [|Hlt]; [apply Refused|].
    destruct (find_sess sid (sessions s)) as [x|] eqn:Hx; [|apply Refused].
    destruct (N.eqb_spec (s_staged x) 0) as [|Hst]; [apply Refused|].
    destruct (find_link (s_link x) (links s)) as [[id a [m|m sid' t|m]]|] eqn:Hl; cbn [l_st];
      try apply Refused.
    destruct (N.eqb_spec sid' sid) as [->|]; [|apply Refused].
    rewrite (surjective_pairing (set_cred (s_acct x) (s_staged x) s)).
    apply Accepted, (ACommit s sid mttl ct x _ m t Hlt Hx Hst Hl eq_refl).
  - destruct (mttl <=? ct); [apply Refused|].
    destruct (find_sess sid (sessions s)) as [x|] eqn:Hx; [|apply Refused].
    destruct (find_link (s_link x) (links s)) as [[id a [m|m sid' t|m]]|] eqn:Hl; cbn [l_st];
      try apply Refused.
    destruct (N.eqb_spec sid' sid) as [->|]; [|apply Refused].
    apply Accepted, (ACancel s sid mttl ct x _ m t Hx Hl eq_refl).
  - destruct (find_link k (links s)) as [[id a [m|m sid t|m]]|] eqn:Hl; cbn [l_st];
      try apply Refused; apply Accepted, (ARevoke s k ct _ Hl).
Qed.

Lemma accepted_ok s o s' r : accepted s o s' r -> ~ is_err r.
Proof. intros [] [e E]; discriminate. Qed.

Lemma step_counters s o : nlink s <= nlink (fst (step s o)) /\ nsid s <= nsid (fst (step s o)).
Proof. destruct (step_outcome s o) as [e | s' r []]; cbn; lia. Qed.

(* how one call, made while the session counter is n, can move the state of a link *)
Inductive lstep (n : N) : lstate -> lstate -> Prop :=
| LSame x : lstep n x x
| LExchange x t : (forall m, x <> LConsumed m) -> lstep n x (LInProgress (ls_mttl x) n t)
| LCommit m sid t : lstep n (LInProgress m sid t) (LConsumed m)
| LCancel m sid t : lstep n (LInProgress m sid t) (LValid m)
| LRevoke x : lstep n x (LConsumed (ls_mttl x)).

Lemma lstep_mttl n x x' : lstep n x x' -> ls_mttl x' = ls_mttl x.
Proof. intros []; reflexivity. Qed.

Lemma lstep_consumed n x x' : lstep n x x' -> (exists m, x = LConsumed m) -> exists m, x' = LConsumed m.
Proof. intros [| ? ? Hnc | | |] [m0 E]; try discriminate; eauto. destruct (Hnc m0 E). Qed.

Lemma lstep_in_progress n x m sid t : lstep n x (LInProgress m sid t) -> sid = n \/ x = LInProgress m sid t.
Proof. inversion 1; auto. Qed.

(* [set_link] rewrites every copy of link k, [find_link] reads the first one *)
Lemma set_link_lstep n k x l0 ls l' :
  find_link k ls = Some l0 -> lstep n (l_st l0) x -> In l' (set_link k x ls) ->
  exists l, In l ls /\ l_id l = l_id l' /\ lstep n (l_st l) (l_st l').
Proof.
  intros [Hin0 Hid0]%find_link_in Hx (l & Hin & Hid & _ & [[Hk ->] | [_ ->]])%in_set_link.
  - exists l0. repeat split; [exact Hin0 | congruence | exact Hx].
  - exists l. auto using LSame.
Qed.

Lemma step_links s o l' :
  In l' (links (fst (step s o))) ->
  (exists l, In l (links s) /\ l_id l = l_id l' /\ lstep (nsid s) (l_st l) (l_st l')) \/
  (l_id l' = nlink s /\ nlink s < nlink (fst (step s o)) /\ exists m, l_st l' = LValid m).
Proof.
  assert (Hold : In l' (links s) ->
            exists l, In l (links s) /\ l_id l = l_id l' /\ lstep (nsid s) (l_st l) (l_st l'))
    by (exists l'; auto using LSame).
  destruct (step_outcome s o) as [e | s' r [a ttl ct | k ct l Hl Hnc _ | | sid mttl ct x l m t _ _ _ Hl Hs
                                           | sid mttl ct x l m t _ Hl Hs | k ct l Hl]];
    cbn; intros Hin; auto; try (left; eapply set_link_lstep; [exact Hl | | exact Hin]).
  - apply in_app_iff in Hin as [[Hin _]%filter_In | [<- | []]]; [auto|].
    right. cbn. split; [reflexivity|]. split; [lia | eauto].
  - apply LExchange, Hnc.
  - rewrite Hs. apply LCommit.
  - rewrite Hs. apply LCancel.
  - apply LRevoke.
Qed.

Lemma step_sessions s o x' :
  In x' (sessions (fst (step s o))) ->
  (exists x, In x (sessions s) /\ s_id x' = s_id x /\ s_link x' = s_link x) \/
  (s_id x' = nsid s /\ nsid s < nsid (fst (step s o))).
Proof.
  assert (Hold : In x' (sessions s) ->
            exists x, In x (sessions s) /\ s_id x' = s_id x /\ s_link x' = s_link x)
    by (exists x'; auto).
  destruct (step_outcome s o) as [e | s' r []]; cbn; intros Hin; auto.
  - apply in_app_iff in Hin as [[Hin _]%filter_In | [<- | []]]; [auto|].
    right. cbn. split; [reflexivity | lia].
  - apply in_stage in Hin as (x0 & Hin & Hid & Hl & _). eauto.
  - apply in_del_sess in Hin as [Hin _]. auto.
  - apply in_del_sess in Hin as [Hin _]. auto.
Qed.

Definition invariant (I : st -> Prop) : Prop := forall s o, I s -> I (fst (step s o)).

(* the last conjunct lets the lemma be applied again to tr2, from the state after the entry *)
Lemma trace_split (I : st -> Prop) : invariant I ->
  forall tr1 s ops s1 o r tr2, I s -> trace s ops = tr1 ++ (s1, o, r) :: tr2 ->
  I s1 /\ r = snd (step s1 o) /\ exists ops2, tr2 = trace (fst (step s1 o)) ops2.
Proof.
  intros Hstep. induction tr1 as [|e tr1 IH]; intros s [|o' ops] s1 o r tr2 Hs H; cbn in H;
    try discriminate.
  - injection H as <- <- <- <-. eauto.
  - injection H as _ H. eapply IH; [apply Hstep, Hs | exact H].
Qed.

Lemma trace_inv (I : st -> Prop) : invariant I ->
  forall ops s, I s -> forall s' o r, In (s', o, r) (trace s ops) -> I s' /\ r = snd (step s' o).
Proof.
  intros Hstep ops s Hs s' o r (tr1 & tr2 & H)%in_split.
  destruct (trace_split I Hstep _ _ _ _ _ _ _ Hs H) as (Hs' & Hr & _). auto.
Qed.

Definition wf (s : st) : Prop :=
  (forall l, In l (links s) -> l_id l < nlink s) /\
  (forall x, In x (sessions s) -> s_id x < nsid s).

Lemma wf_init c0 c1 : wf (init c0 c1).
Proof. split; intros ? []. Qed.

Lemma wf_step : invariant wf.
Proof.
  intros s o [Hl Hx]. pose proof (step_counters s o). split.
  - intros l' [(l & Hin & <- & _) | (-> & Hlt & _)]%step_links; [apply Hl in Hin; lia | exact Hlt].
  - intros x' [(x & Hin & -> & _) | (-> & Hlt)]%step_sessions; [apply Hx in Hin; lia | exact Hlt].
Qed.

Definition links_at (k : N) (P : lstate -> Prop) (s : st) : Prop :=
  forall l, In l (links s) -> l_id l = k -> P (l_st l).

Lemma links_at_step k (P : lstate -> Prop) s o :
  (forall x x', lstep (nsid s) x x' -> P x -> P x') -> (k = nlink s -> forall m, P (LValid m)) ->
  links_at k P s -> links_at k P (fst (step s o)).
Proof.
  intros Hstep Hnew Hall l' [(l & Hin & Hid & Hx) | (Hid & _ & m & ->)]%step_links Hk.
  - apply (Hstep _ _ Hx), (Hall l Hin). congruence.
  - apply Hnew. congruence.
Qed.

Definition sealed (P : lstate -> Prop) (k : N) (s : st) : Prop := k < nlink s /\ links_at k P s.

Lemma sealed_step (P : lstate -> Prop) k :
  (forall n x x', lstep n x x' -> P x -> P x') -> invariant (sealed P k).
Proof.
  intros HP s o [Hk Hall]. split; [pose proof (step_counters s o); lia|].
  apply links_at_step; [apply HP | lia | exact Hall].
Qed.

Lemma exchange_refused (P : lstate -> Prop) k ct s :
  (forall x, P x -> (exists m, x = LConsumed m) \/ ls_mttl x <= ct) ->
  links_at k P s -> is_err (snd (step s (OExchange k ct))).
Proof.
  intros HP Hall. destruct (step_outcome s (OExchange k ct)) as [e | s' r Ha]; [exists e; reflexivity|].
  inversion Ha as [| ? ? l Hl Hnc Hlt | | | |]; subst. apply find_link_in in Hl as [Hin Hid].
  destruct (HP _ (Hall l Hin Hid)) as [[m Hm] | Hle]; [destruct (Hnc m Hm) | lia].
Qed.

Definition dead : N -> st -> Prop := sealed (fun x => exists m, x = LConsumed m).

Lemma dead_step k : invariant (dead k).
Proof. apply sealed_step. intros n x x'. apply lstep_consumed. Qed.

Lemma dead_no_exchange k s ct : dead k s -> is_err (snd (step s (OExchange k ct))).
Proof. intros [_ Hd]. eapply exchange_refused; [|exact Hd]. auto. Qed.

(* which link an accepted commit belongs to (read off the session in the pre-state) *)
Definition commits_on (k : N) (e : st * op * res) : bool :=
  let '(s, o, r) := e in
  match o, r with
  | OCommit sid _ _, ROk =>
      match find_sess sid (sessions s) with Some x => s_link x =? k | None => false end
  | _, _ => false
  end.

Lemma commits_on_step k s o :
  commits_on k (s, o, snd (step s o)) = true ->
  exists l m sid t, find_link k (links s) = Some l /\ l_st l = LInProgress m sid t /\
    links (fst (step s o)) = set_link k (LConsumed m) (links s) /\ nlink (fst (step s o)) = nlink s.
Proof.
  destruct (step_outcome s o) as [e | s' r [| | | sid mttl ct x l m t _ Hx _ Hl Hs | |]];
    try discriminate; [destruct o; discriminate|].
  cbn. rewrite Hx. intros <-%N.eqb_eq. eauto 8.
Qed.

Lemma dead_no_commit k s o : dead k s -> commits_on k (s, o, snd (step s o)) = false.
Proof.
  intros [_ Hd]. destruct (commits_on k _) eqn:Hc; [|reflexivity].
  apply commits_on_step in Hc as (l & m & sid & t & [Hin Hid]%find_link_in & Hs & _).
  destruct (Hd l Hin Hid) as [m' Hm']. congruence.
Qed.

Lemma commit_makes_dead k s o :
  wf s -> commits_on k (s, o, snd (step s o)) = true -> dead k (fst (step s o)).
Proof.
  intros [Hwl _] (l & m & sid & t & [Hin <-]%find_link_in & _ & Hls & Hn)%commits_on_step.
  split; [rewrite Hn; auto|]. intros l' Hin' Hid'. rewrite Hls in Hin'.
  apply in_set_link in Hin' as (l0 & _ & Hi & _ & [[_ ->] | [Hne _]]); [eauto | congruence].
Qed.

Definition ncommits (k : N) (tr : list (st * op * res)) : nat := length (filter (commits_on k) tr).

Lemma ncommits_cons k s o ops :
  ncommits k (trace s (o :: ops)) =
  ((if commits_on k (s, o, snd (step s o)) then 1 else 0) + ncommits k (trace (fst (step s o)) ops))%nat.
Proof. unfold ncommits. cbn [trace filter]. destruct (commits_on k _); reflexivity. Qed.

Lemma dead_ncommits k ops : forall s, dead k s -> ncommits k (trace s ops) = 0%nat.
Proof.
  induction ops as [|o ops IH]; intros s Hd; [reflexivity|].
  rewrite ncommits_cons, (dead_no_commit k s o Hd). apply IH, dead_step, Hd.
Qed.

Lemma ncommits_le_1 k ops : forall s, wf s -> (ncommits k (trace s ops) <= 1)%nat.
Proof.
  induction ops as [|o ops IH]; intros s Hwf; [cbn; lia|].
  rewrite ncommits_cons. destruct (commits_on k _) eqn:Hc.
  - rewrite (dead_ncommits k ops _ (commit_makes_dead k s o Hwf Hc)). lia.
  - apply IH, wf_step, Hwf.
Qed.

Definition expiry (k m : N) : st -> Prop := sealed (fun x => ls_mttl x = m) k.

Lemma expiry_step k m : invariant (expiry k m).
Proof. apply sealed_step. intros n x x' Hx <-. apply (lstep_mttl n), Hx. Qed.

Lemma expired_no_exchange k m s ct : expiry k m s -> m <= ct -> is_err (snd (step s (OExchange k ct))).
Proof. intros [_ Hd] Hle. eapply exchange_refused; [|exact Hd]. intros x ->. auto. Qed.

Lemma init_expiry s a ttl ct :
  wf s -> expiry (nlink s) (ct + clamp_ttl ttl) (fst (step s (OInit a ttl ct))).
Proof.
  intros [Hwl _]. split; cbn; [lia|].
  intros l [[Hin _]%filter_In | [<- | []]]%in_app_iff Hid; [apply Hwl in Hin; lia | reflexivity].
Qed.

Lemma clamp_bounds ttl : MIN_INTENT_TTL <= clamp_ttl ttl <= MAX_INTENT_TTL.
Proof.
  unfold clamp_ttl. set (m := match ttl with Some v => v | None => DEFAULT_INTENT_TTL end).
  assert (MIN_INTENT_TTL <= MAX_INTENT_TTL) by (vm_compute; discriminate).
  destruct (N.ltb_spec m MIN_INTENT_TTL); [lia|].
  destruct (N.ltb_spec MAX_INTENT_TTL m); lia.
Qed.

(* session id sid was issued for link k (and no other session will ever carry that id) *)
Definition owns (sid k : N) (s : st) : Prop :=
  sid < nsid s /\ forall x, In x (sessions s) -> s_id x = sid -> s_link x = k.

(* ... and link k is not waiting for that session any more *)
Definition stale (sid k : N) (s : st) : Prop :=
  owns sid k s /\
  forall l, In l (links s) -> l_id l = k -> forall m t, l_st l <> LInProgress m sid t.

Lemma owns_step sid k : invariant (owns sid k).
Proof.
  intros s o [Hlt Ho]. split; [pose proof (step_counters s o); lia|].
  intros x' [(x & Hin & Hid & ->) | (Hid & _)]%step_sessions E; [apply Ho; congruence | lia].
Qed.

Lemma stale_step sid k : invariant (stale sid k).
Proof.
  intros s o [Ho Hs]. split; [apply owns_step, Ho|].
  apply (links_at_step k (fun x => forall m t, x <> LInProgress m sid t)); [|discriminate|exact Hs].
  (* only an exchange writes InProgress, and it writes the fresh session id *)
  intros x x' Hx HP m t ->. apply lstep_in_progress in Hx as [-> | ->];
    [destruct Ho; lia | exact (HP m t eq_refl)].
Qed.

Lemma stale_no_commit sid k s mttl ct : stale sid k s -> is_err (snd (step s (OCommit sid mttl ct))).
Proof.
  intros [[_ Ho] Hs].
  destruct (step_outcome s (OCommit sid mttl ct)) as [e | s' r Ha]; [exists e; reflexivity|].
  inversion Ha as [| | | ? ? ? x l m t _ Hx _ Hl Hst | |]; subst.
  apply find_sess_in in Hx as [Hix Hidx]. apply find_link_in in Hl as [Hil Hidl].
  destruct (Hs l Hil (eq_trans Hidl (Ho x Hix Hidx)) m t Hst).
Qed.

Lemma stale_trace sid k ops s :
  stale sid k s -> forall s' mttl ct r, In (s', OCommit sid mttl ct, r) (trace s ops) -> is_err r.
Proof.
  intros H s' mttl ct r Hin. destruct (trace_inv _ (stale_step sid k) _ _ H _ _ _ Hin) as [H' ->].
  apply (stale_no_commit sid k), H'.
Qed.

Lemma exchange_owns s k ct sid m :
  wf s -> snd (step s (OExchange k ct)) = RTok sid m ->
  sid = nsid s /\ owns sid k (fst (step s (OExchange k ct))).
Proof.
  intros [_ Hwx]. destruct (step_outcome s (OExchange k ct)) as [e | s' r Ha]; [discriminate|].
  inversion Ha; subst. cbn. intros [= <- _]. split; [reflexivity|]. split; cbn; [lia|].
  intros x [[Hin _]%filter_In | [<- | []]]%in_app_iff Hid; [apply Hwx in Hin; lia | reflexivity].
Qed.

Lemma exchange_supersedes s k ct sid m sid1 :
  owns sid1 k s -> snd (step s (OExchange k ct)) = RTok sid m ->
  stale sid1 k (fst (step s (OExchange k ct))).
Proof.
  intros Ho Hr. split; [apply owns_step, Ho|]. destruct Ho as [Hlt _]. revert Hr.
  destruct (step_outcome s (OExchange k ct)) as [e | s' r Ha]; [discriminate|].
  inversion Ha; subst. cbn. intros _ l' Hin Hid mm t.
  apply in_set_link in Hin as (l0 & _ & Hi & _ & [[_ ->] | [Hne _]]); [intros [= _ E _]; lia | congruence].
Qed.

Lemma lstate_eqb_eq a b : lstate_eqb a b = true -> a = b.
Proof. destruct a, b; cbn; rewrite ?andb_true_iff, ?N.eqb_eq; intuition congruence. Qed.

Lemma links_eqb_eq a : forall b, links_eqb a b = true -> a = b.
Proof.
  induction a as [|[[i c] x] a IH]; intros [|[[i' c'] x'] b]; cbn; try discriminate; [reflexivity|].
  rewrite !andb_true_iff, !N.eqb_eq. intros [[[-> ->] ->%lstate_eqb_eq] ->%IH]. reflexivity.
Qed.

Lemma view_eqb_eq a b : view_eqb a b = true -> a = b.
Proof.
  destruct a as [[la a0] a1], b as [[lb b0] b1]. cbn.
  rewrite !andb_true_iff, !N.eqb_eq. intros [[->%links_eqb_eq ->] ->]. reflexivity.
Qed.

Lemma res_eqb_eq a b : res_eqb a b = true -> a = b.
Proof.
  destruct a as [| | |e], b as [| | |e']; cbn; rewrite ?andb_true_iff, ?N.eqb_eq;
    try (intuition congruence).
  destruct e, e'; cbn; intros; congruence.
Qed.

Lemma nth_set_same k : forall l y y', nth_ml k l = Some y -> nth_ml k (set_ml k y' l) = Some y'.
Proof. induction k; intros [|z l] y y' H; cbn in *; try discriminate; eauto. Qed.

Lemma nth_set_other k : forall k' l y', k <> k' -> nth_ml k' (set_ml k y' l) = nth_ml k' l.
Proof.
  induction k; intros [|k'] [|z l] y' H; cbn; try reflexivity; try congruence.
  apply IHk. congruence.
Qed.

Lemma set_ml_same k : forall l y, nth_ml k l = Some y -> set_ml k y l = l.
Proof.
  induction k; intros [|z l] y H; cbn in *; try discriminate; try reflexivity.
  - congruence.
  - f_equal. apply IHk. exact H.
Qed.

Lemma length_set k : forall l y, length (set_ml k y l) = length l.
Proof. induction k; intros [|z l] y; cbn; auto. Qed.

Lemma nth_app_old k : forall l y z, nth_ml k l = Some y -> nth_ml k (l ++ [z]) = Some y.
Proof. induction k; intros [|w l] y z H; cbn in *; try discriminate; eauto. Qed.

Lemma nth_app_new : forall l z, nth_ml (length l) (l ++ [z]) = Some z.
Proof. induction l; intros z; cbn; auto. Qed.

Lemma assoc_in k l v : assoc k l = Some v -> In (k, v) l.
Proof.
  induction l as [|[a b] l IH]; cbn; [discriminate|].
  destruct (N.eqb_spec a k); intros H.
  - left. congruence.
  - right. auto.
Qed.

(* what the monitor entry y has to record about a link of account acct in state x *)
Definition knows (y : mlink) (acct : N) (x : lstate) : Prop :=
  ml_acct y = acct /\ ml_exp y = ls_mttl x /\
  (ml_done y = true -> exists mm, x = LConsumed mm) /\
  (forall mm sid t, x = LInProgress mm sid t -> ml_last y = Some sid).

Lemma knows_not_done y acct x : knows y acct x -> (forall m, x <> LConsumed m) -> ml_done y = false.
Proof.
  intros (_ & _ & Hd & _) Hnc. destruct (ml_done y); [|reflexivity].
  destruct (Hd eq_refl) as [m Hm]. destruct (Hnc m Hm).
Qed.

Definition entry_acct (ml : list mlink) (k a : N) : Prop :=
  exists y, nth_ml (N.to_nat k) ml = Some y /\ ml_acct y = a.
Definition link_known (ml : list mlink) (l : link) : Prop :=
  exists y, nth_ml (N.to_nat (l_id l)) ml = Some y /\ knows y (l_acct l) (l_st l).

Lemma entry_acct_set ml k y y' k' a :
  nth_ml (N.to_nat k) ml = Some y -> ml_acct y' = ml_acct y ->
  entry_acct ml k' a -> entry_acct (set_ml (N.to_nat k) y' ml) k' a.
Proof.
  intros Hy Ha (z & Hz & Hza). destruct (N.eq_dec k k') as [<-|Hne].
  - exists y'. split; [eapply nth_set_same, Hy | congruence].
  - exists z. split; [|exact Hza]. rewrite nth_set_other; [exact Hz|]. intros E%N2Nat.inj. auto.
Qed.

Lemma link_known_set ml k y y' x (ls : list link) :
  (forall l, In l ls -> link_known ml l) -> nth_ml (N.to_nat k) ml = Some y -> knows y' (ml_acct y) x ->
  forall l', In l' (set_link k x ls) -> link_known (set_ml (N.to_nat k) y' ml) l'.
Proof.
  intros Hall Hy Hk l' (l & Hin & Hid & Hac & Hl)%in_set_link.
  destruct (Hall l Hin) as (y0 & Hy0 & Hk0). unfold link_known. rewrite Hid, Hac.
  destruct Hl as [[<- ->] | [Hne ->]].
  - exists y'. split; [eapply nth_set_same, Hy|].
    rewrite Hy in Hy0. injection Hy0 as <-. destruct Hk0 as [<- _]. exact Hk.
  - exists y0. split; [|exact Hk0]. rewrite nth_set_other; [exact Hy0|]. intros E%N2Nat.inj. auto.
Qed.

Lemma link_known_set_same ml k y x (ls : list link) :
  (forall l, In l ls -> link_known ml l) -> nth_ml (N.to_nat k) ml = Some y -> knows y (ml_acct y) x ->
  forall l', In l' (set_link k x ls) -> link_known ml l'.
Proof. intros Hall Hy Hk. rewrite <- (set_ml_same _ _ _ Hy). apply (link_known_set ml k y y x ls Hall Hy Hk). Qed.

(* the simulation: the monitor has one entry per created link, which knows every copy of it;
   it has seen the id of every live session, with the link it came from *)
Record R (s : st) (m : mon) : Prop := mkR {
  R_len : N.of_nat (length (m_links m)) = nlink s;
  R_links : forall l, In l (links s) -> link_known (m_links m) l;
  R_sess : forall x, In x (sessions s) ->
      assoc (s_id x) (m_sids m) = Some (s_link x) /\ entry_acct (m_links m) (s_link x) (s_acct x);
  R_sids : forall a b, In (a, b) (m_sids m) -> a < nsid s;
  R_c0 : m_c0 m = cred0 s;
  R_c1 : m_c1 m = cred1 s
}.

Lemma R_init c0 c1 : R (init c0 c1) (mon_init c0 c1).
Proof. constructor; cbn; try reflexivity; intros; contradiction. Qed.

Lemma same_creds_eq m (ls : list (N * N * lstate)) c0 c1 :
  m_c0 m = c0 -> m_c1 m = c1 -> same_creds m (ls, c0, c1) = true.
Proof. intros <- <-. cbn. rewrite !N.eqb_refl. reflexivity. Qed.

(* every observation but an accepted init, exchange or commit leaves the monitor as it is *)
Lemma mon_default m o r v :
  (match o, r with
   | OInit _ _ _, RIntent _ => False | OExchange _ _, RTok _ _ => False | OCommit _ _ _, ROk => False
   | _, _ => True end) ->
  same_creds m v = true -> mon_step m (o, r, v) = Some m.
Proof.
  intros Hm Hs. destruct v as [[ls v0] v1]. unfold mon_step.
  destruct o, r; try contradiction; rewrite Hs; reflexivity.
Qed.

Lemma sim_step s m o :
  R s m -> exists m1, mon_step m (o, snd (step s o), view_of (fst (step s o))) = Some m1 /\ R (fst (step s o)) m1.
Proof.
  intros [Hlen Hlinks Hsess Hsids Hc0 Hc1].
  assert (Hq : forall ls, same_creds m (ls, cred0 s, cred1 s) = true)
    by (intros; apply same_creds_eq; assumption).
  destruct (step_outcome s o) as [e | s' r Ha]; cbn [fst snd fail].
  { exists m. split; [apply mon_default; [destruct o; exact I | apply Hq] | constructor; assumption]. }
  destruct Ha as [a ttl ct | k ct l Hl Hnc Hlt | sid mttl pw ct | sid mttl ct x l mm t _ Hx _ Hl Hst
                 | sid mttl ct x l mm t Hx Hl Hst | k ct l Hl].
  - (* init: the monitor appends the entry of the new link *)
    eexists. split; [unfold mon_step, view_of; cbn [links cred0 cred1]; rewrite Hq; reflexivity|].
    assert (Hnl : N.to_nat (nlink s) = length (m_links m)) by (rewrite <- Hlen; apply Nat2N.id).
    constructor; cbn; auto.
    + rewrite app_length. cbn. lia.
    + intros l' [[Hin _]%filter_In | [<- | []]]%in_app_iff.
      * destruct (Hlinks l' Hin) as (y & Hy & Hk). exists y. split; [apply nth_app_old, Hy | exact Hk].
      * eexists. cbn. split; [rewrite Hnl; apply nth_app_new|]. repeat split; intros; discriminate.
    + intros x Hin. destruct (Hsess x Hin) as (Ha & y & Hy & Hya).
      split; [exact Ha|]. exists y. split; [apply nth_app_old, Hy | exact Hya].
  - (* exchange: accepted by the monitor because the link is neither consumed nor expired *)
    apply find_link_in in Hl as [Hil <-]. destruct (Hlinks l Hil) as (y & Hy & Hk).
    pose proof (knows_not_done _ _ _ Hk Hnc) as Hdone. destruct Hk as (Hya & Hye & _).
    eexists. split.
    + unfold mon_step, view_of. cbn [links cred0 cred1]. rewrite Hy, Hdone, Hq.
      replace (ct <? ml_exp y) with true by (symmetry; apply N.ltb_lt; lia). reflexivity.
    + constructor; cbn; auto.
      * rewrite length_set. exact Hlen.
      * apply (link_known_set _ _ _ _ _ _ Hlinks Hy).
        repeat split; cbn; [exact Hye | discriminate | intros ? ? ? [= _ <- _]; reflexivity].
      * intros x [[Hin _]%filter_In | [<- | []]]%in_app_iff; cbn.
        -- destruct (Hsess x Hin) as (Ha & Hm). split; [|eapply entry_acct_set; eauto].
           (* the new session id is fresh: the monitor has only seen smaller ones *)
           destruct (N.eqb_spec (nsid s) (s_id x)) as [E|]; [|exact Ha].
           apply assoc_in, Hsids in Ha. lia.
        -- rewrite N.eqb_refl. split; [reflexivity|].
           eexists. split; [eapply nth_set_same, Hy | exact Hya].
      * intros a b [[= <- <-] | Hin%Hsids]; lia.
  - exists m. split; [apply mon_default; [exact I | apply Hq]|]. constructor; cbn; auto.
    intros x' (x & Hin & -> & -> & ->)%in_stage. apply Hsess, Hin.
  - (* commit: the session's link is in progress for this very session, so the monitor has not seen
       it commit and has this session as its latest; session and link agree on the account *)
    apply find_sess_in in Hx as [Hix <-]. apply find_link_in in Hl as [Hil Hidl].
    destruct (Hsess x Hix) as (Hass & y0 & Hy0 & Hy0a).
    destruct (Hlinks l Hil) as (y & Hy & Hk). rewrite Hidl in Hy. rewrite Hy in Hy0. injection Hy0 as <-.
    assert (Hdone : ml_done y = false) by (apply (knows_not_done _ _ _ Hk); rewrite Hst; discriminate).
    destruct Hk as (_ & Hye & _ & Hlast). rewrite Hst in Hye. specialize (Hlast _ _ _ Hst).
    assert (Honly : (if ml_acct y =? 0
                     then snd (set_cred (s_acct x) (s_staged x) s) =? m_c1 m
                     else fst (set_cred (s_acct x) (s_staged x) s) =? m_c0 m) = true).
    { unfold set_cred. rewrite Hy0a, Hc0, Hc1. destruct (s_acct x =? 0); apply N.eqb_refl. }
    eexists. split.
    + unfold mon_step, view_of. cbn [links cred0 cred1].
      rewrite Hass, Hy, Hdone, Hlast, N.eqb_refl, Honly. reflexivity.
    + constructor; cbn; auto.
      * rewrite length_set. exact Hlen.
      * apply (link_known_set _ _ _ _ _ _ Hlinks Hy). repeat split; cbn; [exact Hye | eauto | discriminate].
      * intros x' [Hin _]%in_del_sess. destruct (Hsess x' Hin) as (Ha' & Hm').
        split; [exact Ha' | eapply entry_acct_set; eauto].
  - (* cancel: the link was in progress, so the monitor has not seen it commit *)
    apply find_link_in in Hl as [Hil Hidl]. destruct (Hlinks l Hil) as (y & Hy & Hk). rewrite Hidl in Hy.
    exists m. split; [apply mon_default; [exact I | apply Hq]|]. constructor; cbn; auto.
    + apply (link_known_set_same _ _ _ _ _ Hlinks Hy). rewrite Hst in Hk. destruct Hk as (_ & Hye & Hd & _).
      repeat split; [exact Hye | intros [? [=]]%Hd | discriminate].
    + intros x' [Hin _]%in_del_sess. apply Hsess, Hin.
  - apply find_link_in in Hl as [Hil <-]. destruct (Hlinks l Hil) as (y & Hy & Hk).
    exists m. split; [apply mon_default; [exact I | apply Hq]|]. constructor; cbn; auto.
    apply (link_known_set_same _ _ _ _ _ Hlinks Hy). destruct Hk as (_ & Hye & _).
    repeat split; [exact Hye | eauto | discriminate].
Qed.

Lemma sim_run steps : forall s m, R s m -> hist_agree s steps = true -> mon_run m steps = true.
Proof.
  induction steps as [|[[o r] v] steps IH]; intros s m HR Ha; [reflexivity|].
  destruct (sim_step s m o HR) as (m1 & Hm & HR1).
  cbn [hist_agree] in Ha. destruct (step s o) as [s1 r1].
  apply andb_true_iff in Ha as [[<-%res_eqb_eq <-%view_eqb_eq]%andb_true_iff Hrest].
  cbn [mon_run]. cbn [fst snd] in Hm. rewrite Hm. exact (IH _ _ HR1 Hrest).
Qed.
