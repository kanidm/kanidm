(* KV.C22.Witness — non-vacuity: concrete states / histories meeting the hypotheses of the
   implication theorems, and the refuting witness of the full statement. *)
From Coq Require Import List NArith Bool.
Import ListNotations.
Require Import KV.C22.Model KV.C22.Proofs.
Open Scope N_scope.

(* ASCII for "ex", "d2", "al", "bob", "grp" *)
Definition w_ex : str := [101; 120].
Definition w_d2 : str := [100; 50].
Definition w_al : str := [97; 108].
Definition w_bob : str := [98; 111; 98].
Definition w_grp : str := [103; 114; 112].

(* a starting state with a built-in, a live person and a RECYCLED group whose spn is stale *)
Definition w_s0 : st := mkst w_ex
  [ mkent 0 KBuiltin (Some w_grp) [spn_str w_grp w_ex] true;
    mkent 1000 KPerson (Some w_al) [spn_str w_al w_ex] true;
    mkent 1001 KGroup (Some w_bob) [[1; 2; 3]] false ].

(* hypotheses of C22_invariant_partial / C22_named_invariant hold of it *)
Example C22_witness_hyp_state : AllNamed w_s0 /\ NamedSpnInv w_s0.
Proof.
  split.
  - intros e [<-|[<-|[<-|[]]]]; discriminate.
  - intros e [<-|[<-|[<-|[]]]] Hl n Hn; try discriminate; inversion Hn; subst n; split; reflexivity.
Qed.

(* a name-less-free history with: a caller-supplied bogus spn on create, a rename, a DROPPED
   domain rename, a committed domain rename (upper case, lower-cased), a revive of the recycled
   group after the domain changed, a failing transaction (duplicate name) *)
Definition w_ts : list txn :=
  [ mktxn [OCreate 1002 KService (Some [83; 86; 67]) (SUtf8 [120; 64; 121])] true;
    mktxn [ORename 1000 [97; 108; 50]] true;
    mktxn [ODomain [122; 122]] false;
    mktxn [ODomain [68; 50]; OSetSpn 1002 (SSpn w_al [101; 118; 105; 108])] true;
    mktxn [ORevive 1001] true;
    mktxn [OCreate 1003 KGroup (Some w_bob) SNone] true ].

Example C22_witness_hyp_history : nameless_free w_ts = true.
Proof. vm_compute. reflexivity. Qed.

Example C22_witness_history_result :
  run_hist w_s0 w_ts = mkst w_d2
    [ mkent 0 KBuiltin (Some w_grp) [spn_str w_grp w_d2] true;
      mkent 1000 KPerson (Some [97; 108; 50]) [spn_str [97; 108; 50] w_d2] true;
      mkent 1001 KGroup (Some w_bob) [spn_str w_bob w_d2] true;
      mkent 1002 KService (Some [115; 118; 99]) [spn_str [115; 118; 99] w_d2] true ].
Proof. vm_compute. reflexivity. Qed.

(* C22_inv_step: a successful step from a state satisfying the invariant *)
Example C22_witness_step :
  step w_s0 (ODomain w_d2) = Some (mkst w_d2
    [ mkent 0 KBuiltin (Some w_grp) [spn_str w_grp w_d2] true;
      mkent 1000 KPerson (Some w_al) [spn_str w_al w_d2] true;
      mkent 1001 KGroup (Some w_bob) [[1; 2; 3]] false ]).
Proof. vm_compute. reflexivity. Qed.

(* C22_failed_txn_no_change: a transaction whose second op fails *)
Example C22_witness_failed_txn :
  fst (run_ops w_s0 [ODomain w_d2; OCreate 1005 KPerson (Some w_al) SNone]) = None.
Proof. vm_compute. reflexivity. Qed.

(* the two `iname_ok` hypotheses of C22_spn_string_determines_name_and_domain *)
Example C22_witness_valid_names : iname_ok w_al = true /\ iname_ok w_bob = true.
Proof. vm_compute. split; reflexivity. Qed.

(* a refuting witness, in the model (C22_refuted builds a shorter one of its own): a name-less group
   keeps the foreign spn ... *)
Definition w_nameless : txn := mktxn [OCreate 1004 KGroup None (SSpn w_al [101; 118; 105; 108])] true.
Example C22_witness_refuted_state :
  ents (run_hist (mkst w_ex []) [w_nameless])
  = [mkent 1004 KGroup None [spn_str w_al [101; 118; 105; 108]] true].
Proof. vm_compute. reflexivity. Qed.

(* ... the same through a name purge by a later transaction ... *)
Example C22_witness_refuted_purge :
  ents (run_hist (mkst w_ex []) [mktxn [OCreate 1004 KGroup (Some w_grp) SNone] true; mktxn [OPurgeName 1004] true])
  = [mkent 1004 KGroup None [spn_str w_grp w_ex] true].
Proof. vm_compute. reflexivity. Qed.

(* ... and the hypotheses of C22_nameless_blocks_domain_rename are met by w_s0 after w_nameless: the
   rename of the domain then fails *)
Example C22_witness_blocked_rename :
  let s := run_hist w_s0 [w_nameless] in
  let e := mkent 1004 KGroup None [spn_str w_al [101; 118; 105; 108]] true in
  In e (ents s) /\ elive e = true /\ ename e = None /\ espn e <> [] /\ lowers w_d2 <> dom s
  /\ step s (ODomain w_d2) = None.
Proof.
  vm_compute. repeat split; try reflexivity; try discriminate.
  right. right. right. left. reflexivity.
Qed.

(* the run-time tie: an observed history (shape of a harness case) on which model and
   observation agree, which is outside the known class, and on which the property holds *)
Definition w_case : case :=
  CHist w_ex [DEnt 0 true (Some w_grp) [spn_str w_grp w_ex]]
    [ OStep [OCreate 1000 KPerson (Some [65; 108]) (SIname w_bob)] true [true] w_ex w_ex false
        [DEnt 1000 true (Some w_al) [spn_str w_al w_ex]];
      OStep [ODomain w_d2; ORename 1000 [57]] true [true; false] w_ex w_ex true
        [DEnt 0 true (Some w_grp) [spn_str w_grp w_ex]; DEnt 1000 true (Some w_al) [spn_str w_al w_ex]];
      OStep [ODomain w_d2] true [true] w_d2 w_d2 true
        [DEnt 0 true (Some w_grp) [spn_str w_grp w_d2]; DEnt 1000 true (Some w_al) [spn_str w_al w_d2]] ].
Example C22_witness_agree : agree w_case = true /\ uses_nameless w_case = false /\ pcheck w_case = true.
Proof. vm_compute. repeat split; reflexivity. Qed.

(* a case of the known class: agrees with the model, fails the full predicate, passes the named one *)
Definition w_case_known : case :=
  CHist w_ex []
    [ OStep [OCreate 1004 KGroup None (SSpn w_al [101; 118; 105; 108])] true [true] w_ex w_ex true
        [DEnt 1004 true None [spn_str w_al [101; 118; 105; 108]]];
      OStep [ODomain w_d2] true [false] w_ex w_ex true
        [DEnt 1004 true None [spn_str w_al [101; 118; 105; 108]]] ].
Example C22_witness_known_case :
  agree w_case_known = true /\ pcheck w_case_known = false /\ known w_case_known = true.
Proof. vm_compute. repeat split; reflexivity. Qed.
