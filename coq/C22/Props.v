(* The model covers generate_spn, the SPN plugin on create / modify / revive, domain rename,
   attribute uniqueness, iname validation, and transactions that commit or are dropped. *)
From Coq Require Import List NArith Bool.
Import ListNotations.
Require Import KV.C22.Model KV.C22.Proofs.
Open Scope N_scope.

(* THE PROPERTY AS STATED. From any state in which every account/group entry (live or recycled)
   has a name and every live one has exactly the spn name@domain, EVERY history of write
   transactions (creates, renames, writes to spn, name purges, deletes, revives, domain renames;
   committed, failed or dropped) leads to a state in which every live account/group has a valid
   name and exactly one spn, equal to name ++ "@" ++ current domain. *)
Definition C22_full_statement : Prop :=
  forall (s : st) (ts : list txn), AllNamed s -> NamedSpnInv s -> SpnInv (run_hist s ts).

(* It does NOT hold of the code as transcribed: `name` is optional for groups and generate_spn
   keeps a caller-supplied Spn value verbatim when there is no name. One committed create of a
   name-less group with a foreign spn (here a@e under domain d) gives a live group without
   name@domain. (Confirmed on the real server by the harness; recorded in KNOWN_FINDINGS.txt as class
   `nameless-group`, whose predicate on cases is [uses_nameless].) *)
Theorem C22_refuted : ~ C22_full_statement.
Proof.
  intros H.
  pose (s0 := mkst [100] []).
  pose (t := mktxn [OCreate 1000 KGroup None (SSpn [97] [101])] true).
  assert (Ha : AllNamed s0) by (intros e []).
  assert (Hn : NamedSpnInv s0) by (intros e []).
  specialize (H s0 [t] Ha Hn).
  specialize (H (mkent 1000 KGroup None [[97; 64; 101]] true)).
  destruct H as [n [Hname _]].
  - vm_compute. left. reflexivity.
  - reflexivity.
  - discriminate.
Qed.

(* PROVED (everything outside the known class): for every history that contains no
   name-less create and no name purge, the full statement holds -- after every transaction
   (every prefix of the history is itself such a history), for unboundedly many operations,
   including failed and dropped transactions, recycled entries that are revived after the
   domain changed, and callers writing arbitrary values into `spn`. *)
Theorem C22_invariant_partial : forall (s : st) (ts : list txn),
  nameless_free ts = true -> AllNamed s -> NamedSpnInv s ->
  AllNamed (run_hist s ts) /\ SpnInv (run_hist s ts).
Proof.
  intros s ts Hf Ha Hn.
  assert (HI : Inv true (run_hist s ts)).
  { apply run_hist_inv; [intros _; exact Hf | apply Inv_true_iff; auto]. }
  apply Inv_true_iff in HI. destruct HI as [H1 H2]. split; [exact H1 | apply full_of_parts; assumption].
Qed.

(* PROVED (all histories, the known class included): whatever is done, every live
   account/group THAT HAS A NAME has a valid name and exactly the one spn name@current-domain. *)
Theorem C22_named_invariant : forall (s : st) (ts : list txn),
  NamedSpnInv s -> NamedSpnInv (run_hist s ts).
Proof.
  intros s ts Hn. apply Inv_false_iff. apply run_hist_inv; [discriminate | apply Inv_false_iff; exact Hn].
Qed.

(* One operation preserves the invariant (the inductive step, exposed). *)
Theorem C22_inv_step : forall (s s1 : st) (o : op),
  step s o = Some s1 -> NamedSpnInv s -> NamedSpnInv s1.
Proof.
  intros s s1 o H Hn. apply Inv_false_iff. eapply step_inv; [|exact H|apply Inv_false_iff; exact Hn].
  intros Hd. discriminate.
Qed.

(* Transactions that fail or are dropped change nothing -- in particular not the domain name. *)
Theorem C22_dropped_txn_no_change : forall s ops, run_txn s (mktxn ops false) = s.
Proof. intros s ops. unfold run_txn; cbn. destruct (fst (run_ops s ops)); reflexivity. Qed.
Theorem C22_failed_txn_no_change : forall s ops c,
  fst (run_ops s ops) = None -> run_txn s (mktxn ops c) = s.
Proof. intros s ops c H. unfold run_txn; cbn. rewrite H. reflexivity. Qed.

(* "exactly one SPN equal to name@domain" is unambiguous: valid names contain no '@', so the
   rendered string determines both the name and the domain. *)
Theorem C22_spn_string_determines_name_and_domain : forall n n' d d',
  iname_ok n = true -> iname_ok n' = true -> spn_str n d = spn_str n' d' -> n = n' /\ d = d'.
Proof. intros n n' d d' H1 H2. apply (app_sep_inj 64); apply iname_no_at; assumption. Qed.

(* The second half of the finding: while a live name-less entry with an spn exists, every
   domain rename to a different (valid or not) domain fails -- the purge in
   Spn::post_modify_inner leaves generate_spn nothing to regenerate from. *)
Theorem C22_nameless_blocks_domain_rename : forall s d e,
  In e (ents s) -> elive e = true -> ename e = None -> espn e <> [] ->
  lowers d <> dom s -> step s (ODomain d) = None.
Proof. intros. cbn [step]. eapply nameless_blocks; eassumption. Qed.

(* Soundness of the run-time tie. Whenever the implementation's observations agree with the
   model: (a) the property restricted to named entries holds on every observed dump; *)
Theorem C22_agree_implies_named : forall c : case, agree c = true -> pcheck_named c = true.
Proof. intros c H. apply (agree_ok false c); [discriminate | exact H]. Qed.

(* (b) outside the known class the full property holds on every observed dump. *)
Theorem C22_agree_implies_property : forall c : case,
  agree c = true -> uses_nameless c = false -> pcheck c = true.
Proof. intros c H Hn. apply (agree_ok true c); [intros _; exact Hn | exact H]. Qed.

(* (c) hence every case is either fine or inside the recorded known class. *)
Theorem C22_agree_implies_property_or_known : forall c : case,
  agree c = true -> pcheck c = true \/ known c = true.
Proof.
  intros c H. unfold known. destruct (uses_nameless c) eqn:U.
  - right. rewrite (C22_agree_implies_named c H). reflexivity.
  - left. apply C22_agree_implies_property; assumption.
Qed.
