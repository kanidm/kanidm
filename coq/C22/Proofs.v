(* KV.C22.Proofs — one invariant `Inv strict` for both halves of the property (strict = false: named entries
   only; strict = true: every entry is named as well), shown for every operation, lifted over transactions and
   histories, and carried over to the observed dumps. *)
From Coq Require Import List NArith Bool.
Import ListNotations.
Require Import KV.C22.Model.
Open Scope N_scope.
(* the proofs below use bare `cbn`, which must neither compute on numbers nor unfold the name and
   uniqueness checks *)
Arguments N.add : simpl never.
Arguments N.leb : simpl never.
Arguments N.eqb : simpl never.
Arguments iname_ok : simpl never.
Arguments unique_ok : simpl never.

Definition NamedSpnInv (s : st) : Prop :=
  forall e, In e (ents s) -> elive e = true ->
  forall n, ename e = Some n -> iname_ok n = true /\ espn e = [spn_str n (dom s)].

Definition AllNamed (s : st) : Prop := forall e, In e (ents s) -> ename e <> None.

(* the property: every live account/group has a (valid) name and exactly the spn name@domain *)
Definition SpnInv (s : st) : Prop :=
  forall e, In e (ents s) -> elive e = true ->
  exists n, ename e = Some n /\ iname_ok n = true /\ espn e = [spn_str n (dom s)].

Definition ent_ok (strict : bool) (d : str) (e : ent) : Prop :=
  (strict = true -> ename e <> None) /\
  (elive e = true -> forall n, ename e = Some n -> iname_ok n = true /\ espn e = [spn_str n d]).
Definition Inv (strict : bool) (s : st) : Prop := forall e, In e (ents s) -> ent_ok strict (dom s) e.

Lemma Inv_false_iff s : Inv false s <-> NamedSpnInv s.
Proof.
  unfold Inv, NamedSpnInv, ent_ok. split.
  - intros H e Hin. exact (proj2 (H e Hin)).
  - intros H e Hin. split; [discriminate | exact (H e Hin)].
Qed.

Lemma Inv_true_iff s : Inv true s <-> AllNamed s /\ NamedSpnInv s.
Proof.
  unfold Inv, NamedSpnInv, AllNamed, ent_ok. split.
  - intros H. split; intros e Hin; [exact (proj1 (H e Hin) eq_refl) | exact (proj2 (H e Hin))].
  - intros [H1 H2] e Hin. split; [intros _; exact (H1 e Hin) | exact (H2 e Hin)].
Qed.

Lemma full_of_parts s : AllNamed s -> NamedSpnInv s -> SpnInv s.
Proof.
  intros Ha Hn e Hin Hl. destruct (ename e) as [n|] eqn:En.
  - exists n. destruct (Hn e Hin Hl n En) as [H1 H2]. auto.
  - exfalso. exact (Ha e Hin En).
Qed.

(* the side conditions have the shape `strict = true -> boolean`; they are split at every cons *)
Lemma imp_orb_false (P : Prop) a b : (P -> a || b = false) -> (P -> a = false) /\ (P -> b = false).
Proof. intros H. split; intros HP; destruct (orb_false_elim _ _ (H HP)); assumption. Qed.
Lemma imp_andb_true (P : Prop) a b : (P -> a && b = true) -> (P -> a = true) /\ (P -> b = true).
Proof. intros H. split; intros HP; destruct (andb_prop _ _ (H HP)); assumption. Qed.

Lemma str_eqb_eq : forall a b, str_eqb a b = true <-> a = b.
Proof.
  induction a as [|x a IH]; destruct b as [|y b]; cbn; split; intros H; try discriminate; try reflexivity.
  - apply andb_true_iff in H as [H1 H2]. apply N.eqb_eq in H1. apply IH in H2. subst. reflexivity.
  - inversion H; subst. apply andb_true_iff. split; [apply N.eqb_refl | apply IH; reflexivity].
Qed.
Lemma str_eqb_refl a : str_eqb a a = true.
Proof. apply str_eqb_eq. reflexivity. Qed.

Lemma lstr_eqb_eq : forall a b, lstr_eqb a b = true -> a = b.
Proof.
  induction a as [|x a IH]; destruct b as [|y b]; cbn; intros H; try discriminate; try reflexivity.
  apply andb_true_iff in H as [H1 H2]. apply str_eqb_eq in H1. apply IH in H2. subst. reflexivity.
Qed.

Lemma ostr_eqb_eq a b : ostr_eqb a b = true -> a = b.
Proof.
  destruct a, b; cbn; intros H; try discriminate; try reflexivity.
  apply str_eqb_eq in H. subst. reflexivity.
Qed.

Lemma bool_eqb_eq a b : bool_eqb a b = true -> a = b.
Proof. destruct a, b; cbn; intros H; try discriminate; reflexivity. Qed.

Lemma dent_eqb_eq a b : dent_eqb a b = true -> a = b.
Proof.
  destruct a as [i1 l1 n1 s1], b as [i2 l2 n2 s2]. cbn.
  intros H. apply andb_true_iff in H as [H H4]. apply andb_true_iff in H as [H H3]. apply andb_true_iff in H as [H1 H2].
  apply N.eqb_eq in H1. apply bool_eqb_eq in H2. apply ostr_eqb_eq in H3. apply lstr_eqb_eq in H4.
  subst. reflexivity.
Qed.

Lemma dump_eqb_eq : forall a b, dump_eqb a b = true -> a = b.
Proof.
  induction a as [|x a IH]; destruct b as [|y b]; cbn; intros H; try discriminate; try reflexivity.
  apply andb_true_iff in H as [H1 H2]. apply dent_eqb_eq in H1. apply IH in H2. subst. reflexivity.
Qed.

Lemma iname_no_at n : iname_ok n = true -> ~ In 64 n.
Proof.
  unfold iname_ok. destruct n as [|c r]; [discriminate|].
  intros H. apply andb_true_iff in H as [H _]. apply andb_true_iff in H as [H _]. apply andb_true_iff in H as [Hc Hr].
  intros [Hin|Hin].
  - subst c. vm_compute in Hc. discriminate.
  - rewrite forallb_forall in Hr. specialize (Hr _ Hin). vm_compute in Hr. discriminate.
Qed.

Lemma app_sep_inj (c : N) : forall n n' d d',
  ~ In c n -> ~ In c n' -> n ++ c :: d = n' ++ c :: d' -> n = n' /\ d = d'.
Proof.
  induction n as [|x n IH]; intros [|y n'] d d' H1 H2 H; cbn [app] in H.
  - injection H as ->. auto.
  - injection H as -> _. destruct H2. left. reflexivity.
  - injection H as -> _. destruct H1. left. reflexivity.
  - injection H as -> H. destruct (IH n' d d') as [-> ->]; [| |exact H|auto]; intro Hin; [apply H1|apply H2]; right; exact Hin.
Qed.

Lemma find_ent_in : forall es id e, find_ent es id = Some e -> In e es.
Proof.
  induction es as [|x es IH]; cbn; intros id e H; [discriminate|].
  destruct (eid x =? id); [inversion H; subst; left; reflexivity | right; eapply IH; eassumption].
Qed.

Lemma find_ent_ok strict s id e : Inv strict s -> find_ent (ents s) id = Some e -> ent_ok strict (dom s) e.
Proof. intros HI F. exact (HI e (find_ent_in _ _ _ F)). Qed.

Lemma in_replace es e' e : In e (replace es e') -> e = e' \/ In e es.
Proof.
  unfold replace. rewrite in_map_iff. intros [x [Hx Hin]].
  destruct (eid x =? eid e'); subst; auto.
Qed.

Lemma inv_replace strict s e' :
  Inv strict s -> ent_ok strict (dom s) e' -> Inv strict (mkst (dom s) (replace (ents s) e')).
Proof.
  intros HI He e Hin. cbn in *. apply in_replace in Hin. destruct Hin as [->|Hin]; [exact He | exact (HI e Hin)].
Qed.

Lemma new_ent_ok strict es d id k name a v :
  (strict = true -> name <> None) -> generate_spn name a d = Some v ->
  name_ok_for k name && unique_ok es id name v = true -> ent_ok strict d (mkent id k name v true).
Proof.
  intros Hs G C. split; cbn; [exact Hs|]. intros _ n ->. cbn in G, C. injection G as <-.
  apply andb_true_iff in C. split; [apply C | reflexivity].
Qed.

Lemma regen_ok strict s e name a e' :
  (strict = true -> name <> None) -> regen s e name a = Some e' -> ent_ok strict (dom s) e'.
Proof.
  unfold regen. intros Hs H.
  destruct (generate_spn name a (dom s)) as [v|] eqn:G; [|discriminate].
  destruct (name_ok_for (ekind e) name && unique_ok (ents s) (eid e) name v) eqn:C; [|discriminate].
  injection H as <-. exact (new_ent_ok _ _ _ _ _ _ _ _ Hs G C).
Qed.

Lemma on_live_inv strict s id f s1 :
  (forall e e', ent_ok strict (dom s) e -> f e = Some e' -> ent_ok strict (dom s) e') ->
  on_live s id f = Some s1 -> Inv strict s -> Inv strict s1.
Proof.
  unfold on_live. intros Hf H HI.
  destruct (find_ent (ents s) id) as [e|] eqn:F; [|injection H as <-; exact HI].
  destruct (elive e); [|injection H as <-; exact HI].
  destruct (f e) as [e'|] eqn:Fe; [|discriminate].
  injection H as <-. exact (inv_replace _ _ _ HI (Hf e e' (find_ent_ok _ _ _ _ HI F) Fe)).
Qed.

Lemma gen_none_spec name d v :
  generate_spn name ANone d = Some v -> exists n, name = Some n /\ v = [spn_str n d].
Proof. destruct name as [n|]; cbn; intros H; [injection H as <-; eauto | discriminate]. Qed.

(* what [regen_all] does to one entry ([regen_all_cons]) *)
Definition regen1 (d : str) (e : ent) : option ent :=
  if elive e && negb (match espn e with [] => true | _ => false end)
  then match generate_spn (ename e) ANone d with
       | Some v => Some (mkent (eid e) (ekind e) (ename e) v true)
       | None => None
       end
  else Some e.

Lemma regen_all_cons d e r :
  regen_all d (e :: r) =
  match regen1 d e with
  | None => None
  | Some e' => match regen_all d r with Some r' => Some (e' :: r') | None => None end
  end.
Proof. reflexivity. Qed.

Lemma regen_all_in d : forall es es' e', regen_all d es = Some es' -> In e' es' ->
  exists e, In e es /\ regen1 d e = Some e'.
Proof.
  induction es as [|x es IH]; intros es' e' H Hin; [injection H as <-; destruct Hin|].
  rewrite regen_all_cons in H. destruct (regen1 d x) as [x'|] eqn:X; [|discriminate].
  destruct (regen_all d es) as [r'|]; [|discriminate]. injection H as <-. destruct Hin as [<-|Hin].
  - exists x. split; [left; reflexivity | exact X].
  - destruct (IH r' e' eq_refl Hin) as [e [He1 He2]]. exists e. split; [right; exact He1 | exact He2].
Qed.

Lemma regen_all_none d : forall es e, In e es -> regen1 d e = None -> regen_all d es = None.
Proof.
  induction es as [|x es IH]; intros e Hin He; [destruct Hin|]. rewrite regen_all_cons. destruct Hin as [->|Hin].
  - rewrite He. reflexivity.
  - rewrite (IH e Hin He). destruct (regen1 d x); reflexivity.
Qed.

(* the spn is regenerated from the name; an entry left alone is recycled or has no spn, hence by the old
   invariant no name, and the new one asks nothing of it *)
Lemma regen1_ok strict d0 d e e' : ent_ok strict d0 e -> regen1 d e = Some e' -> ent_ok strict d e'.
Proof.
  unfold regen1. intros [Hs Hn] H.
  destruct (elive e && negb match espn e with [] => true | _ => false end) eqn:C.
  - destruct (generate_spn (ename e) ANone d) as [v|] eqn:G; [|discriminate]. injection H as <-.
    destruct (gen_none_spec _ _ _ G) as [n [En ->]]. apply andb_true_iff in C as [L _]. split; cbn; [exact Hs|].
    intros _ m Em. rewrite En in Em. injection Em as <-. exact (conj (proj1 (Hn L n En)) eq_refl).
  - injection H as <-. split; [exact Hs|]. intros L n En.
    destruct (Hn L n En) as [_ Hspn]. rewrite L, Hspn in C. discriminate.
Qed.

Lemma domain_inv strict s d s1 : do_domain s d = Some s1 -> Inv strict s -> Inv strict s1.
Proof.
  unfold do_domain. intros H HI.
  destruct (negb (iname_ok (lowers d))); [discriminate|].
  destruct (str_eqb (lowers d) (dom s)); [injection H as <-; exact HI|].
  destruct (regen_all (lowers d) (ents s)) as [es|] eqn:R; [|discriminate].
  injection H as <-. intros e' Hin. cbn in *.
  destruct (regen_all_in _ _ _ _ R Hin) as [e [He He']]. exact (regen1_ok _ _ _ _ _ (HI e He) He').
Qed.

Definition allowed (strict : bool) (o : op) : Prop := strict = true -> nameless_op o = false.

Lemma step_inv strict s o s1 : allowed strict o -> step s o = Some s1 -> Inv strict s -> Inv strict s1.
Proof.
  intros Ha H HI. destruct o as [id k name a|id new|id a|id|id|id|d]; cbn [step] in H.
  - unfold do_create in H.
    destruct (generate_spn (option_map lowers name) (attr_of_in a) (dom s)) as [v|] eqn:G; [|discriminate].
    destruct (name_ok_for k (option_map lowers name) && unique_ok (ents s) id (option_map lowers name) v) eqn:C;
      [|discriminate].
    injection H as <-. intros e Hin. cbn in *. apply in_app_or in Hin.
    destruct Hin as [Hin|[<-|[]]]; [exact (HI e Hin)|]. refine (new_ent_ok _ _ _ _ _ _ _ _ _ G C).
    intros Hs. specialize (Ha Hs). destruct name; discriminate.
  - unfold do_rename in H. destruct (negb (iname_ok (lowers new))); [discriminate|].
    eapply on_live_inv; [|exact H|exact HI]. intros e e' _ Hr. eapply regen_ok; [|exact Hr]. discriminate.
  - unfold do_setspn in H. eapply on_live_inv; [|exact H|exact HI]. intros e e' He Hr.
    eapply regen_ok; [|exact Hr]. exact (proj1 He).
  - unfold do_purgename in H. eapply on_live_inv; [|exact H|exact HI]. intros e e' _ Hr.
    eapply regen_ok; [|exact Hr]. intros Hs. specialize (Ha Hs). discriminate.
  - unfold do_delete in H. destruct (find_ent (ents s) id) as [e|] eqn:F; [|discriminate].
    destruct (elive e); [|discriminate]. injection H as <-.
    apply inv_replace; [exact HI|]. split; cbn; [exact (proj1 (find_ent_ok _ _ _ _ HI F)) | discriminate].
  - unfold do_revive in H. destruct (find_ent (ents s) id) as [e|] eqn:F; [|injection H as <-; exact HI].
    destruct (elive e); [injection H as <-; exact HI|].
    destruct (regen s e (ename e) (attr_of_stored (espn e))) as [e'|] eqn:R; [|discriminate].
    injection H as <-. apply inv_replace; [exact HI|].
    eapply regen_ok; [|exact R]. exact (proj1 (find_ent_ok _ _ _ _ HI F)).
  - eapply domain_inv; eassumption.
Qed.

Definition ops_allowed (strict : bool) (ops : list op) : Prop :=
  strict = true -> existsb nameless_op ops = false.

Lemma run_ops_inv strict : forall ops s, ops_allowed strict ops -> Inv strict s ->
  match fst (run_ops s ops) with Some s1 => Inv strict s1 | None => True end.
Proof.
  induction ops as [|o r IH]; intros s Ha HI; cbn [run_ops]; [exact HI|].
  destruct (step s o) as [s1|] eqn:S; [|exact I].
  destruct (imp_orb_false _ _ _ Ha) as [Ho Hr].
  specialize (IH s1 Hr (step_inv _ _ _ _ Ho S HI)). destruct (run_ops s1 r) as [x l]. exact IH.
Qed.

Lemma run_txn_inv strict s t : ops_allowed strict (tops t) -> Inv strict s -> Inv strict (run_txn s t).
Proof.
  intros Ha HI. unfold run_txn. pose proof (run_ops_inv strict (tops t) s Ha HI) as H.
  destruct (fst (run_ops s (tops t))) as [s1|]; [|exact HI]. destruct (tcommit t); assumption.
Qed.

Lemma run_hist_inv strict : forall ts s,
  (strict = true -> nameless_free ts = true) -> Inv strict s -> Inv strict (run_hist s ts).
Proof.
  induction ts as [|t r IH]; intros s Ha HI; cbn; [exact HI|].
  destruct (imp_andb_true _ _ _ Ha) as [Ht Hr]. apply IH; [exact Hr|]. apply run_txn_inv; [|exact HI].
  intros Hs. apply negb_true_iff, Ht, Hs.
Qed.

Lemma run_hist_app s a b : run_hist s (a ++ b) = run_hist (run_hist s a) b.
Proof. unfold run_hist. apply fold_left_app. Qed.

Lemma nameless_blocks s d e :
  In e (ents s) -> elive e = true -> ename e = None -> espn e <> [] ->
  lowers d <> dom s -> do_domain s d = None.
Proof.
  intros Hin Hl Hn Hs Hd. unfold do_domain.
  destruct (negb (iname_ok (lowers d))); [reflexivity|].
  destruct (str_eqb (lowers d) (dom s)) eqn:E; [apply str_eqb_eq in E; contradiction|].
  rewrite (regen_all_none _ _ e Hin); [reflexivity|].
  unfold regen1. rewrite Hl, Hn. destruct (espn e); [contradiction | reflexivity].
Qed.

Definition dent_okb (strict : bool) : str -> dent -> bool :=
  if strict then dent_full_ok else dent_named_ok.

Lemma dent_okb_of_ent strict d e : ent_ok strict d e -> dent_okb strict d (dent_of_ent e) = true.
Proof.
  destruct e as [id k name spn live]. unfold ent_ok, dent_of_ent. cbn. intros [Hs Hn].
  destruct live; [|destruct strict; reflexivity]. destruct name as [n|].
  - destruct (Hn eq_refl n eq_refl) as [H1 ->]. destruct strict; cbn; rewrite H1, str_eqb_refl; reflexivity.
  - destruct strict; [destruct (Hs eq_refl eq_refl) | reflexivity].
Qed.

Lemma view_ok strict s full : Inv strict s -> forallb (dent_okb strict (dom s)) (view full s) = true.
Proof.
  intros HI. apply forallb_forall. intros x Hx. unfold view in Hx.
  apply in_map_iff in Hx. destruct Hx as [e [<- He]]. apply filter_In in He. destruct He as [He _].
  exact (dent_okb_of_ent _ _ _ (HI e He)).
Qed.

Definition step_uses_nameless (o : ostep) : bool :=
  match o with OStep ops _ _ _ _ _ _ => existsb nameless_op ops end.

Lemma hist_agree_ok strict : forall steps s,
  Inv strict s -> (strict = true -> existsb step_uses_nameless steps = false) ->
  hist_agree s steps = true -> forallb (step_ok (dent_okb strict)) steps = true.
Proof.
  induction steps as [|o r IH]; intros s HI Hn H; [reflexivity|].
  destruct o as [ops commit res dm dd full dump]. cbn [hist_agree] in H.
  apply andb_true_iff in H as [H Hr]. apply andb_true_iff in H as [H Hdump]. apply andb_true_iff in H as [H Hdd].
  apply andb_true_iff in H as [_ Hdm].
  apply str_eqb_eq in Hdm. apply str_eqb_eq in Hdd. apply dump_eqb_eq in Hdump. subst dm dd dump.
  destruct (imp_orb_false _ _ _ Hn) as [Hops Hrest].
  pose proof (run_txn_inv strict s (mktxn ops commit) Hops HI) as HI1.
  cbn [forallb step_ok]. rewrite str_eqb_refl, (view_ok _ _ _ HI1). exact (IH _ HI1 Hrest Hr).
Qed.

Lemma init_ent_ok strict d0 x : dent_has_name x && dent_full_ok d0 x = true -> ent_ok strict d0 (ent_of_dent x).
Proof.
  destruct x as [id live [n|] spn]; cbn; [|discriminate]. intros H. split; cbn; [discriminate|].
  intros -> m [= <-]. apply andb_true_iff in H as [H1 H2]. split; [exact H1 | exact (lstr_eqb_eq _ _ H2)].
Qed.

Lemma agree_ok strict c :
  (strict = true -> uses_nameless c = false) -> agree c = true -> pcheck_with (dent_okb strict) c = true.
Proof.
  destruct c as [d0 init steps]. unfold agree, pcheck_with, uses_nameless. cbn [steps_of].
  intros Hn H. apply andb_true_iff in H as [Hi Hh]. rewrite forallb_forall in Hi.
  assert (H0 : forall x, In x init -> ent_ok strict d0 (ent_of_dent x)).
  { intros x Hx. exact (init_ent_ok _ _ _ (Hi x Hx)). }
  apply andb_true_iff. split.
  - apply forallb_forall. intros x Hx. replace x with (dent_of_ent (ent_of_dent x)) by (destruct x; reflexivity).
    exact (dent_okb_of_ent _ _ _ (H0 x Hx)).
  - apply (hist_agree_ok strict steps (mkst d0 (map ent_of_dent init))); [|exact Hn|exact Hh].
    intros e Hin. cbn in Hin. apply in_map_iff in Hin as [x [<- Hx]]. exact (H0 x Hx).
Qed.
