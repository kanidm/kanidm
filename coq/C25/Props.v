(* modify_entry i A e ml / delete_entry i A e  = the transcription (KV.C24.Model) of
     AccessControls::modify_allow_operation / delete_allow_operation for identity i, profile set A,
     stored target entry e and modify list ml (arbitrary, no size bound).
   builtin, nesting = KV.C25.Builtin: the write profiles a freshly initialised server has loaded and
     the memberof of every built-in group, REGENERATED from the running code (`c25 --dump`) and
     compared with the running code inside Coq on every run of the check (case CData).
   HP = idm_high_privilege.  hp_target e = "memberof of e lists HP" (the FILTER_HP test). *)
From Coq Require Import List NArith Bool.
Import ListNotations.
Require Import KV.C24.Model KV.C24.Proofs KV.C25.Builtin KV.C25.Model KV.C25.Proofs.
Open Scope N_scope.

(* The delegation premise in world form implies the executable one. *)
Theorem C25_hp_managers_exclude_low_users : forall (W : N -> list N) i e,
  (forall x g h, In g (W x) -> In h (W g) -> In h (W x)) ->
  (forall g, In g (i_memberof i) <-> In g (W (i_uuid i))) ->
  ~ In HP (W (i_uuid i)) ->
  (forall ms m, ava A_EntryManagedBy e = Some ms -> In m ms -> In HP (W m)) ->
  manager_ok i e = false.
Proof.
  intros W i e Htr Hmo Hn Hms. unfold manager_ok.
  destruct (ava A_EntryManagedBy e) as [ms|] eqn:E; [|reflexivity].
  apply orb_false_iff. split.
  - apply negb_true_iff, disjoint_In. intros m Hm Hin. apply Hn.
    apply (Htr (i_uuid i) m HP); [apply Hmo; exact Hm | exact (Hms ms m eq_refl Hin)].
  - apply mem_false_iff. intros Hin. apply Hn. exact (Hms ms (i_uuid i) eq_refl Hin).
Qed.

(* THE PROPERTY, over a world of memberships.  W x is the memberof the server maintains for entity
   x; it is transitive, and the shipped nesting of the built-in groups is in place (an administrator
   may have ADDED groups, members and nesting at will).  A user who is not a member of HP — whatever
   built-in role groups and other groups the user is in — can change NOTHING (no attribute at all,
   so in particular no credential, session, account detail or group membership; ml is arbitrary) on,
   and cannot delete, an entry that is a member of HP, provided every entry manager of that entry is
   itself high-privilege (the property's "not delegated to a non-high-privilege entry manager"). *)
Theorem C25_hp_protected : forall (W : N -> list N) i e t,
  (forall x g h, In g (W x) -> In h (W g) -> In h (W x)) ->
  (forall g h, In h (parents nesting g) -> In h (W g)) ->
  i_origin i = OUser ->
  (forall g, In g (i_memberof i) <-> In g (W (i_uuid i))) ->
  ~ In HP (W (i_uuid i)) ->
  euuid e = Some t ->
  (forall vs g, ava A_MemberOf e = Some vs -> In g vs -> In g (W t)) ->
  hp_target e = true ->
  (forall ms m, ava A_EntryManagedBy e = Some ms -> In m ms -> In HP (W m)) ->
  (forall ml, modify_entry i builtin e ml = false) /\ delete_entry i builtin e = false.
Proof.
  intros W i e t Htr Hnest Ho Hmo Hn Hu Hemo Hhp Hms. apply builtin_hp_protected.
  - apply closedb_spec. intros g h Hg Hh. apply Hmo.
    apply (Htr (i_uuid i) g h); [apply Hmo; exact Hg | exact (Hnest g h Hh)].
  - apply subject_iff. repeat split; try assumption.
    + apply mem_false_iff. intros Hin. apply Hn, Hmo, Hin.
    + (* the target is another entry: it is high-privilege, the user is not *)
      apply (not_self i e t Hu). intros ->. apply Hn.
      unfold hp_target in Hhp. destruct (ava A_MemberOf e) as [vs|] eqn:E; [|discriminate].
      apply (Hemo vs HP eq_refl), mem_In, Hhp.
    + exact (C25_hp_managers_exclude_low_users W i e Htr Hmo Hn Hms).
Qed.

(* "Every subset of built-in role groups", without a bound: R is ANY list of directly held groups
   (built-in role groups or not); the user's memberof is R closed under the shipped nesting.  If
   that closure does not reach HP, every modify and the delete of a high-privilege entry other
   than the user's own, of which the user is not an entry manager, are refused. *)
Theorem C25_every_role_subset : forall R i e,
  i_origin i = OUser -> i_memberof i = closure nesting R -> mem HP (closure nesting R) = false ->
  hp_target e = true -> is_self i e = false -> manager_ok i e = false ->
  (forall ml, modify_entry i builtin e ml = false) /\ delete_entry i builtin e = false.
Proof.
  intros R i e Ho Hmo Hn Hhp Hs Hm. apply builtin_hp_protected.
  - rewrite Hmo. apply closure_closed. exact builtin_nesting_transitive.
  - apply subject_iff. rewrite Hmo. repeat split; assumption.
Qed.

(* The same with the hypotheses as the executable predicate the correspondence run evaluates:
   memberof consistent with the shipped nesting, and `subject` (user, HP not in memberof, target in
   HP, target is another entry, user not an entry manager of it). *)
Theorem C25_subject_denied : forall i e,
  closedb nesting (i_memberof i) = true -> subject i e = true ->
  (forall ml, modify_entry i builtin e ml = false) /\ delete_entry i builtin e = false.
Proof. exact builtin_hp_protected. Qed.

(* In the property's own words: no request that touches a credential-, session-, account-detail-
   or membership-bearing attribute is allowed.  The last two hypotheses only name the case: by
   C25_subject_denied every modify list is refused, whatever it touches. *)
Theorem C25_no_sensitive_change : forall i e ml a,
  closedb nesting (i_memberof i) = true -> subject i e = true ->
  In a SENSITIVE -> In a (adds ml) \/ In a (removes ml) ->
  modify_entry i builtin e ml = false.
Proof. intros i e ml a Hc Hs _ _. exact (proj1 (builtin_hp_protected i e Hc Hs) ml). Qed.

(* Recycle-bin revive of such an entry (the fake modify of recycle.rs) is refused as well. *)
Theorem C25_no_revive : forall i e,
  closedb nesting (i_memberof i) = true -> subject i e = true ->
  decide i builtin [e] OpRevive = false.
Proof.
  intros i e Hc Hs. unfold decide. cbn [forallb entry_decision].
  rewrite (proj1 (builtin_hp_protected i e Hc Hs) REVIVE_MODLIST). reflexivity.
Qed.

(* GENERAL criterion, for ANY set of access control profiles A (not only the shipped ones): a user
   none of whose groups receives a modify (delete) profile whose target could match a
   high-privilege entry other than the user's own (hp_writers: three-valued evaluation of the
   target filter knowing only "memberof contains HP" and "not self") cannot modify (delete) such an
   entry unless he is one of its entry managers.  This also covers high-privilege role holders with
   a limited remit: see Witness (service desk, on-boarding, group / service-account admins). *)
Theorem C25_profiles_cannot_reach_hp : forall i A e,
  i_origin i = OUser -> hp_target e = true -> is_self i e = false -> manager_ok i e = false ->
  (disjoint (i_memberof i) (hp_writers (ac_modify A)) = true -> forall ml, modify_entry i A e ml = false) /\
  (disjoint (i_memberof i) (hp_writers (ac_delete A)) = true -> delete_entry i A e = false).
Proof.
  intros i A e Ho Hhp Hs Hm. assert (Hout : outsider i e) by (repeat split; assumption). split.
  - intros Hd ml. exact (modify_denied_general i A e ml Hout Hd).
  - exact (delete_denied_general i A e Hout).
Qed.

(* EXTENSION (beyond the literal statement): holders of the limited-remit roles — service desk,
   people on-boarding, group admins, service-account admins, OAuth2-account admins — are members of
   HP themselves, yet as long as they hold no other high-privilege group they, too, can change
   nothing on and cannot delete a high-privilege entry (other than their own / one they manage):
   the profiles they receive exclude high-privilege targets. *)
Theorem C25_limited_roles_denied : forall i e,
  subject_limited i e = true ->
  (forall ml, modify_entry i builtin e ml = false) /\ delete_entry i builtin e = false.
Proof. exact limited_denied. Qed.

(* The shipped data meets the criterion: every group that receives a modify or delete profile able
   to reach a high-privilege entry is itself a member of HP; and the dumped nesting is transitively
   closed.  (Re-proved by computation whenever the regenerated data changes.) *)
Theorem C25_shipped_data_safe :
  data_safe builtin nesting = true /\ nesting_transitive nesting = true.
Proof. split; [exact builtin_data_safe | exact builtin_nesting_transitive]. Qed.

(* The group fact behind C25_subject_denied, for any nesting data: a memberof that is consistent
   with the nesting and does not contain HP contains no high-privilege group at all. *)
Theorem C25_not_hp_means_no_hp_role : forall n G,
  closedb n G = true -> mem HP G = false -> disjoint G (hp_groups n) = true.
Proof. exact closed_not_hp_disjoint. Qed.

(* Bridge to the implementation: on every recorded case where the model and kanidm agree (the
   dumped data equals the data the theorems are about; the live access decisions and real modify
   outcomes equal the model's), the implementation's own answers satisfy the property. *)
Theorem C25_agree_implies_property : forall c, agree c = true -> pcheck c = true.
Proof. exact agree_implies_pcheck. Qed.
