(* Non-vacuity: concrete users / targets satisfy the hypotheses of the theorems, the model is not
   trivially "denied", and the premises are needed. *)
From Coq Require Import List NArith Bool String.
Import ListNotations.
Require Import KV.C24.Model KV.C24.Proofs KV.C25.Builtin KV.C25.Model KV.C25.Proofs.
Open Scope N_scope.

(* uuids outside the built-in range *)
Definition U_LOW : N := 281474976720001.
Definition U_HPP : N := 281474976720002.
Definition U_ADM : N := 281474976720003.
Definition U_GRP : N := 281474976720004.
Definition G_SELF_NAME : N := 72.   (* idm_people_self_name_write *)
Definition G_ALL_PERSONS : N := 53.
Definition G_ALL_ACCOUNTS : N := 54.
Definition G_PEOPLE_ADMINS : N := 19.
Definition G_SERVICE_DESK : N := 65.
Definition G_ON_BOARDING : N := 69.
Definition G_GROUP_ADMINS : N := 21.
Definition G_SERVICE_ACCOUNT_ADMINS : N := 70.

(* an ordinary person: dynamic groups and the default self-name-write role *)
Definition low_user : ident := mkI OUser ScRW U_LOW [G_ALL_PERSONS; G_ALL_ACCOUNTS; G_SELF_NAME].
(* a member of idm_people_admins (hence of HP) *)
Definition people_admin : ident := mkI OUser ScRW U_ADM [G_PEOPLE_ADMINS; G_ALL_PERSONS; G_ALL_ACCOUNTS; G_SELF_NAME; HP].
(* a service desk member (hence of HP), a role with a remit limited to non-HP persons *)
Definition service_desk : ident := mkI OUser ScRW U_ADM [G_SERVICE_DESK; G_ALL_PERSONS; G_ALL_ACCOUNTS; G_SELF_NAME; HP].

Definition hp_person : entry :=
  [(A_Class, [K_Object; K_Account; K_Person; K_MemberOf]); (A_Uuid, [U_HPP]); (A_Name, [0]);
   (A_DisplayName, [0]); (A_MemberOf, [G_ALL_PERSONS; G_ALL_ACCOUNTS; G_SELF_NAME; HP]);
   (A_PrimaryCredential, [0])].
(* a high-privilege group whose entry manager is the ordinary person: the excluded delegation *)
Definition hp_group_managed_by_low : entry :=
  [(A_Class, [K_Object; K_Group; K_MemberOf]); (A_Uuid, [U_GRP]); (A_Name, [0]);
   (A_Member, [U_HPP]); (A_MemberOf, [HP]); (A_EntryManagedBy, [U_LOW])].
Definition low_entry : entry :=
  [(A_Class, [K_Object; K_Account; K_Person; K_MemberOf]); (A_Uuid, [U_LOW]); (A_Name, [0]);
   (A_DisplayName, [0]); (A_MemberOf, [G_ALL_PERSONS; G_ALL_ACCOUNTS; G_SELF_NAME])].

(* hypotheses of C25_subject_denied / C25_no_sensitive_change / C25_no_revive hold for a concrete pair *)
Example C25_witness_subject :
  closedb nesting (i_memberof low_user) = true /\ subject low_user hp_person = true.
Proof. split; vm_compute; reflexivity. Qed.

(* hypotheses of C25_every_role_subset: direct groups self-name-write, idm_mail_servers (82),
   idm_unix_authentication_read (83) and idm_all_persons *)
Example C25_witness_role_subset :
  let R := [G_SELF_NAME; 82; 83; G_ALL_PERSONS] in
  mem HP (closure nesting R) = false /\ hp_target hp_person = true
  /\ is_self (mkI OUser ScRW U_LOW (closure nesting R)) hp_person = false
  /\ manager_ok (mkI OUser ScRW U_LOW (closure nesting R)) hp_person = false.
Proof. vm_compute. repeat split; reflexivity. Qed.

(* the model is not trivially "denied": a people admin may reset the high-privilege person's
   credential and change the name, an ordinary person may write the own credential *)
Example C25_witness_model_allows :
  modify_entry people_admin builtin hp_person [MPurged A_PrimaryCredential] = true
  /\ modify_entry people_admin builtin hp_person [MPresent A_DisplayName 0] = true
  /\ modify_entry low_user builtin low_entry [MPurged A_PrimaryCredential] = true
  /\ modify_entry low_user builtin hp_person [MPurged A_PrimaryCredential] = false.
Proof. vm_compute. repeat split; reflexivity. Qed.

(* the delegation premise is needed: the ordinary person who is entry manager of a high-privilege
   group CAN change its membership (so `manager_ok i e = false` cannot be dropped) *)
Example C25_witness_manager_premise_needed :
  subject low_user hp_group_managed_by_low = false
  /\ hp_target hp_group_managed_by_low = true /\ mem HP (i_memberof low_user) = false
  /\ modify_entry low_user builtin hp_group_managed_by_low [MPresent A_Member 0] = true.
Proof. vm_compute. repeat split; reflexivity. Qed.

(* hypotheses of C25_profiles_cannot_reach_hp for high-privilege role holders with a limited remit:
   service desk, people on-boarding, group admins and service-account admins receive no modify
   profile that can reach a high-privilege entry — and the criterion is not vacuous: people admins do *)
Example C25_witness_limited_roles :
  disjoint (i_memberof service_desk) (hp_writers (ac_modify builtin)) = true
  /\ disjoint [G_ON_BOARDING; G_GROUP_ADMINS; G_SERVICE_ACCOUNT_ADMINS; HP] (hp_writers (ac_modify builtin)) = true
  /\ hp_target hp_person = true /\ is_self service_desk hp_person = false
  /\ manager_ok service_desk hp_person = false
  /\ mem G_PEOPLE_ADMINS (hp_writers (ac_modify builtin)) = true
  /\ modify_entry service_desk builtin hp_person [MPurged A_PrimaryCredential] = false.
Proof. vm_compute. repeat split; reflexivity. Qed.

(* hypothesis of C25_limited_roles_denied holds for the service desk member; a people admin is not
   a limited user *)
Example C25_witness_limited_subject :
  subject_limited service_desk hp_person = true /\ subject service_desk hp_person = false
  /\ limited_user people_admin = false /\ limited_user low_user = true.
Proof. vm_compute. repeat split; reflexivity. Qed.

(* the numbers in LIMITED_ROLES are the groups meant (names from the generated data) *)
Fixpoint name_of (g : N) (l : list (N * String.string)) : String.string :=
  match l with [] => String.EmptyString | (k, s) :: r => if g =? k then s else name_of g r end.
Example C25_witness_limited_role_names :
  map (fun g => name_of g group_names) LIMITED_ROLES =
  ["idm_service_desk"; "idm_people_on_boarding"; "idm_group_admins"; "idm_service_account_admins";
   "idm_oauth2_account_admins"]%string
  /\ name_of HP group_names = "idm_high_privilege"%string.
Proof. vm_compute. split; reflexivity. Qed.

(* C25_not_hp_means_no_hp_role is not vacuous, and consistency matters: a memberof that lists
   idm_people_admins without HP is NOT consistent with the shipped nesting *)
Example C25_witness_closed :
  closedb nesting [G_SELF_NAME; G_ALL_PERSONS] = true /\ mem HP [G_SELF_NAME; G_ALL_PERSONS] = false
  /\ closedb nesting [G_PEOPLE_ADMINS] = false /\ mem G_PEOPLE_ADMINS (hp_groups nesting) = true.
Proof. vm_compute. repeat split; reflexivity. Qed.

(* memberof of every entity: the ordinary person, the high-privilege person, and the shipped
   nesting for everything else *)
Definition W (x : N) : list N :=
  if x =? U_LOW then [G_ALL_PERSONS; G_ALL_ACCOUNTS; G_SELF_NAME]
  else if x =? U_HPP then [G_ALL_PERSONS; G_ALL_ACCOUNTS; G_SELF_NAME; HP]
  else parents nesting x.

(* 100000: any bound above the group numbers of the shipped nesting and below U_LOW / U_HPP does;
   it makes W fall through to `parents nesting` on every group *)
Lemma nesting_small : forallb (fun p => forallb (fun g => g <? 100000) (snd p)) nesting = true.
Proof. vm_compute. reflexivity. Qed.
Lemma parents_small x g : In g (parents nesting x) -> g < 100000.
Proof.
  intros H. pose proof nesting_small as S. rewrite forallb_forall in S.
  specialize (S _ (parents_In nesting x g H)). cbn [snd] in S.
  rewrite forallb_forall in S. apply N.ltb_lt. exact (S g H).
Qed.
Lemma W_group g : g < 100000 -> W g = parents nesting g.
Proof.
  intros H. unfold W.
  destruct (N.eqb_spec g U_LOW) as [->|_]; [discriminate H|].
  destruct (N.eqb_spec g U_HPP) as [->|_]; [discriminate H | reflexivity].
Qed.
Lemma W_transitive : forall x g h, In g (W x) -> In h (W g) -> In h (W x).
Proof.
  intros x g h Hg Hh. unfold W in Hg |- *.
  destruct (x =? U_LOW).
  - cbn [In] in Hg. destruct Hg as [<-|[<-|[<-|[]]]]; vm_compute in Hh; vm_compute; tauto.
  - destruct (x =? U_HPP).
    + cbn [In] in Hg. destruct Hg as [<-|[<-|[<-|[<-|[]]]]]; vm_compute in Hh; vm_compute; tauto.
    + rewrite (W_group g (parents_small x g Hg)) in Hh.
      exact (nesting_transitive_spec nesting builtin_nesting_transitive x g h Hg Hh).
Qed.

(* the nine hypotheses of C25_hp_protected, for low_user and hp_person in the world W *)
Example C25_witness_world :
  (forall x g h, In g (W x) -> In h (W g) -> In h (W x))
  /\ (forall g h, In h (parents nesting g) -> In h (W g))
  /\ i_origin low_user = OUser
  /\ (forall g, In g (i_memberof low_user) <-> In g (W (i_uuid low_user)))
  /\ ~ In HP (W (i_uuid low_user))
  /\ euuid hp_person = Some U_HPP
  /\ (forall vs g, ava A_MemberOf hp_person = Some vs -> In g vs -> In g (W U_HPP))
  /\ hp_target hp_person = true
  /\ (forall ms m, ava A_EntryManagedBy hp_person = Some ms -> In m ms -> In HP (W m)).
Proof.
  split; [exact W_transitive|].
  split.
  { intros g h Hh. unfold W.
    destruct (N.eqb_spec g U_LOW) as [->|_]; [destruct Hh|].
    destruct (N.eqb_spec g U_HPP) as [->|_]; [destruct Hh | exact Hh]. }
  split; [reflexivity|].
  split; [intros g; vm_compute; tauto|].
  split; [vm_compute; intuition discriminate|].
  split; [reflexivity|].
  split.
  { intros vs g E Hg. vm_compute in E. injection E as <-. vm_compute. vm_compute in Hg. exact Hg. }
  split; [vm_compute; reflexivity|].
  intros ms m E. vm_compute in E. discriminate.
Qed.

(* pcheck is not vacuous on the case shapes: a case whose subject holds and whose verdicts are
   denials passes, the same case with one allowed verdict fails *)
Example C25_witness_pcheck :
  pcheck (CPair low_user hp_person false [] false) = true
  /\ pcheck (CPair low_user hp_person false [1] false) = false
  /\ pcheck (CPair low_user hp_person false [] true) = false
  /\ agree (CPair low_user hp_person false [] false) = true
  /\ agree (CPair people_admin hp_person false [] false) = false
  /\ pcheck (CSrv low_user hp_person [MPurged A_PrimaryCredential] SOk true) = false
  /\ agree (CData builtin nesting) = true /\ pcheck (CData builtin nesting) = true.
Proof. vm_compute. repeat split; reflexivity. Qed.

(* the criterion detects an unsafe profile set: had idm_acp_people_credential_reset (received by
   service desk and on-boarding) not excluded HP targets, the data would not be safe — and neither
   would it be if idm_people_admins were not a member of HP *)
Definition unsafe_modify : list acp :=
  [mkA (RGroup [G_PEOPLE_ADMINS; G_SERVICE_DESK; G_ON_BOARDING])
       (Some (TAnd [TEq A_Class K_Account; TEq A_Class K_Person; TNot (TOr [TEq A_Class K_Recycled; TEq A_Class K_Tombstone])]))
       [A_PrimaryCredential] [A_PrimaryCredential] [] []].
Example C25_witness_criterion_detects :
  data_safe (mkAcps unsafe_modify [] [] []) [(G_PEOPLE_ADMINS, [HP]); (G_SERVICE_DESK, []); (G_ON_BOARDING, [HP])] = false
  /\ data_safe (mkAcps unsafe_modify [] [] []) [(G_PEOPLE_ADMINS, [HP]); (G_SERVICE_DESK, [HP]); (G_ON_BOARDING, [HP])] = true
  /\ data_safe builtin (filter (fun p => negb (fst p =? G_PEOPLE_ADMINS)) nesting) = false.
Proof. vm_compute. repeat split; reflexivity. Qed.
