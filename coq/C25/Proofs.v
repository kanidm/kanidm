(* An `outsider` (a user; a high-privilege target that is not his own entry and that he does not
   manage) whose groups avoid hp_writers matches no profile, because the three-valued evaluation of
   target filters is sound; by C24's exact characterisation he is then refused.  The shipped data
   meets the criterion by computation, for every user who holds no high-privilege group beyond HP
   and the limited roles — in particular for every user outside HP. *)
From Coq Require Import List NArith Bool Lia.
Import ListNotations.
Require Import KV.C24.Model KV.C24.Proofs KV.C25.Builtin KV.C25.Model.
Open Scope N_scope.

(* the generated tf_ind gives no hypothesis for the list children of TAnd / TOr *)
Section TfInd.
  Variable P : tf -> Prop.
  Hypothesis HEq : forall a v, P (TEq a v).
  Hypothesis HPres : forall a, P (TPres a).
  Hypothesis HSelf : P TSelf.
  Hypothesis HAnd : forall l, Forall P l -> P (TAnd l).
  Hypothesis HOr : forall l, Forall P l -> P (TOr l).
  Hypothesis HNot : forall f, P f -> P (TNot f).
  Fixpoint tf_ind' (f : tf) : P f :=
    let all := fix all (l : list tf) : Forall P l :=
                 match l with
                 | [] => Forall_nil P
                 | x :: r => Forall_cons x (tf_ind' x) (all r)
                 end in
    match f with
    | TEq a v => HEq a v
    | TPres a => HPres a
    | TSelf => HSelf
    | TAnd l => HAnd l (all l)
    | TOr l => HOr l (all l)
    | TNot g => HNot g (tf_ind' g)
    end.
End TfInd.

Lemma hp_groups_spec n g : In g (hp_groups n) -> g = HP \/ In HP (parents n g).
Proof.
  unfold hp_groups. intros [H|H]; [left; symmetry; exact H|].
  apply filter_In in H as [_ H]. right. apply mem_In. exact H.
Qed.
Lemma closedb_spec n G : closedb n G = true <-> (forall g h, In g G -> In h (parents n g) -> In h G).
Proof.
  unfold closedb. rewrite forallb_forall. split.
  - intros H g h Hg. apply subset_In, H, Hg.
  - intros H g Hg. apply subset_In. intros h. apply H, Hg.
Qed.
Lemma closed_not_hp_disjoint n G :
  closedb n G = true -> mem HP G = false -> disjoint G (hp_groups n) = true.
Proof.
  intros Hc Hn. apply disjoint_In. intros g Hg Hh.
  apply mem_false_iff in Hn. apply Hn.
  apply hp_groups_spec in Hh as [->|Hh]; [exact Hg|].
  rewrite closedb_spec in Hc. exact (Hc g HP Hg Hh).
Qed.

Lemma parents_In n g h : In h (parents n g) -> In (g, parents n g) n.
Proof.
  unfold parents. induction n as [|[k v] r IH]; cbn [assoc]; [intros []|].
  destruct (N.eqb_spec g k) as [->|_]; intros H; [left; reflexivity | right; exact (IH H)].
Qed.
Lemma nesting_transitive_spec n : nesting_transitive n = true ->
  forall g h k, In h (parents n g) -> In k (parents n h) -> In k (parents n g).
Proof.
  unfold nesting_transitive. rewrite forallb_forall. intros Ht g h k Hh.
  specialize (Ht _ (parents_In n g h Hh)). cbn [snd] in Ht. rewrite forallb_forall in Ht.
  apply subset_In, Ht, Hh.
Qed.
Lemma closure_closed n R : nesting_transitive n = true -> closedb n (closure n R) = true.
Proof.
  intros Ht. apply closedb_spec. intros g h Hg Hh. unfold closure in *.
  apply in_or_app. right. apply in_flat_map.
  apply in_app_or in Hg as [Hg|Hg].
  - exists g. split; assumption.
  - apply in_flat_map in Hg as [r [Hr Hg]]. exists r. split; [exact Hr|].
    exact (nesting_transitive_spec n Ht r g h Hg Hh).
Qed.

(* a definite verdict is the right one *)
Definition agrees (t : tri) (b : bool) : Prop :=
  match t with TriT => b = true | TriF => b = false | TriU => True end.

Lemma tri_all_agrees (a : tf -> tri) (m : tf -> bool) l :
  Forall (fun x => agrees (a x) (m x)) l -> agrees (tri_all (map a l)) (forallb m l).
Proof.
  induction 1 as [|x l Hx _ IH]; [reflexivity|].
  unfold tri_all in *. cbn [map existsb forallb].
  destruct (a x), (existsb tri_is_f (map a l)), (forallb tri_is_t (map a l));
    cbn in *; rewrite ?Hx, ?IH, ?andb_false_r; trivial.
Qed.
Lemma tri_any_agrees (a : tf -> tri) (m : tf -> bool) l :
  Forall (fun x => agrees (a x) (m x)) l -> agrees (tri_any (map a l)) (existsb m l).
Proof.
  induction 1 as [|x l Hx _ IH]; [reflexivity|].
  unfold tri_any in *. cbn [map existsb forallb].
  destruct (a x), (existsb tri_is_t (map a l)), (forallb tri_is_f (map a l));
    cbn in *; rewrite ?Hx, ?IH, ?orb_true_r; trivial.
Qed.

Section Sound.
  Variables (u : N) (e : entry).
  Hypothesis Hhp : hp_target e = true.
  Hypothesis Hself : tmatch u e TSelf = false.

  Lemma aeval_sound f : agrees (aeval f) (tmatch u e f).
  Proof.
    induction f as [a v | a | | l IH | l IH | g IH] using tf_ind'; cbn [aeval tmatch].
    - destruct (N.eqb_spec a A_MemberOf) as [->|_]; [|exact I].
      destruct (N.eqb_spec v HP) as [->|_]; [exact Hhp | exact I].
    - destruct (N.eqb_spec a A_MemberOf) as [->|_]; [|exact I].
      unfold hp_target in Hhp. destruct (ava A_MemberOf e); [reflexivity | discriminate].
    - exact Hself.
    - apply tri_all_agrees, IH.
    - apply tri_any_agrees, IH.
    - destruct (aeval g); cbn [tri_neg agrees] in *; [rewrite IH; reflexivity.. | exact I].
  Qed.
End Sound.

Definition outsider (i : ident) (e : entry) : Prop :=
  i_origin i = OUser /\ hp_target e = true /\ is_self i e = false /\ manager_ok i e = false.

Lemma hp_writers_incl l a g :
  In a l -> a_recv a = RGroup g -> may_match_hp a = true -> forall x, In x g -> In x (hp_writers l).
Proof.
  intros Ha Hr Hm x Hx. unfold hp_writers. apply in_flat_map. exists a. split; [exact Ha|].
  rewrite Hr, Hm. exact Hx.
Qed.

Lemma no_profile_matches i e l :
  outsider i e -> disjoint (i_memberof i) (hp_writers l) = true ->
  forall a, In a l -> acp_matches i e a = false.
Proof.
  intros (_ & Hhp & Hs & Hm) Hd a Ha. unfold acp_matches.
  destruct (a_recv a) as [|g|] eqn:Er; [reflexivity| |].
  - destruct (a_target a) as [f|] eqn:Et; [|reflexivity].
    destruct (may_match_hp a) eqn:Em.
    + (* its receivers are among the writers: the user is in none of these groups *)
      replace (intersects (i_memberof i) g) with false; [reflexivity|].
      symmetry. apply negb_true_iff, disjoint_In. intros x Hx Hg. rewrite disjoint_In in Hd.
      exact (Hd x Hx (hp_writers_incl l a g Ha Er Em x Hg)).
    + (* its target filter is definitely false on e *)
      unfold may_match_hp in Em. rewrite Et in Em.
      pose proof (aeval_sound (i_uuid i) e Hhp Hs f) as S.
      destruct (aeval f); try discriminate. rewrite S. apply andb_false_r.
  - destruct (a_target a); [|reflexivity]. rewrite Hm. reflexivity.
Qed.

(* for ANY profile set A: an allowed operation needs a matching profile (C24) *)
Theorem modify_denied_general i A e ml :
  outsider i e -> disjoint (i_memberof i) (hp_writers (ac_modify A)) = true ->
  modify_entry i A e ml = false.
Proof.
  intros Ho Hd. apply not_true_iff_false. intros H.
  apply (modify_needs_match i A e ml (proj1 Ho)) in H as (p & Hp & Hm).
  rewrite (no_profile_matches i e _ Ho Hd p Hp) in Hm. discriminate.
Qed.
Theorem delete_denied_general i A e :
  outsider i e -> disjoint (i_memberof i) (hp_writers (ac_delete A)) = true ->
  delete_entry i A e = false.
Proof.
  intros Ho Hd. apply not_true_iff_false. intros H.
  apply (delete_needs_match i A e (proj1 Ho)) in H as (p & Hp & Hm).
  rewrite (no_profile_matches i e _ Ho Hd p Hp) in Hm. discriminate.
Qed.

Lemma builtin_data_safe : data_safe builtin nesting = true.
Proof. vm_compute. reflexivity. Qed.
Lemma builtin_nesting_transitive : nesting_transitive nesting = true.
Proof. vm_compute. reflexivity. Qed.
Lemma limited_roles_receive_nothing :
  disjoint (HP :: LIMITED_ROLES) (hp_writers (ac_modify builtin)) = true
  /\ disjoint (HP :: LIMITED_ROLES) (hp_writers (ac_delete builtin)) = true.
Proof. split; vm_compute; reflexivity. Qed.

(* `subject` and `subject_limited` have one shape; x is what they say about the user's groups *)
Lemma subject_shape (x : bool) i e :
  match i_origin i with OUser => true | _ => false end && x && hp_target e
  && negb (is_self i e) && negb (manager_ok i e) = true <-> x = true /\ outsider i e.
Proof.
  unfold outsider. split.
  - intros H. apply andb_true_iff in H as [H Hm]. apply andb_true_iff in H as [H Hs].
    apply andb_true_iff in H as [H Hhp]. apply andb_true_iff in H as [Ho Hx]. apply negb_true_iff in Hs, Hm.
    destruct (i_origin i); try discriminate Ho. repeat split; assumption.
  - intros [Hx (Ho & Hhp & Hs & Hm)]. rewrite Ho, Hx, Hhp, Hs, Hm. reflexivity.
Qed.
Lemma subject_iff i e : subject i e = true <-> mem HP (i_memberof i) = false /\ outsider i e.
Proof. unfold subject. rewrite subject_shape, negb_true_iff. reflexivity. Qed.
Lemma subject_limited_iff i e : subject_limited i e = true <-> limited_user i = true /\ outsider i e.
Proof. apply subject_shape. Qed.

Lemma not_self i e t : euuid e = Some t -> t <> i_uuid i -> is_self i e = false.
Proof.
  unfold is_self, euuid. cbn [tmatch]. destruct (ava A_Uuid e) as [[|x [|y r]]|]; try discriminate.
  intros [= ->] Hne. cbn [mem existsb]. rewrite orb_false_r. apply N.eqb_neq. congruence.
Qed.

Lemma limited_user_disjoint i l :
  limited_user i = true -> subset l (hp_groups nesting) = true -> disjoint (HP :: LIMITED_ROLES) l = true ->
  disjoint (i_memberof i) l = true.
Proof.
  intros Hl Hs Hd. apply disjoint_In. intros x Hx Hxl.
  unfold limited_user in Hl. rewrite forallb_forall in Hl. specialize (Hl x Hx).
  rewrite subset_In in Hs. specialize (Hs x Hxl). apply mem_In in Hs. rewrite Hs in Hl.
  cbn [negb orb] in Hl. rewrite disjoint_In in Hd. apply (Hd x); [|exact Hxl].
  apply orb_true_iff in Hl as [Hl|Hl].
  - apply N.eqb_eq in Hl. subst x. left. reflexivity.
  - right. apply mem_In. exact Hl.
Qed.

Theorem limited_denied i e :
  subject_limited i e = true ->
  (forall ml, modify_entry i builtin e ml = false) /\ delete_entry i builtin e = false.
Proof.
  intros Hs. apply subject_limited_iff in Hs as [Hl Ho].
  pose proof builtin_data_safe as S. unfold data_safe in S. apply andb_true_iff in S as [S1 S2].
  destruct limited_roles_receive_nothing as [D1 D2].
  split.
  - intros ml. exact (modify_denied_general i builtin e ml Ho (limited_user_disjoint i _ Hl S1 D1)).
  - exact (delete_denied_general i builtin e Ho (limited_user_disjoint i _ Hl S2 D2)).
Qed.

(* outside HP with a consistent memberof means no high-privilege group at all, so limited *)
Lemma subject_is_limited i e :
  closedb nesting (i_memberof i) = true -> subject i e = true -> subject_limited i e = true.
Proof.
  intros Hc Hs. apply subject_iff in Hs as [Hn Ho]. apply subject_limited_iff. split; [|exact Ho].
  pose proof (closed_not_hp_disjoint nesting _ Hc Hn) as Hd. rewrite disjoint_In in Hd.
  apply forallb_forall. intros g Hg.
  replace (mem g (hp_groups nesting)) with false; [reflexivity|].
  symmetry. apply mem_false_iff. exact (Hd g Hg).
Qed.

Theorem builtin_hp_protected i e :
  closedb nesting (i_memberof i) = true -> subject i e = true ->
  (forall ml, modify_entry i builtin e ml = false) /\ delete_entry i builtin e = false.
Proof. intros Hc Hs. exact (limited_denied i e (subject_is_limited i e Hc Hs)). Qed.

Theorem protected_denied i e :
  closedb nesting (i_memberof i) = true -> protected_pair i e = true ->
  (forall ml, modify_entry i builtin e ml = false) /\ delete_entry i builtin e = false.
Proof.
  intros Hc Hp. apply limited_denied. apply orb_true_iff in Hp as [Hp|Hp]; [|exact Hp].
  exact (subject_is_limited i e Hc Hp).
Qed.

Lemma list_eqb_eq {A} (eq : A -> A -> bool) :
  (forall a b, eq a b = true -> a = b) -> forall l m, list_eqb eq l m = true -> l = m.
Proof.
  intros H l. induction l as [|x r IH]; intros [|y s]; cbn [list_eqb]; try discriminate; [reflexivity|].
  intros E. apply andb_true_iff in E as [E1 E2]. rewrite (H _ _ E1), (IH _ E2). reflexivity.
Qed.
Lemma Nlist_eqb_eq l m : list_eqb N.eqb l m = true -> l = m.
Proof. apply list_eqb_eq. intros a b. apply N.eqb_eq. Qed.
Lemma tf_eqb_eq f : forall g, tf_eqb f g = true -> f = g.
Proof.
  induction f as [a v | a | | l IH | l IH | f IH] using tf_ind';
    intros [b w | b | | m | m | g]; cbn [tf_eqb]; try discriminate; intros E.
  1: apply andb_true_iff in E as [E1 E2]; apply N.eqb_eq in E1, E2; subst; reflexivity.
  1: apply N.eqb_eq in E; subst; reflexivity.
  1: reflexivity.
  3: rewrite (IH _ E); reflexivity.
  (* And, Or: the inner loop of tf_eqb is list_eqb tf_eqb written out *)
  all: f_equal; revert m E; induction IH as [|x r Hx _ IHr]; intros [|y s] E; try discriminate; [reflexivity|].
  all: apply andb_true_iff in E as [E1 E2]; rewrite (Hx _ E1), (IHr _ E2); reflexivity.
Qed.
Lemma recv_eqb_eq a b : recv_eqb a b = true -> a = b.
Proof.
  destruct a as [|g|], b as [|h|]; cbn [recv_eqb]; try discriminate; try reflexivity.
  intros E. rewrite (Nlist_eqb_eq g h E). reflexivity.
Qed.
Lemma otf_eqb_eq a b : otf_eqb a b = true -> a = b.
Proof.
  destruct a as [f|], b as [g|]; cbn [otf_eqb]; try discriminate; try reflexivity.
  intros E. rewrite (tf_eqb_eq f g E). reflexivity.
Qed.
Lemma acp_eqb_eq a b : acp_eqb a b = true -> a = b.
Proof.
  destruct a as [r1 t1 s1 s2 c1 c2], b as [r2 t2 u1 u2 d1 d2]. unfold acp_eqb. cbn [a_recv a_target a_s1 a_s2 a_c1 a_c2].
  intros E. apply andb_true_iff in E as [E H4]. apply andb_true_iff in E as [E H3].
  apply andb_true_iff in E as [E H2]. apply andb_true_iff in E as [E H1]. apply andb_true_iff in E as [Hr Ht].
  rewrite (recv_eqb_eq _ _ Hr), (otf_eqb_eq _ _ Ht), (Nlist_eqb_eq _ _ H1), (Nlist_eqb_eq _ _ H2),
    (Nlist_eqb_eq _ _ H3), (Nlist_eqb_eq _ _ H4). reflexivity.
Qed.
Lemma pair_eqb_eq a b : pair_eqb a b = true -> a = b.
Proof.
  destruct a as [k1 l1], b as [k2 l2]. unfold pair_eqb. cbn [fst snd].
  intros E. apply andb_true_iff in E as [E1 E2]. apply N.eqb_eq in E1.
  rewrite E1, (Nlist_eqb_eq _ _ E2). reflexivity.
Qed.
Lemma acps_eqb_eq A B : acps_eqb A B = true -> A = B.
Proof.
  destruct A as [m1 c1 d1 s1], B as [m2 c2 d2 s2]. unfold acps_eqb. cbn [ac_modify ac_create ac_delete ac_sync].
  intros E. apply andb_true_iff in E as [E Hs]. apply andb_true_iff in E as [E Hd]. apply andb_true_iff in E as [Hm Hc].
  rewrite (list_eqb_eq acp_eqb acp_eqb_eq _ _ Hm), (list_eqb_eq acp_eqb acp_eqb_eq _ _ Hc),
    (list_eqb_eq acp_eqb acp_eqb_eq _ _ Hd), (list_eqb_eq pair_eqb pair_eqb_eq _ _ Hs). reflexivity.
Qed.

Lemma check_from_denied f rs allowed : (forall r, f r = false) -> forall k,
  check_from k f rs allowed = true ->
  forall j, k <= j -> j < k + N.of_nat (length rs) -> mem j allowed = false.
Proof.
  intros Hf. induction rs as [|r rest IH]; intros k Hc j H1 H2; cbn [length check_from] in *; [lia|].
  apply andb_true_iff in Hc as [Hc1 Hc2]. rewrite Hf in Hc1.
  destruct (N.eq_dec j k) as [->|Hne].
  - destruct (mem k allowed); [discriminate | reflexivity].
  - apply (IH (N.succ k) Hc2); lia.
Qed.

Theorem agree_implies_pcheck c : agree c = true -> pcheck c = true.
Proof.
  destruct c as [A n | th rs | i e th allowed del | i e ml res unchanged]; cbn [agree pcheck].
  - intros H. apply andb_true_iff in H as [H1 H2].
    apply acps_eqb_eq in H1. apply (list_eqb_eq pair_eqb pair_eqb_eq) in H2. subst.
    exact builtin_data_safe.
  - reflexivity.
  - intros H. destruct (protected_pair i e) eqn:Hs; [|reflexivity].
    apply andb_true_iff in H as [H Hdel]. apply andb_true_iff in H as [H Hck].
    apply andb_true_iff in H as [Hc Hrange].
    destruct (protected_denied i e Hc Hs) as [Hm Hd].
    apply eqb_prop in Hdel. rewrite Hd in Hdel. subst del. rewrite andb_true_r.
    (* a listed number would be in range (Hrange) and its request refused (Hm) *)
    destruct allowed as [|k rest]; [reflexivity|]. exfalso.
    cbn [forallb] in Hrange. apply andb_true_iff in Hrange as [Hk _]. apply N.ltb_lt in Hk.
    assert (E : mem k (k :: rest) = false) by (apply (check_from_denied _ _ _ Hm 0 Hck); lia).
    cbn [mem existsb] in E. rewrite N.eqb_refl in E. discriminate.
  - intros H. destruct (protected_pair i e) eqn:Hs; [|reflexivity].
    apply andb_true_iff in H as [Hc H].
    destruct (protected_denied i e Hc Hs) as [Hm _]. rewrite (Hm ml) in H.
    apply andb_true_iff in H as [H1 H2]. subst unchanged. destruct res; try discriminate; reflexivity.
Qed.
