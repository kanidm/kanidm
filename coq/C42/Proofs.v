(* The parser on printed text.  The central notion is `costs lvl t x n`: the atom rule reads the text t,
   whatever legal text follows, as x at every depth budget from n on and rejects it below; a printed filter f
   costs `need f`, which gives the round trip and the exactness of the limit.
   The climbing loop is treated once, for chains of operands of any type. *)
From Coq Require Import List NArith ZArith Bool Lia Arith.
Import ListNotations.
Require Import KV.C42.Model.
Open Scope N_scope.

Lemma str_eqb_eq : forall a b, str_eqb a b = true <-> a = b.
Proof.
  induction a as [|x a IH]; intros [|y b]; cbn; rewrite ?andb_true_iff, ?N.eqb_eq, ?IH; intuition congruence.
Qed.

Definition stops (p : N -> bool) (r : str) : Prop :=
  match r with [] => True | c :: _ => p c = false end.
Lemma span_stop : forall p a r, forallb p a = true -> stops p r -> span p (a ++ r) = (a, r).
Proof.
  intros p a r Ha Hr. induction a as [|x a IH]; cbn [app span].
  - destruct r as [|c r]; cbn; [reflexivity|]. cbn in Hr. rewrite Hr. reflexivity.
  - cbn in Ha. apply andb_true_iff in Ha as [Hx Ha]. rewrite Hx, (IH Ha). reflexivity.
Qed.
Lemma forallb_impl : forall (p q : N -> bool) l,
  (forall c, p c = true -> q c = true) -> forallb p l = true -> forallb q l = true.
Proof.
  intros p q l H. induction l as [|x l IH]; cbn; [reflexivity|]. intros H1.
  apply andb_true_iff in H1 as [Hx Hl]. rewrite (H x Hx), (IH Hl). reflexivity.
Qed.

Definition word (t : str) : Prop := match t with [] => False | c :: _ => is_sep c = false end.
Lemma word_app : forall t r, word t -> word (t ++ r).
Proof. intros [|c t] r H; [destruct H | exact H]. Qed.
Lemma word_stops : forall t, word t -> stops is_sep t.
Proof. intros [|c t] H; [exact I | exact H]. Qed.

Lemma lit_app : forall l s, lit l (l ++ s) = Some s.
Proof. induction l as [|x l IH]; intros s; cbn; [reflexivity|]. rewrite N.eqb_refl. apply IH. Qed.

Lemma seps1_run : forall sa r, sep_ok sa = true -> stops is_sep r -> seps1 (sa ++ r) = Some r.
Proof.
  intros [|c sa] r Hs Hr; cbn in Hs; [discriminate|].
  apply andb_true_iff in Hs as [Hc Hsa]. cbn. rewrite Hc, (span_stop is_sep sa r Hsa Hr). reflexivity.
Qed.
Lemma seps1_space : forall s, stops is_sep s -> seps1 (32 :: s) = Some s.
Proof. intros s. apply (seps1_run [32] s). reflexivity. Qed.
Lemma seps1_none : forall r, stops is_sep r -> seps1 r = None.
Proof. intros [|c r] H; cbn; [reflexivity|]. cbn in H. rewrite H. reflexivity. Qed.

Lemma eqb_false : forall c k : N, c <> k -> (c =? k) = false.
Proof. intros c k. apply N.eqb_neq. Qed.

Lemma namech_not_sep : forall c, is_namech c = true -> is_sep c = false.
Proof.
  intros c H. unfold is_sep.
  destruct (N.eqb_spec c 10), (N.eqb_spec c 32), (N.eqb_spec c 9); subst; try reflexivity; discriminate H.
Qed.
Lemma alpha_namech : forall c, is_alpha c = true -> is_namech c = true.
Proof. intros c H. unfold is_namech. rewrite H. reflexivity. Qed.
Lemma alpha_not_40 : forall c, is_alpha c = true -> (c =? 40) = false.
Proof. intros c H. destruct (N.eqb_spec c 40) as [->|]; [discriminate H | reflexivity]. Qed.
Lemma sep_oper : forall c, is_sep c = true -> is_oper c = true.
Proof. intros c H. unfold is_oper. rewrite H. reflexivity. Qed.
Lemma is_digit_range : forall c, is_digit c = true -> 48 <= c <= 57.
Proof. intros c H. apply andb_true_iff in H as [H1 H2]. apply N.leb_le in H1, H2. split; assumption. Qed.
Lemma digit_not_oper : forall c, is_digit c = true -> negb (is_oper c) = true.
Proof.
  intros c H. apply is_digit_range in H. unfold is_oper, is_sep. rewrite !eqb_false by lia. reflexivity.
Qed.
Lemma not_oper_not_sep : forall c, negb (is_oper c) = true -> is_sep c = false.
Proof. intros c H. unfold is_oper in H. destruct (is_sep c); [discriminate H | reflexivity]. Qed.

Definition name_chars (a : str) : Prop :=
  match a with c :: t => is_alpha c = true /\ forallb is_namech t = true | [] => False end.
Lemma name_ok_chars : forall kn a, name_ok kn a = true -> name_chars a /\ norm kn a = a.
Proof.
  intros kn [|c t] H; cbn [name_ok] in H; [discriminate|].
  apply andb_true_iff in H as [H H3]. apply andb_true_iff in H as [H1 H2].
  split; [split; assumption|]. apply str_eqb_eq, H3.
Qed.
Lemma attrstring_name : forall a r, name_chars a -> stops is_namech r -> attrstring (a ++ r) = Some (a, r).
Proof.
  intros [|c t] r Ha Hr; [destruct Ha|]. destruct Ha as [Hc Ht]. cbn. rewrite Hc.
  rewrite (span_stop is_namech t r Ht Hr). reflexivity.
Qed.
Lemma name_word : forall a, name_chars a -> word a.
Proof. intros [|c t] H; [exact H | apply namech_not_sep, alpha_namech, H]. Qed.

(* 48 = '0': no leading zero *)
Definition numeral (n : N) (ds : str) : Prop :=
  val10 ds = n /\ forallb is_digit ds = true /\ exists d t, ds = d :: t /\ (d = 48 -> t = []).

Lemma is_digit_48 : forall n, n < 10 -> is_digit (48 + n) = true.
Proof. intros n H. apply andb_true_iff. split; apply N.leb_le; lia. Qed.
Lemma numeral_digit : forall n, n < 10 -> numeral n [48 + n].
Proof.
  intros n H. split; [unfold val10; cbn [fold_left]; lia|].
  split; [cbn [forallb]; rewrite (is_digit_48 n H); reflexivity|].
  exists (48 + n), []. split; reflexivity.
Qed.
Lemma numeral_snoc : forall n ds, 10 <= n -> numeral (n / 10) ds -> numeral n (ds ++ [48 + n mod 10]).
Proof.
  intros n ds Hn [Hv [Hd [d [t [He Hz]]]]].
  pose proof (N.div_mod' n 10) as E. assert (Hm : n mod 10 < 10) by (apply N.mod_lt; lia).
  set (q := n / 10) in *. set (m := n mod 10) in *. split; [|split].
  - unfold val10 in *. rewrite fold_left_app, Hv. cbn [fold_left]. lia.
  - rewrite forallb_app, Hd. cbn [forallb]. rewrite (is_digit_48 _ Hm). reflexivity.
  - exists d, (t ++ [48 + m]). rewrite He. split; [reflexivity|].
    intros E48. rewrite He, (Hz E48), E48 in Hv. change (val10 [48]) with 0 in Hv. lia.
Qed.

Lemma dig_app : forall fuel n acc, dig fuel n acc = dig fuel n [] ++ acc.
Proof.
  induction fuel as [|k IH]; intros n acc; cbn [dig]; [reflexivity|].
  destruct (n <? 10); [reflexivity|].
  rewrite (IH (n / 10) ((48 + n mod 10) :: acc)), (IH (n / 10) [48 + n mod 10]).
  rewrite <- app_assoc. reflexivity.
Qed.
Lemma dig_numeral : forall fuel n, (0 < fuel)%nat -> n < 10 ^ N.of_nat fuel -> numeral n (dig fuel n []).
Proof.
  induction fuel as [|k IH]; intros n Hf Hn; [lia|].
  cbn [dig]. destruct (N.ltb_spec n 10) as [Hlt|Hge]; [apply numeral_digit, Hlt|].
  rewrite dig_app. apply numeral_snoc; [exact Hge|]. apply IH.
  - destruct k; [cbn in Hn|]; lia.
  - apply N.div_lt_upper_bound; [lia|]. rewrite Nat2N.inj_succ, N.pow_succ_r' in Hn. exact Hn.
Qed.
Lemma print_N_numeral : forall n, numeral n (print_N n).
Proof.
  intros n. apply dig_numeral; [lia|]. rewrite Nat2N.inj_succ, N2Nat.id.
  destruct (N.eq_dec n 0) as [->|Hn]; [reflexivity|].
  apply N.lt_le_trans with (2 ^ N.succ (N.log2 n)); [apply N.log2_spec; lia|].
  apply N.pow_le_mono_l. lia.
Qed.

Lemma jnumber_print : forall neg n,
  jnumber neg (print_N n) =
    if neg then (if (n =? 0) || (9223372036854775808 <? n) then JUndef else JOk (JNum (- Z.of_N n)))
    else if 18446744073709551616 <=? n then JUndef else JOk (JNum (Z.of_N n)).
Proof.
  intros neg n. destruct (print_N_numeral n) as [Hv [Hd [d [t [He Hz]]]]].
  pose proof (span_stop is_digit _ [] Hd I) as Hs. rewrite app_nil_r in Hs.
  unfold jnumber. rewrite Hs, Hv, He.
  assert (Hlz : (d =? 48) && (match t with [] => false | _ => true end) = false).
  { destruct (N.eqb_spec d 48) as [E|E]; [rewrite (Hz E)|]; reflexivity. }
  rewrite Hlz. destruct neg; [destruct ((n =? 0) || (9223372036854775808 <? n)) | destruct (18446744073709551616 <=? n)];
    reflexivity.
Qed.

(* the three shapes of an escaped byte: \e for the seven short escapes, \u00XY below 32, itself otherwise *)
Inductive esc_view (c : N) : str -> Prop :=
| esc_short e : simple_esc e = Some c -> (e =? 117) = false -> esc_view c [92; e]
| esc_hex : c < 32 -> esc_view c [92; 117; 48; 48; hexd (c / 16); hexd (c mod 16)]
| esc_self : (c =? 34) = false -> (c =? 92) = false -> (c <? 32) = false -> esc_view c [c].
Lemma esc_byte_view : forall c, esc_view c (esc_byte c).
Proof.
  intros c. unfold esc_byte.
  destruct (N.eqb_spec c 34) as [->|H34]; [apply esc_short; reflexivity|].
  destruct (N.eqb_spec c 92) as [->|H92]; [apply esc_short; reflexivity|].
  destruct (N.eqb_spec c 8) as [->|_]; [apply esc_short; reflexivity|].
  destruct (N.eqb_spec c 12) as [->|_]; [apply esc_short; reflexivity|].
  destruct (N.eqb_spec c 10) as [->|_]; [apply esc_short; reflexivity|].
  destruct (N.eqb_spec c 13) as [->|_]; [apply esc_short; reflexivity|].
  destruct (N.eqb_spec c 9) as [->|_]; [apply esc_short; reflexivity|].
  destruct (N.ltb_spec c 32) as [Hlt|Hge]; [apply esc_hex, Hlt|].
  apply esc_self; [apply N.eqb_neq, H34 | apply N.eqb_neq, H92 | apply N.ltb_ge, Hge].
Qed.

Lemma hexval_hexd : forall n, n < 16 -> hexval (hexd n) = Some n.
Proof.
  intros n Hn. unfold hexd, hexval. destruct (N.ltb_spec n 10) as [Hlt|Hge].
  - rewrite (is_digit_48 n Hlt). f_equal. lia.
  - unfold is_digit. destruct (N.leb_spec (87 + n) 57); [lia|]. rewrite andb_false_r.
    destruct (N.leb_spec 97 (87 + n)), (N.leb_spec (87 + n) 102); try lia. cbn [andb]. f_equal. lia.
Qed.
Lemma hexd_plain : forall n, (hexd n =? 92) = false /\ (hexd n =? 34) = false.
Proof. intros n. unfold hexd. destruct (N.ltb_spec n 10); split; apply N.eqb_neq; lia. Qed.

(* \uXXXX outside the surrogate range *)
Lemma jstr_u : forall h1 h2 h3 h4 n s, hex4 h1 h2 h3 h4 = Some n -> n < 55296 ->
  jstr (92 :: 117 :: h1 :: h2 :: h3 :: h4 :: s) = pre (utf8 n) (jstr s).
Proof.
  intros h1 h2 h3 h4 n s H Hn.
  assert (E1 : (56320 <=? n) = false) by (apply N.leb_gt; lia).
  assert (E2 : (55296 <=? n) = false) by (apply N.leb_gt; lia).
  (* the byte tests must compute here, or cbn goes on unfolding jstr in the branches they rule out *)
  cbn [jstr N.eqb Pos.eqb]. rewrite H, E1, E2. reflexivity.
Qed.

Lemma qscan_esc : forall c s, qscan (esc_byte c ++ s) = pre (esc_byte c) (qscan s).
Proof.
  intros c s. destruct (esc_byte_view c) as [e _ _ | _ | H34 H92 _]; cbn [app qscan N.eqb Pos.eqb].
  - reflexivity.
  - destruct (hexd_plain (c / 16)) as [E1 E2], (hexd_plain (c mod 16)) as [E3 E4].
    rewrite E1, E2, E3, E4. destruct (qscan s) as [[b r]|]; reflexivity.
  - rewrite H34, H92. reflexivity.
Qed.
Lemma jstr_esc : forall c s, jstr (esc_byte c ++ s) = pre [c] (jstr s).
Proof.
  intros c s. destruct (esc_byte_view c) as [e He H117 | Hc | H34 H92 H32]; cbn [app].
  - cbn [jstr N.eqb Pos.eqb]. rewrite H117, He. reflexivity.
  - rewrite (jstr_u _ _ _ _ c); [| | lia].
    + unfold utf8. destruct (N.ltb_spec c 128); [reflexivity | lia].
    + unfold hex4. change (hexval 48) with (Some 0).
      rewrite !hexval_hexd by (try apply N.mod_lt; try apply N.div_lt_upper_bound; lia).
      f_equal. pose proof (N.div_mod' c 16). lia.
  - cbn [jstr]. rewrite H34, H92, H32. reflexivity.
Qed.
Lemma qscan_print : forall v r, qscan (flat_map esc_byte v ++ 34 :: r) = Some (flat_map esc_byte v, r).
Proof.
  induction v as [|c v IH]; intros r; [reflexivity|].
  cbn [flat_map]. rewrite <- app_assoc, qscan_esc, IH. reflexivity.
Qed.
Lemma jstr_print : forall v r, jstr (flat_map esc_byte v ++ 34 :: r) = Some (v, r).
Proof.
  induction v as [|c v IH]; intros r; [reflexivity|].
  cbn [flat_map]. rewrite <- app_assoc, jstr_esc, IH. reflexivity.
Qed.

Lemma json_of_quote : forall t,
  json_of (34 :: t) = match jstr t with Some (v, r) => finish (JStr v) r | None => JErr end.
Proof. reflexivity. Qed.
Lemma json_of_minus : forall t, json_of (45 :: t) = jnumber true t.
Proof. reflexivity. Qed.
Lemma json_of_digits : forall d t, is_digit d = true -> json_of (d :: t) = jnumber false (d :: t).
Proof.
  intros d t H. pose proof (is_digit_range d H) as Hr.
  unfold json_of, is_jws. cbn [span]. rewrite !eqb_false by lia. cbn [orb snd]. rewrite H, !eqb_false by lia.
  reflexivity.
Qed.

(* serde_json reads back what it wrote *)
Lemma json_of_print : forall v, jv_ok v = true -> json_of (print_jv v) = JOk v.
Proof.
  intros [| [|] | z | s] H; [reflexivity | reflexivity | reflexivity | |]; cbn [print_jv].
  - cbn [jv_ok] in H. apply andb_true_iff in H as [H1 H2]. apply Z.leb_le in H1. apply Z.ltb_lt in H2.
    destruct (Z.ltb_spec z 0) as [Hneg|Hpos].
    + rewrite json_of_minus, jnumber_print.
      destruct (N.eqb_spec (Z.abs_N z) 0); [lia|]. destruct (N.ltb_spec 9223372036854775808 (Z.abs_N z)); [lia|].
      cbn [orb]. do 2 f_equal. lia.
    + destruct (print_N_numeral (Z.abs_N z)) as [_ [Hd [d [t [He _]]]]].
      rewrite He in Hd. cbn [forallb] in Hd. apply andb_true_iff in Hd as [Hd _].
      rewrite He, (json_of_digits d t Hd), <- He, jnumber_print.
      destruct (N.leb_spec 18446744073709551616 (Z.abs_N z)); [lia|]. do 2 f_equal. lia.
  - unfold print_jstr. rewrite json_of_quote, jstr_print. reflexivity.
Qed.

Lemma print_jv_bare : forall v, (exists s, v = JStr s) \/
  exists c t, print_jv v = c :: t /\ (c =? 34) = false /\ forallb (fun c => negb (is_oper c)) (c :: t) = true.
Proof.
  intros [| [|] | z | s]; [right; eexists; eexists; repeat split .. | | left; exists s; reflexivity].
  right. destruct (print_N_numeral (Z.abs_N z)) as [_ [Hd [d [t [He _]]]]]. rewrite He in Hd.
  pose proof (forallb_impl _ _ _ digit_not_oper Hd) as Hno. cbn [print_jv]. destruct (z <? 0)%Z.
  - exists 45, (print_N (Z.abs_N z)). repeat split. rewrite He. exact Hno.
  - exists d, t. split; [exact He|]. split; [|exact Hno].
    cbn [forallb] in Hd. apply andb_true_iff in Hd as [Hd _]. apply is_digit_range in Hd. apply eqb_false. lia.
Qed.

Definition value_ends (r : str) : Prop := stops (fun c => negb (is_oper c)) r.

Lemma pvalue_print : forall v r, jv_ok v = true -> value_ends r -> pvalue (print_jv v ++ r) = Ok v r.
Proof.
  intros v r Hv Hr. pose proof (json_of_print v Hv) as Hj. unfold pvalue.
  destruct (print_jv_bare v) as [[s ->] | [c [t [He [H34 Hno]]]]].
  - cbn [print_jv] in *. unfold print_jstr in *. cbn [app eat]. rewrite N.eqb_refl, <- app_assoc. cbn [app].
    rewrite qscan_print, Hj. reflexivity.
  - rewrite He in *. unfold unquoted. rewrite (span_stop _ (c :: t) r Hno Hr), Hj. cbn [app eat]. rewrite H34.
    reflexivity.
Qed.
Lemma print_jv_word : forall v, word (print_jv v).
Proof.
  intros v. destruct (print_jv_bare v) as [[s ->] | [c [t [-> [_ Hno]]]]]; [reflexivity|].
  cbn [forallb] in Hno. apply andb_true_iff in Hno as [Hc _]. apply not_oper_not_sep, Hc.
Qed.

Lemma attrpath_print : forall p X, path_ok p = true ->
  attrpath (print_path p ++ 32 :: X) = Some (p, 32 :: X).
Proof.
  intros [a [s|]] X H; unfold path_ok in H; cbn [fst snd] in H; apply andb_true_iff in H as [Ha Hs];
    apply name_ok_chars in Ha as [Hac Han]; cbn [print_path]; unfold attrpath, attr_from.
  - apply name_ok_chars in Hs as [Hsc Hsn]. rewrite <- app_assoc. cbn [app].
    rewrite (attrstring_name a (46 :: s ++ 32 :: X) Hac eq_refl). cbn [eat]. rewrite N.eqb_refl.
    rewrite (attrstring_name s (32 :: X) Hsc eq_refl). unfold sub_from. rewrite Han, Hsn. reflexivity.
  - rewrite (attrstring_name a (32 :: X) Hac eq_refl), Han. reflexivity.
Qed.
Lemma subattr_print : forall s X, name_ok sub_known s = true -> subattr (s ++ 32 :: X) = Some (s, 32 :: X).
Proof.
  intros s X H. apply name_ok_chars in H as [Hc Hn]. unfold subattr, sub_from.
  rewrite (attrstring_name s (32 :: X) Hc eq_refl), Hn. reflexivity.
Qed.

Lemma op_txt_of : forall o, exists a b, op_txt o = [a; b] /\ op_of a b = Some (Some o) /\ is_sep a = false.
Proof. intros []; eexists; eexists; repeat split. Qed.
Lemma op_txt_stops : forall o X, stops (fun c => is_sep c || (c =? 40)) (op_txt o ++ X).
Proof. intros [] X; reflexivity. Qed.

Section CmpExp.
  Context {P T : Type}.
  Variables (path : str -> option (P * str)) (mkP : P -> T) (mkC : cmp -> P -> jv -> T).
  Variables (ptxt : str) (p : P).
  Hypothesis Hpath : forall X, path (ptxt ++ 32 :: X) = Some (p, 32 :: X).

  Lemma cmpexp_pres : forall r, cmpexp path mkP mkC (ptxt ++ 32 :: k_pr ++ r) = Ok (mkP p) r.
  Proof. intros r. unfold cmpexp. rewrite Hpath. reflexivity. Qed.

  Lemma cmpexp_cmp : forall o v r, jv_ok v = true -> value_ends r ->
    cmpexp path mkP mkC (ptxt ++ 32 :: op_txt o ++ 32 :: print_jv v ++ r) = Ok (mkC o p v) r.
  Proof.
    intros o v r Hv Hr. destruct (op_txt_of o) as [a [b [-> [Ho Ha]]]]. unfold cmpexp. cbn [app].
    rewrite Hpath, seps1_space by exact Ha. rewrite Ho.
    rewrite seps1_space by apply word_stops, word_app, print_jv_word.
    rewrite (pvalue_print v r Hv Hr). reflexivity.
  Qed.
End CmpExp.

Lemma lit_inv : forall l s s1, lit l s = Some s1 -> s = l ++ s1.
Proof.
  induction l as [|x l IH]; intros s s1 H; cbn in H; [injection H as <-; reflexivity|].
  destruct s as [|y s]; [discriminate|]. destruct (N.eqb_spec x y) as [<-|]; [|discriminate].
  cbn. f_equal. apply IH, H.
Qed.
Lemma seps1_inv : forall s s2, seps1 s = Some s2 -> exists c t, s = c :: t /\ is_sep c = true /\ s2 = snd (span is_sep t).
Proof.
  intros [|c t] s2 H; cbn in H; [discriminate|]. destruct (is_sep c) eqn:E; [|discriminate].
  injection H as <-. exists c, t. repeat split. exact E.
Qed.

Section NotName.
  Context {T : Type}.
  Variables (mk : T -> T) (pd : str -> res T).
  (* the name may be `not` itself: hence the condition on X *)
  Lemma atom_not_name : forall name d X,
    name_chars name -> is_namech d = false ->
    (is_sep d = true -> stops (fun c => is_sep c || (c =? 40)) X) ->
    atom_not mk pd (name ++ d :: X) = Fail.
  Proof.
    intros name d X Hn Hd HX. unfold atom_not.
    destruct (lit k_not (name ++ d :: X)) as [s1|] eqn:E; [|reflexivity].
    apply lit_inv in E. destruct (seps1 s1) as [s2|] eqn:E2; [|reflexivity].
    apply seps1_inv in E2 as [c [t [-> [Hc ->]]]].
    destruct name as [|c1 [|c2 [|c3 [|c4 t4]]]]; [destruct Hn| | | |]; cbn [app] in E.
    - injection E as _ E _. subst d. discriminate Hd.
    - injection E as _ _ E _. subst d. discriminate Hd.
    - injection E as _ _ _ E1 E2. subst c t. specialize (HX Hc).
      destruct X as [|x X']; [reflexivity|]. cbn in HX. apply orb_false_iff in HX as [H1 H2].
      cbn [span]. rewrite H1. cbn [snd eat]. rewrite H2. reflexivity.
    - injection E as _ _ _ E1 _. subst c4. destruct Hn as [_ Hn]. cbn in Hn.
      apply andb_true_iff in Hn as [_ Hn]. apply andb_true_iff in Hn as [_ Hn].
      apply andb_true_iff in Hn as [Hn _]. rewrite (namech_not_sep c Hn) in Hc. discriminate.
  Qed.
End NotName.

(* after the last operand: end of input, or a bracket / parenthesis *)
Definition rest_ok (r : str) : Prop :=
  match r with [] => True | c :: _ => is_oper c = true /\ is_sep c = false end.
Lemma rest_ok_value_ends : forall r, rest_ok r -> value_ends r.
Proof. intros [|c r] H; cbn; [exact I|]. destruct H as [H _]. rewrite H. reflexivity. Qed.
Lemma rest_ok_stops : forall r, rest_ok r -> stops is_sep r.
Proof. intros [|c r] H; cbn; [exact I|]. apply H. Qed.
Lemma rest_ok_41 : forall r, rest_ok (41 :: r). Proof. intros r. split; reflexivity. Qed.
Lemma rest_ok_93 : forall r, rest_ok (93 :: r). Proof. intros r. split; reflexivity. Qed.
Lemma sep_value_ends : forall sa r, sep_ok sa = true -> value_ends (sa ++ r).
Proof.
  intros [|c t] r H; cbn in H; [discriminate|]. apply andb_true_iff in H as [H _].
  cbn. rewrite (sep_oper c H). reflexivity.
Qed.

(* `sepA kw sepB payload`: the shape shared by the and-links of a chain and the or-links of an expression *)
Definition plink_txt {X} (kw : str) (g : X -> str) (l : str * str * X) : str :=
  let '(sa, sb, x) := l in sa ++ kw ++ sb ++ g x.
Definition plink_ok {X} (P : X -> Prop) (l : str * str * X) : Prop :=
  let '(sa, sb, x) := l in sep_ok sa = true /\ sep_ok sb = true /\ P x.
Lemma plinks_value_ends : forall {X} kw (g : X -> str) P l tail, Forall (plink_ok P) l -> value_ends tail ->
  value_ends (flat_map (plink_txt kw g) l ++ tail).
Proof.
  intros X kw g P [|[[sa sb] x] l] tail Hl Ht; [exact Ht|]. destruct (Forall_inv Hl) as [Hsa _].
  cbn [flat_map plink_txt]. rewrite <- !app_assoc. apply sep_value_ends, Hsa.
Qed.

Section ClimbFacts.
  Context {T : Type}.
  Variables (mkOr mkAnd : T -> T -> T) (atom : str -> res T).

  Definition good (t : str) (x : T) : Prop := word t /\ forall r, value_ends r -> atom (t ++ r) = Ok x r.

  Lemma infix_tail_ok : forall kw (rhs : str -> res T) sa sb t r,
    word kw -> sep_ok sa = true -> sep_ok sb = true -> word t ->
    infix_tail kw rhs (sa ++ kw ++ sb ++ t ++ r) = rhs (t ++ r).
  Proof.
    intros kw rhs sa sb t r Hk Hsa Hsb Ht. unfold infix_tail.
    rewrite (seps1_run sa _ Hsa) by apply word_stops, word_app, Hk.
    rewrite lit_app, (seps1_run sb _ Hsb) by apply word_stops, word_app, Ht. reflexivity.
  Qed.
  Lemma infix_tail_other : forall kw kw' (rhs : str -> res T) sa r,
    sep_ok sa = true -> word kw' -> lit kw (kw' ++ r) = None -> infix_tail kw rhs (sa ++ kw' ++ r) = Fail.
  Proof.
    intros kw kw' rhs sa r Hsa Hk Hl. unfold infix_tail.
    rewrite (seps1_run sa _ Hsa), Hl by apply word_stops, word_app, Hk. reflexivity.
  Qed.
  Lemma infix_tail_end : forall kw (rhs : str -> res T) r, stops is_sep r -> infix_tail kw rhs r = Fail.
  Proof. intros kw rhs r H. unfold infix_tail. rewrite (seps1_none r H). reflexivity. Qed.

  Lemma p0_single : forall s x r, atom s = Ok x r -> stops is_sep r -> p0 mkOr mkAnd atom s = Ok x r.
  Proof.
    intros s x r H Hr. unfold p0. rewrite H. cbn [loop_or].
    rewrite (infix_tail_end k_or _ r Hr), (infix_tail_end k_and _ r Hr). reflexivity.
  Qed.
  Lemma p0_fail : forall s, atom s = Fail -> p0 mkOr mkAnd atom s = Fail.
  Proof. intros s H. unfold p0. rewrite H. reflexivity. Qed.

  Definition and_stop (r : str) : Prop := infix_tail k_and atom r = Fail.

  (* Chains of operands of any type O, written by txt and meaning val: at O = operand these are
     the model's link / chain / olink with chain_txt, chain_sem, expr_txt, expr_sem.  They are generic
     because `p0_binary` below uses them at O = str * T, for the printed forms `(a or b)`, `(a and b)`. *)
  Section Chains.
    Variables (O : Type) (txt : O -> str) (val : O -> T).
    Definition glink := (str * str * O)%type.
    Definition gchain := (O * list glink)%type.
    Definition golink := (str * str * gchain)%type.
    Definition gchain_txt (c : gchain) : str := txt (fst c) ++ flat_map (plink_txt k_and txt) (snd c).
    Definition and_links (links : list glink) (acc : T) : T :=
      fold_left (fun a (l : glink) => mkAnd a (val (snd l))) links acc.
    Definition gchain_val (c : gchain) : T := and_links (snd c) (val (fst c)).
    Definition or_links (ors : list golink) (acc : T) : T :=
      fold_left (fun a (l : golink) => mkOr a (gchain_val (snd l))) ors acc.
    Definition glink_ok : glink -> Prop := plink_ok (fun x => good (txt x) (val x)).
    Definition gchain_ok (c : gchain) : Prop := good (txt (fst c)) (val (fst c)) /\ Forall glink_ok (snd c).
    Definition golink_ok : golink -> Prop := plink_ok gchain_ok.

    (* The loops run on fuel; any fuel above the length of the remaining text is enough, because
       every step consumes a keyword. *)
    Lemma loop_and_chain : forall links fuel acc r,
      Forall glink_ok links -> and_stop r -> value_ends r ->
      (length (flat_map (plink_txt k_and txt) links ++ r) < fuel)%nat ->
      loop_and mkAnd atom fuel acc (flat_map (plink_txt k_and txt) links ++ r) = Ok (and_links links acc) r.
    Proof.
      induction links as [|[[sa sb] x] links IH]; intros [|k] acc r Hl Hs Hr Hf; try (inversion Hf; fail);
        cbn [flat_map plink_txt] in *; cbn [loop_and].
      - cbn [app]. rewrite Hs. reflexivity.
      - destruct (Forall_inv Hl) as [Hsa [Hsb [Hw Hg]]]. apply Forall_inv_tail in Hl.
        rewrite <- !app_assoc in Hf |- *.
        rewrite (infix_tail_ok k_and atom sa sb (txt x) _ eq_refl Hsa Hsb Hw), Hg by exact (plinks_value_ends _ _ _ _ _ Hl Hr).
        apply IH; try assumption. rewrite !app_length in Hf. rewrite !app_length. cbn [length k_and] in Hf. lia.
    Qed.

    (* p1 = __infix_parse at min_prec 1 on an and-chain *)
    Lemma p1_chain : forall c r, gchain_ok c -> and_stop r -> value_ends r ->
      p1 mkAnd atom (gchain_txt c ++ r) = Ok (gchain_val c) r.
    Proof.
      intros [x links] r [[Hw Hg] Hl] Hs Hr. unfold p1, gchain_txt. cbn [fst snd] in *.
      rewrite <- app_assoc, Hg by exact (plinks_value_ends _ _ _ _ _ Hl Hr).
      apply loop_and_chain; try assumption. apply Nat.lt_succ_diag_r.
    Qed.

    Lemma loop_or_ors : forall ors fuel acc r,
      Forall golink_ok ors -> rest_ok r -> (length (flat_map (plink_txt k_or gchain_txt) ors ++ r) < fuel)%nat ->
      loop_or mkOr mkAnd atom fuel acc (flat_map (plink_txt k_or gchain_txt) ors ++ r) = Ok (or_links ors acc) r.
    Proof.
      induction ors as [|[[sa sb] c] ors IH]; intros [|k] acc r Hl Hr Hf; try (inversion Hf; fail);
        cbn [flat_map plink_txt] in *; cbn [loop_or].
      - cbn [app]. pose proof (rest_ok_stops r Hr) as Hs.
        rewrite (infix_tail_end k_or _ r Hs), (infix_tail_end k_and _ r Hs). reflexivity.
      - destruct (Forall_inv Hl) as [Hsa [Hsb Hc]]. apply Forall_inv_tail in Hl.
        rewrite <- !app_assoc in Hf |- *.
        rewrite (infix_tail_ok k_or (p1 mkAnd atom) sa sb (gchain_txt c) _ eq_refl Hsa Hsb (word_app _ _ (proj1 (proj1 Hc)))).
        rewrite (p1_chain c _ Hc).
        + apply IH; try assumption. rewrite !app_length in Hf. rewrite !app_length. cbn [length k_or] in Hf. lia.
        + destruct ors as [|[[sa' sb'] c'] ors'].
          * apply infix_tail_end, rest_ok_stops, Hr.
          * destruct (Forall_inv Hl) as [Hsa' _]. cbn [flat_map plink_txt]. rewrite <- !app_assoc.
            apply infix_tail_other; [exact Hsa' | reflexivity | reflexivity].
        + apply (plinks_value_ends _ _ _ _ _ Hl), rest_ok_value_ends, Hr.
    Qed.
    (* the and-links that precede the first `or` are level-1 steps taken by the level-0 loop itself *)
    Lemma loop_or_expr : forall links fuel acc ors r,
      Forall glink_ok links -> Forall golink_ok ors -> rest_ok r ->
      (length (flat_map (plink_txt k_and txt) links ++ flat_map (plink_txt k_or gchain_txt) ors ++ r) < fuel)%nat ->
      loop_or mkOr mkAnd atom fuel acc (flat_map (plink_txt k_and txt) links ++ flat_map (plink_txt k_or gchain_txt) ors ++ r)
      = Ok (or_links ors (and_links links acc)) r.
    Proof.
      induction links as [|[[sa sb] x] links IH]; intros fuel acc ors r Hl Ho Hr Hf; [apply loop_or_ors; assumption|].
      destruct fuel as [|k]; [inversion Hf|]. cbn [flat_map plink_txt] in *. cbn [loop_or].
      destruct (Forall_inv Hl) as [Hsa [Hsb [Hw Hg]]]. apply Forall_inv_tail in Hl.
      rewrite <- !app_assoc in Hf |- *.
      rewrite (infix_tail_other k_or k_and (p1 mkAnd atom) sa _ Hsa eq_refl eq_refl).
      rewrite (infix_tail_ok k_and atom sa sb (txt x) _ eq_refl Hsa Hsb Hw).
      rewrite Hg by apply (plinks_value_ends _ _ _ _ _ Hl), (plinks_value_ends _ _ _ _ _ Ho), rest_ok_value_ends, Hr.
      apply IH; try assumption. rewrite !app_length in Hf. rewrite !app_length. cbn [length k_and] in Hf. lia.
    Qed.

    (* p0 = __infix_parse at min_prec 0: or-separated and-chains *)
    Lemma p0_expr : forall (c0 : gchain) (ors : list golink) r,
      gchain_ok c0 -> Forall golink_ok ors -> rest_ok r ->
      p0 mkOr mkAnd atom ((gchain_txt c0 ++ flat_map (plink_txt k_or gchain_txt) ors) ++ r) = Ok (or_links ors (gchain_val c0)) r.
    Proof.
      intros [x links] ors r [[Hw Hg] Hl] Ho Hr. unfold p0, gchain_txt. cbn [fst snd] in *.
      rewrite <- !app_assoc, Hg.
      - apply loop_or_expr; try assumption. apply Nat.lt_succ_diag_r.
      - apply (plinks_value_ends _ _ _ _ _ Hl), (plinks_value_ends _ _ _ _ _ Ho), rest_ok_value_ends, Hr.
    Qed.
  End Chains.

  Definition binop (kw : str) (mk : T -> T -> T) : Prop := (kw = k_or /\ mk = mkOr) \/ (kw = k_and /\ mk = mkAnd).

  Lemma p0_binary : forall kw mk ta a tb b r, binop kw mk -> good ta a -> good tb b -> rest_ok r ->
    p0 mkOr mkAnd atom (ta ++ 32 :: kw ++ 32 :: tb ++ r) = Ok (mk a b) r.
  Proof.
    intros kw mk ta a tb b r B Ha Hb Hr.
    destruct B as [[-> ->]|[-> ->]];
      [ pose proof (p0_expr (str * T) fst snd ((ta, a), []) [([32], [32], ((tb, b), []))] r) as H
      | pose proof (p0_expr (str * T) fst snd ((ta, a), [([32], [32], (tb, b))]) [] r) as H ];
      cbv [gchain_txt plink_txt gchain_val or_links and_links flat_map fold_left fst snd] in H;
      rewrite !app_nil_r, <- !app_assoc in H; apply H; try exact Hr.
    - split; [exact Ha | constructor].
    - constructor; [|constructor]. split; [reflexivity|]. split; [reflexivity|]. split; [exact Hb | constructor].
    - split; [exact Ha|]. constructor; [|constructor]. split; [reflexivity|]. split; [reflexivity | exact Hb].
    - constructor.
  Qed.
  (* the left operand parses, the right one is rejected: the loop stops before the keyword *)
  Lemma p0_rhs_fail : forall kw mk ta a tb r, binop kw mk ->
    atom (ta ++ 32 :: kw ++ 32 :: tb ++ r) = Ok a (32 :: kw ++ 32 :: tb ++ r) -> word tb -> atom (tb ++ r) = Fail ->
    p0 mkOr mkAnd atom (ta ++ 32 :: kw ++ 32 :: tb ++ r) = Ok a (32 :: kw ++ 32 :: tb ++ r).
  Proof.
    intros kw mk ta a tb r B Ha Hw Hb. unfold p0. rewrite Ha. cbn [loop_or].
    change (32 :: kw ++ 32 :: tb ++ r) with ([32] ++ kw ++ [32] ++ tb ++ r).
    destruct B as [[-> _]|[-> _]].
    - rewrite (infix_tail_ok k_or (p1 mkAnd atom) [32] [32] tb r eq_refl eq_refl eq_refl Hw).
      unfold p1 at 1. rewrite Hb, (infix_tail_other k_and k_or atom [32] _ eq_refl eq_refl eq_refl). reflexivity.
    - rewrite (infix_tail_other k_or k_and (p1 mkAnd atom) [32] _ eq_refl eq_refl eq_refl).
      rewrite (infix_tail_ok k_and atom [32] [32] tb r eq_refl eq_refl eq_refl Hw), Hb. reflexivity.
  Qed.
End ClimbFacts.

(* What the two grammars (atoms_c with pdepth_c, atoms_f with pdepth) have in common: the depth limiter,
   the parenthesis alternative and the `not (` alternative.  lvl m is the atom parser whose nested
   rules have budget m, pd m the nested rule itself. *)
Section Nesting.
  Context {T : Type} {mkOr mkAnd : T -> T -> T} {mkNot : T -> T} {lvl pd : nat -> str -> res T}.

  Definition nested : Prop :=
    (forall s, pd 0%nat s = Fail) /\
    (forall m s, pd (S m) s = p0 mkOr mkAnd (lvl m) s) /\
    (forall m s, lvl m (40 :: s) = close 41 (fun e => e) (pd m s)) /\
    (forall m s, word s -> lvl m (k_not ++ 32 :: 40 :: s) = close 41 mkNot (pd m s)).
  Hypothesis Nest : nested.

  Definition fits (p : nat -> str -> res T) (ok : str -> Prop) (t : str) (x : T) (n : nat) : Prop :=
    forall m r, ok r -> ((n <= m)%nat -> p m (t ++ r) = Ok x r) /\ ((m < n)%nat -> p m (t ++ r) = Fail).
  Definition costs (t : str) (x : T) (n : nat) : Prop := word t /\ fits lvl value_ends t x n.

  Lemma costs_good : forall t x n m, costs t x n -> (n <= m)%nat -> good (lvl m) t x.
  Proof. intros t x n m [Hw H] Hm. split; [exact Hw|]. intros r Hr. apply (H m r Hr), Hm. Qed.

  Lemma costs_leaf : forall t x, word t -> (forall m r, value_ends r -> lvl m (t ++ r) = Ok x r) -> costs t x 0.
  Proof. intros t x Hw H. split; [exact Hw|]. intros m r Hr. split; [intros _; apply H, Hr | lia]. Qed.

  (* the nested rule spends one level on an operand *)
  Lemma costs_pd : forall t x n, costs t x n -> fits pd rest_ok t x (S n).
  Proof.
    intros t x n [_ H] m r Hr. destruct Nest as (P0 & PS & _), m as [|m]; [rewrite P0; split; [lia | reflexivity]|].
    rewrite PS. destruct (H m r (rest_ok_value_ends r Hr)) as [Hok Hfail].
    split; intros Hm; [apply p0_single; [apply Hok; lia | apply rest_ok_stops, Hr] | apply p0_fail, Hfail; lia].
  Qed.
  Lemma costs_top : forall t x n m, costs t x n ->
    ((S n <= m)%nat -> top (pd m t) = POk x) /\ ((m < S n)%nat -> top (pd m t) = PErr).
  Proof.
    intros t x n m C. destruct (costs_pd t x n C m [] I) as [Hok Hfail]. rewrite app_nil_r in *.
    split; intros Hm; [rewrite (Hok Hm) | rewrite (Hfail Hm)]; reflexivity.
  Qed.

  (* an alternative `open e:nested ")"`, around an operand *)
  Lemma costs_close : forall opn mk t x n, word opn ->
    (forall m s, word s -> lvl m (opn ++ s) = close 41 mk (pd m s)) ->
    costs t x n -> costs (opn ++ t ++ [41]) (mk x) (S n).
  Proof.
    intros opn mk t x n Ho H C. split; [apply word_app, Ho|]. intros m r _.
    rewrite <- !app_assoc, (H m _ (word_app _ _ (proj1 C))). cbn [app].
    destruct (costs_pd t x n C m (41 :: r) (rest_ok_41 r)) as [Hok Hfail].
    split; intros Hm; [rewrite (Hok Hm) | rewrite (Hfail Hm)]; reflexivity.
  Qed.
  (* `(t)` *)
  Lemma costs_paren : forall t x n, costs t x n -> costs (40 :: t ++ [41]) x (S n).
  Proof. intros t x n. apply (costs_close [40] (fun e => e)); [reflexivity|]. intros m s _. apply Nest. Qed.
  (* `not (t)` *)
  Lemma costs_not : forall t x n, costs t x n -> costs (k_not ++ 32 :: 40 :: t ++ [41]) (mkNot x) (S n).
  Proof. intros t x n. apply (costs_close (k_not ++ [32; 40]) mkNot); [reflexivity | apply Nest]. Qed.

  (* `(a or b)`, `(a and b)` *)
  Lemma costs_bin : forall kw mk ta a na tb b nb, binop mkOr mkAnd kw mk -> costs ta a na -> costs tb b nb ->
    costs (40 :: ta ++ 32 :: kw ++ 32 :: tb ++ [41]) (mk a b) (S (Nat.max na nb)).
  Proof.
    intros kw mk ta a na tb b nb B Ca Cb. destruct Nest as (P0 & PS & LO & _). split; [reflexivity|]. intros m r _.
    replace ((40 :: ta ++ 32 :: kw ++ 32 :: tb ++ [41]) ++ r) with (40 :: ta ++ 32 :: kw ++ 32 :: tb ++ 41 :: r)
      by (repeat (cbn [app]; rewrite <- app_assoc); reflexivity).
    rewrite LO. destruct m as [|m]; [rewrite P0; split; [lia | reflexivity]|]. rewrite PS. split; intros Hm.
    - rewrite (p0_binary _ _ _ kw mk ta a tb b _ B (costs_good _ _ _ m Ca ltac:(lia)) (costs_good _ _ _ m Cb ltac:(lia))
                 (rest_ok_41 r)). reflexivity.
    - destruct Ca as [_ Ha], Cb as [Wb Hb]. destruct (Nat.le_gt_cases na m) as [Hle|Hgt].
      + rewrite (p0_rhs_fail _ _ _ kw mk ta a tb _ B); [reflexivity | apply Ha; [reflexivity | exact Hle] | exact Wb |].
        apply Hb; [reflexivity | lia].
      + rewrite p0_fail; [reflexivity | apply Ha; [reflexivity | exact Hgt]].
  Qed.

  Lemma opens_fail : forall d s, opens d s = true -> pd d s = Fail.
  Proof.
    destruct Nest as (P0 & PS & LO & _). induction d as [|m IH]; intros s H; [apply P0|].
    cbn [opens] in H. destruct s as [|x t]; cbn [eat] in H; [discriminate|].
    destruct (N.eqb_spec x 40) as [->|]; [|discriminate].
    rewrite PS. apply p0_fail. rewrite LO, (IH t H). reflexivity.
  Qed.
End Nesting.
Arguments nested {T} mkOr mkAnd mkNot lvl pd.
Arguments fits {T} p ok t x n.
Arguments costs {T} lvl t x n.

Lemma print_pres_paren : forall n, print_pres n = 40 :: (n ++ 32 :: k_pr) ++ [41].
Proof. intros n. unfold print_pres. rewrite <- app_assoc. reflexivity. Qed.
Lemma print_cmp_paren : forall n o v, print_cmp n o v = 40 :: (n ++ 32 :: op_txt o ++ 32 :: print_jv v) ++ [41].
Proof. intros n o v. unfold print_cmp. repeat (rewrite <- app_assoc; cbn [app]). reflexivity. Qed.
Lemma print_not_paren : forall t, t_not ++ t ++ t_notend = 40 :: (k_not ++ 32 :: 40 :: t ++ [41]) ++ [41].
Proof. intros t. cbn [t_not k_not app]. rewrite <- app_assoc. reflexivity. Qed.

Definition lvl_c (m : nat) : str -> res cfilt := atoms_c (pdepth_c m).

Lemma nested_c : nested COr CAnd CNot lvl_c pdepth_c.
Proof.
  repeat split; try reflexivity. intros m [|c s] H; [destruct H|]. unfold lvl_c, atoms_c.
  change (atom_not CNot (pdepth_c m) (k_not ++ 32 :: 40 :: c :: s)) with (close 41 CNot (pdepth_c m (c :: s))).
  destruct (close 41 CNot (pdepth_c m (c :: s))); reflexivity.
Qed.

Lemma cpres_costs : forall s, name_ok sub_known s = true -> costs lvl_c (s ++ 32 :: k_pr) (CPres s) 0.
Proof.
  intros s Hs. pose proof (proj1 (name_ok_chars _ _ Hs)) as Hc. apply costs_leaf; [apply word_app, name_word, Hc|].
  intros m r _. rewrite <- app_assoc. cbn [app]. unfold lvl_c, atoms_c.
  rewrite (atom_not_name CNot _ s 32 (k_pr ++ r) Hc eq_refl (fun _ => eq_refl)). unfold orelse at 1.
  rewrite (cmpexp_pres subattr CPres (fun o p v => CCmp o p v) s s (fun X => subattr_print s X Hs)). reflexivity.
Qed.
Lemma ccmp_costs : forall o s v, name_ok sub_known s = true -> jv_ok v = true ->
  costs lvl_c (s ++ 32 :: op_txt o ++ 32 :: print_jv v) (CCmp o s v) 0.
Proof.
  intros o s v Hs Hv. pose proof (proj1 (name_ok_chars _ _ Hs)) as Hc. apply costs_leaf; [apply word_app, name_word, Hc|].
  intros m r Hr. repeat (rewrite <- app_assoc; cbn [app]). unfold lvl_c, atoms_c.
  rewrite (atom_not_name CNot _ s 32 _ Hc eq_refl (fun _ => op_txt_stops o _)). unfold orelse at 1.
  rewrite (cmpexp_cmp subattr CPres (fun o p v => CCmp o p v) s s (fun X => subattr_print s X Hs) o v r Hv Hr).
  reflexivity.
Qed.

Lemma print_c_costs : forall c, valid_c c = true -> costs lvl_c (print_c c) c (need_c c).
Proof.
  induction c as [a IHa b IHb|a IHa b IHb|a IHa|s|o s v]; cbn [valid_c need_c print_c]; intros Hv.
  - apply andb_true_iff in Hv as [Ha Hb].
    apply (costs_bin nested_c k_or COr); [left; split; reflexivity | apply IHa, Ha | apply IHb, Hb].
  - apply andb_true_iff in Hv as [Ha Hb].
    apply (costs_bin nested_c k_and CAnd); [right; split; reflexivity | apply IHa, Ha | apply IHb, Hb].
  - rewrite print_not_paren. apply (costs_paren nested_c), (costs_not nested_c), IHa, Hv.
  - rewrite print_pres_paren. apply (costs_paren nested_c), cpres_costs, Hv.
  - apply andb_true_iff in Hv as [Hs Hjv]. rewrite print_cmp_paren. apply (costs_paren nested_c), ccmp_costs; assumption.
Qed.

Definition lvl_f (m : nat) : str -> res filt := atoms_f (pdepth m) (pdepth_c m).

Lemma nested_f : nested SOr SAnd SNot lvl_f pdepth.
Proof.
  repeat split; try reflexivity. intros m [|c s] H; [destruct H|]. unfold lvl_f, atoms_f.
  change (atom_not SNot (pdepth m) (k_not ++ 32 :: 40 :: c :: s)) with (close 41 SNot (pdepth m (c :: s))).
  destruct (close 41 SNot (pdepth m (c :: s))); reflexivity.
Qed.

(* `path op ...` : the not- and complex-alternatives fail, attrexp decides *)
Lemma atoms_f_path : forall pd pcd p X, path_ok p = true -> stops (fun c => is_sep c || (c =? 40)) X ->
  atoms_f pd pcd (print_path p ++ 32 :: X) =
  orelse (cmpexp attrpath SPres (fun o p v => SCmp o p v) (print_path p ++ 32 :: X)) (atom_paren pd) (print_path p ++ 32 :: X).
Proof.
  intros pd pcd [a [s|]] X H HX; apply andb_true_iff in H as [Ha _]; apply name_ok_chars in Ha as [Ha _];
    cbn [print_path fst] in *; unfold atoms_f, atom_complex.
  - rewrite <- app_assoc. cbn [app].
    rewrite (atom_not_name SNot pd a 46 _ Ha eq_refl), (attrstring_name a (46 :: s ++ 32 :: X) Ha eq_refl) by discriminate.
    reflexivity.
  - rewrite (atom_not_name SNot pd a 32 X Ha eq_refl (fun _ => HX)), (attrstring_name a (32 :: X) Ha eq_refl). reflexivity.
Qed.
Lemma path_word : forall p X, path_ok p = true -> word (print_path p ++ X).
Proof.
  intros [a s] X H. apply andb_true_iff in H as [H _]. apply name_ok_chars in H as [H _].
  apply word_app. destruct s; [apply word_app|]; apply name_word, H.
Qed.
Lemma pres_costs : forall p, path_ok p = true -> costs lvl_f (print_path p ++ 32 :: k_pr) (SPres p) 0.
Proof.
  intros p Hp. apply costs_leaf; [apply path_word, Hp|]. intros m r _. rewrite <- app_assoc. cbn [app].
  unfold lvl_f. rewrite (atoms_f_path _ _ p (k_pr ++ r) Hp eq_refl).
  rewrite (cmpexp_pres attrpath SPres (fun o p v => SCmp o p v) (print_path p) p (fun X => attrpath_print p X Hp)).
  reflexivity.
Qed.
Lemma cmp_costs : forall o p v, path_ok p = true -> jv_ok v = true ->
  costs lvl_f (print_path p ++ 32 :: op_txt o ++ 32 :: print_jv v) (SCmp o p v) 0.
Proof.
  intros o p v Hp Hv. apply costs_leaf; [apply path_word, Hp|]. intros m r Hr. repeat (rewrite <- app_assoc; cbn [app]).
  unfold lvl_f. rewrite (atoms_f_path _ _ p _ Hp (op_txt_stops o _)).
  rewrite (cmpexp_cmp attrpath SPres (fun o p v => SCmp o p v) (print_path p) p (fun X => attrpath_print p X Hp) o v r Hv Hr).
  reflexivity.
Qed.
(* `name[` : only the complex alternative can match *)
Lemma atoms_f_complex : forall pd pcd n X, name_ok attr_known n = true ->
  atoms_f pd pcd (n ++ 91 :: X) = close 93 (fun e => SComplex n e) (pcd X).
Proof.
  intros pd pcd n X Hn. apply name_ok_chars in Hn as [Hc Hnorm]. unfold atoms_f.
  rewrite (atom_not_name SNot pd n 91 X Hc eq_refl) by discriminate. unfold orelse at 1.
  unfold atom_complex, attr_from. rewrite (attrstring_name n (91 :: X) Hc eq_refl), Hnorm. cbn [eat]. rewrite N.eqb_refl.
  destruct (close 93 (fun e => SComplex n e) (pcd X)); try reflexivity.
  unfold orelse, cmpexp, attrpath, atom_paren. rewrite (attrstring_name n (91 :: X) Hc eq_refl).
  destruct n as [|c0 t]; [destruct Hc|]. cbn [app eat]. rewrite (alpha_not_40 c0 (proj1 Hc)). reflexivity.
Qed.

Lemma print_costs : forall f, valid f = true -> costs lvl_f (print f) f (need f).
Proof.
  induction f as [a IHa b IHb|a IHa b IHb|a IHa|p|o p v|n c]; cbn [valid need print]; intros Hv.
  - apply andb_true_iff in Hv as [Ha Hb].
    apply (costs_bin nested_f k_or SOr); [left; split; reflexivity | apply IHa, Ha | apply IHb, Hb].
  - apply andb_true_iff in Hv as [Ha Hb].
    apply (costs_bin nested_f k_and SAnd); [right; split; reflexivity | apply IHa, Ha | apply IHb, Hb].
  - rewrite print_not_paren. apply (costs_paren nested_f), (costs_not nested_f), IHa, Hv.
  - rewrite print_pres_paren. apply (costs_paren nested_f), pres_costs, Hv.
  - apply andb_true_iff in Hv as [Hp Hjv]. rewrite print_cmp_paren. apply (costs_paren nested_f), cmp_costs; assumption.
  - apply andb_true_iff in Hv as [Hn Hc]. split; [apply word_app, name_word, (name_ok_chars _ _ Hn)|].
    intros m r _. repeat (rewrite <- app_assoc; cbn [app]). unfold lvl_f. rewrite (atoms_f_complex _ _ n _ Hn).
    destruct (costs_pd nested_c _ _ _ (print_c_costs c Hc) m (93 :: r) (rest_ok_93 r)) as [Hok Hfail].
    split; intros Hm; [rewrite (Hok Hm) | rewrite (Hfail Hm)]; reflexivity.
Qed.

(* ScimFilter::from_str (Display f) = Ok f *)
Lemma roundtrip : forall f, valid f = true -> (print_depth f <= MAXD)%nat -> parse (print f) = POk f.
Proof.
  intros f Hv Hd. apply (costs_top nested_f _ _ _ MAXD (print_costs f Hv)), Hd.
Qed.
Lemma roundtrip_c : forall c, valid_c c = true -> (S (need_c c) <= MAXD)%nat -> parse_complex (print_c c) = POk c.
Proof.
  intros c Hv Hd. apply (costs_top nested_c _ _ _ MAXD (print_c_costs c Hv)), Hd.
Qed.
Lemma too_deep : forall f, valid f = true -> (MAXD < print_depth f)%nat -> parse (print f) = PErr.
Proof.
  intros f Hv Hd. apply (costs_top nested_f _ _ _ MAXD (print_costs f Hv)), Hd.
Qed.

Lemma parse_opens : forall s, opens MAXD s = true -> parse s = PErr.
Proof. intros s H. unfold parse. rewrite (opens_fail nested_f MAXD s H). reflexivity. Qed.
Lemma parse_complex_opens : forall s, opens MAXD s = true -> parse_complex s = PErr.
Proof. intros s H. unfold parse_complex. rewrite (opens_fail nested_c MAXD s H). reflexivity. Qed.

Lemma strip_last : forall body, strip_parens (40 :: body ++ [41]) = body.
Proof. intros body. apply removelast_last. Qed.
Lemma operand_good : forall x m, operand_ok x = true -> (need (fst x) <= m)%nat ->
  good (lvl_f m) (operand_txt x) (fst x).
Proof.
  intros [f bare] m Hok Hm. unfold operand_ok in Hok. cbn [fst snd] in *. apply andb_true_iff in Hok as [Hv Hb].
  pose proof (costs_good _ _ _ m (print_costs f Hv) Hm) as Hprint.
  destruct bare; [|exact Hprint]. unfold operand_txt. cbn [fst snd].
  destruct f as [a b|a b|a|p|o p v|n c]; try discriminate Hb; try exact Hprint; cbn [valid need print] in *.
  - rewrite print_not_paren, strip_last.
    apply (costs_good _ _ (S (need a))); [apply (costs_not nested_f), print_costs, Hv | lia].
  - rewrite print_pres_paren, strip_last. apply (costs_good _ _ 0); [apply pres_costs, Hv | lia].
  - apply andb_true_iff in Hv as [Hp Hjv]. rewrite print_cmp_paren, strip_last.
    apply (costs_good _ _ 0); [apply cmp_costs; assumption | lia].
Qed.

Lemma Forall_ok : forall {A} (okb : A -> bool) (cost : A -> nat) (P : A -> Prop) m l,
  (forall a, okb a = true -> (cost a <= m)%nat -> P a) ->
  forallb okb l = true -> (list_max (map cost l) <= m)%nat -> Forall P l.
Proof.
  intros A okb cost P m l H. induction l as [|a l IH]; cbn [forallb map]; intros Hb Hm; [constructor|].
  apply andb_true_iff in Hb as [Ha Hb]. apply list_max_le in Hm. inversion Hm; subst.
  constructor; [apply H; assumption | apply IH; [exact Hb | apply list_max_le; assumption]].
Qed.

Lemma chain_ok_g : forall c m, chain_ok c = true -> (chain_need c <= m)%nat ->
  gchain_ok (lvl_f m) operand operand_txt fst c.
Proof.
  intros [x links] m Hok Hm. apply andb_true_iff in Hok as [Hx Hl]. apply Nat.max_lub_iff in Hm as [Hmx Hml].
  split; [apply operand_good; assumption|].
  apply (Forall_ok link_ok (fun l : link => need (fst (snd l))) _ m); [| exact Hl | exact Hml].
  intros [[sa sb] y] Hy Hn. apply andb_true_iff in Hy as [Hy H3]. apply andb_true_iff in Hy as [H1 H2].
  split; [exact H1|]. split; [exact H2|]. apply operand_good; assumption.
Qed.

Lemma expr_parses : forall m c0 ors r,
  chain_ok c0 = true -> forallb olink_ok ors = true -> (expr_need c0 ors <= m)%nat -> rest_ok r ->
  pdepth (S m) (expr_txt c0 ors ++ r) = Ok (expr_sem c0 ors) r.
Proof.
  intros m c0 ors r H0 Ho Hn Hr. apply Nat.max_lub_iff in Hn as [Hn0 Hno].
  apply (p0_expr SOr SAnd (lvl_f m) operand operand_txt fst c0 ors r); [apply chain_ok_g; assumption | | exact Hr].
  apply (Forall_ok olink_ok (fun l : olink => chain_need (snd l)) _ m); [| exact Ho | exact Hno].
  intros [[sa sb] c] Hc Hm. apply andb_true_iff in Hc as [Hc H3]. apply andb_true_iff in Hc as [H1 H2].
  split; [exact H1|]. split; [exact H2|]. apply chain_ok_g; assumption.
Qed.
Lemma precedence : forall c0 ors,
  chain_ok c0 = true -> forallb olink_ok ors = true -> (S (expr_need c0 ors) <= MAXD)%nat ->
  parse (expr_txt c0 ors) = POk (expr_sem c0 ors).
Proof.
  intros c0 ors H0 Ho Hn. unfold parse. rewrite <- (app_nil_r (expr_txt c0 ors)). change MAXD with (S 127).
  rewrite (expr_parses 127 c0 ors [] H0 Ho (le_S_n _ _ Hn) I). reflexivity.
Qed.

Lemma jv_eqb_eq : forall a b, jv_eqb a b = true <-> a = b.
Proof.
  intros [| x | x | x] [| y | y | y]; cbn; try (split; discriminate); rewrite ?Bool.eqb_true_iff, ?Z.eqb_eq, ?str_eqb_eq; intuition congruence.
Qed.
Lemma cmp_eqb_eq : forall a b, cmp_eqb a b = true <-> a = b.
Proof. intros [] []; cbn; split; (reflexivity || discriminate). Qed.
Lemma path_eqb_eq : forall a b, path_eqb a b = true <-> a = b.
Proof.
  intros [a [s|]] [b [s'|]]; unfold path_eqb; cbn; rewrite andb_true_iff, ?str_eqb_eq; intuition congruence.
Qed.
Lemma cfilt_eqb_eq : forall a b, cfilt_eqb a b = true <-> a = b.
Proof.
  induction a as [a1 IH1 a2 IH2|a1 IH1 a2 IH2|a1 IH1|s|o s v]; intros [b1 b2|b1 b2|b1|s'|o' s' v']; cbn;
    try (split; discriminate); rewrite ?andb_true_iff, ?IH1, ?IH2, ?cmp_eqb_eq, ?str_eqb_eq, ?jv_eqb_eq; intuition congruence.
Qed.
Lemma filt_eqb_eq : forall a b, filt_eqb a b = true <-> a = b.
Proof.
  induction a as [a1 IH1 a2 IH2|a1 IH1 a2 IH2|a1 IH1|p|o p v|n c]; intros [b1 b2|b1 b2|b1|p'|o' p' v'|n' c']; cbn;
    try (split; discriminate); rewrite ?andb_true_iff, ?IH1, ?IH2, ?cmp_eqb_eq, ?path_eqb_eq, ?str_eqb_eq, ?jv_eqb_eq, ?cfilt_eqb_eq;
    intuition congruence.
Qed.
Lemma pres_eqb_eq : forall {A} (e : A -> A -> bool), (forall x y, e x y = true <-> x = y) ->
  forall a b, pres_eqb e a b = true -> a = b.
Proof. intros A e He [x| |] [y| |] H; cbn in H; try discriminate; [apply He in H; subst|]; reflexivity. Qed.

Lemma agree_implies_property : forall c, agree c = true -> pcheck c = true.
Proof.
  intros [f printed reparsed|c0 ors text r|text r|text r] H; cbn [agree] in H; cbn [pcheck].
  - apply andb_true_iff in H as [Hp H]. apply str_eqb_eq in Hp. subst printed.
    destruct (valid f) eqn:Hv; [|reflexivity].
    destruct (print_depth f <=? MAXD)%nat eqn:Hd.
    + apply Nat.leb_le in Hd. rewrite (roundtrip f Hv Hd) in H.
      destruct reparsed as [r|]; [|reflexivity]. apply andb_true_iff in H as [H1 H2].
      pose proof (pres_eqb_eq filt_eqb filt_eqb_eq _ _ H1) as <-. rewrite H1 in H2. discriminate H2.
    + apply Nat.leb_gt in Hd. rewrite (too_deep f Hv Hd) in H.
      destruct reparsed as [r|]; [|discriminate]. apply andb_true_iff in H as [H1 _].
      rewrite <- (pres_eqb_eq filt_eqb filt_eqb_eq _ _ H1). reflexivity.
  - apply andb_true_iff in H as [Ht H]. rewrite Ht, andb_true_r. apply str_eqb_eq in Ht. subst text.
    destruct (chain_ok c0) eqn:Hc, (forallb olink_ok ors) eqn:Ho, (S (expr_need c0 ors) <=? MAXD)%nat eqn:Hn;
      try reflexivity.
    rewrite (precedence c0 ors Hc Ho (proj1 (Nat.leb_le _ _) Hn)) in H.
    pose proof (pres_eqb_eq filt_eqb filt_eqb_eq _ _ H) as <-. exact H.
  - destruct (opens MAXD text) eqn:Ho; [|reflexivity]. rewrite (parse_opens text Ho) in H.
    rewrite <- (pres_eqb_eq filt_eqb filt_eqb_eq _ _ H). reflexivity.
  - destruct (opens MAXD text) eqn:Ho; [|reflexivity]. rewrite (parse_complex_opens text Ho) in H.
    rewrite <- (pres_eqb_eq cfilt_eqb cfilt_eqb_eq _ _ H). reflexivity.
Qed.

Lemma holds_chain : forall lv c, holds lv (chain_sem c) = forallb (holds lv) (chain_operands c).
Proof.
  intros lv [x links]. unfold chain_sem, chain_operands. cbn [fst snd forallb].
  generalize (fst x). induction links as [|[[sa sb] y] links IH]; intros acc.
  - cbn. rewrite andb_true_r. reflexivity.
  - cbn [fold_left map forallb snd fst]. rewrite IH. cbn [holds]. rewrite andb_assoc. reflexivity.
Qed.
Lemma holds_expr : forall lv c0 ors,
  holds lv (expr_sem c0 ors) =
  existsb (fun c => forallb (holds lv) (chain_operands c)) (c0 :: map (fun l : olink => snd l) ors).
Proof.
  intros lv c0 ors. unfold expr_sem. cbn [existsb]. rewrite <- holds_chain.
  generalize (chain_sem c0). induction ors as [|[[sa sb] c] ors IH]; intros acc.
  - cbn. rewrite orb_false_r. reflexivity.
  - cbn [fold_left map existsb snd]. rewrite IH. cbn [holds]. rewrite holds_chain, orb_assoc. reflexivity.
Qed.
