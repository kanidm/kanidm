(* Concrete non-trivial values meeting the hypotheses of C42_roundtrip, C42_depth_exact,
   C42_depth_reject and C42_precedence.  The complex entry point (parse_complex) and the case predicates
   agree / pcheck have no example here. *)
From Coq Require Import List NArith ZArith Bool String.
Import ListNotations.
Require Import KV.C42.Model.
Open Scope N_scope.

(* (mail pr) or ((name.type eq STRING) and (not (mail[(value gt -5)]))): every kind of node, a
   sub-attribute, a complex filter, a string needing escapes (quote, backslash, parenthesis, newline,
   control byte), a negative number *)
Definition w1 : filt :=
  SOr (SPres (s2l "mail", None))
      (SAnd (SCmp OEq (s2l "name", Some (s2l "type")) (JStr [97; 34; 98; 92; 99; 40; 10; 1]))
            (SNot (SComplex (s2l "mail") (CCmp OGt (s2l "value") (JNum (-5)%Z))))).
Example C42_witness_roundtrip :
  valid w1 = true /\ (print_depth w1 <=? MAXD)%nat = true /\ need w1 = 6%nat /\
  parse (print w1) = POk w1.
Proof. vm_compute. repeat split; reflexivity. Qed.
(* custom and mixed-case names: Custom keeps its spelling, a known name is its lower-case constant *)
Example C42_witness_names :
  valid (SPres (s2l "FooBar", Some (s2l "x-y_1"))) = true /\
  valid (SPres (s2l "Mail", None)) = false /\ attr_from (s2l "Mail") = s2l "mail" /\
  valid (SPres (s2l "1a", None)) = false /\ valid (SPres (s2l "a b", None)) = false.
Proof. vm_compute. repeat split; reflexivity. Qed.

(* the boundary: 63 negations around a leaf spend 127 levels (+1) = the limit; 64 are too many *)
Fixpoint nots (n : nat) (f : filt) : filt := match n with O => f | S k => SNot (nots k f) end.
Definition leaf0 : filt := SCmp OLe (s2l "a", None) (JNum 18446744073709551615%Z).
Example C42_witness_depth_boundary :
  valid (nots 63 leaf0) = true /\ print_depth (nots 63 leaf0) = MAXD /\
  parse (print (nots 63 leaf0)) = POk (nots 63 leaf0) /\
  valid (nots 64 leaf0) = true /\ (MAXD <? print_depth (nots 64 leaf0))%nat = true /\
  parse (print (nots 64 leaf0)) = PErr.
Proof. vm_compute. repeat split; reflexivity. Qed.
(* C42_depth_reject: 128 parentheses around a fine expression *)
Example C42_witness_opens :
  let s := repeat 40 128 ++ s2l "a pr" ++ repeat 41 128 in
  opens MAXD s = true /\ parse s = PErr /\
  parse (repeat 40 127 ++ s2l "a pr" ++ repeat 41 127) = POk (SPres ([97], None)).
Proof. vm_compute. repeat split; reflexivity. Qed.

(* C42_precedence: `a pr  or (b eq 1) and not (c pr)\tand d[type pr] or e pr` *)
Definition o_a : operand := (SPres ([97], None), true).
Definition o_b : operand := (SCmp OEq ([98], None) (JNum 1%Z), false).
Definition o_c : operand := (SNot (SPres ([99], None)), true).
Definition o_d : operand := (SComplex [100] (CPres (s2l "type")), true).
Definition o_e : operand := (SPres ([101], None), true).
Definition wc0 : chain := (o_a, []).
Definition wors : list olink :=
  [([32; 32], [32], (o_b, [([32], [32], o_c); ([9], [32], o_d)])); ([10], [32], (o_e, []))].
Example C42_witness_precedence :
  chain_ok wc0 = true /\ forallb olink_ok wors = true /\ (S (expr_need wc0 wors) <=? MAXD)%nat = true /\
  expr_txt wc0 wors = [97; 32; 112; 114; 32; 32; 111; 114; 32; 40; 98; 32; 101; 113; 32; 49; 41; 32; 97; 110; 100; 32;
                        110; 111; 116; 32; 40; 40; 99; 32; 112; 114; 41; 41; 9; 97; 110; 100; 32;
                        100; 91; 40; 116; 121; 112; 101; 32; 112; 114; 41; 93; 10; 111; 114; 32; 101; 32; 112; 114] /\
  parse (expr_txt wc0 wors) =
    POk (SOr (SOr (fst o_a) (SAnd (SAnd (fst o_b) (fst o_c)) (fst o_d))) (fst o_e)).
Proof. vm_compute. repeat split; reflexivity. Qed.

(* texts the grammar must reject / read in a particular way (the first four are also among the fixed texts
   that harness/src/bin/c42.rs sends to the real parser) *)
Example C42_witness_misc :
  parse (s2l "a pr oR b pr") = PErr /\ parse (s2l "not(a pr)") = PErr /\
  parse (s2l "not pr") = POk (SPres (s2l "not", None)) /\
  parse (s2l "a eq 01") = PErr /\ parse (s2l "a eq 1.5") = PUndef /\
  parse (s2l "a pr and (b pr or c pr)") = POk (SAnd (SPres ([97], None)) (SOr (SPres ([98], None)) (SPres ([99], None)))).
Proof. vm_compute. repeat split; reflexivity. Qed.
