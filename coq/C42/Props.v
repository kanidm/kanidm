(* The model: KV.C42.Model (`print` = impl Display for ScimFilter/ScimComplexFilter, `parse` =
   ScimFilter::from_str = the scimfilter peg grammar with rust-peg's precedence climbing, the depth
   limiter and serde_json's scalar reader), tied to /repo on every run by harness/src/bin/c42.rs. *)
From Coq Require Import List NArith ZArith Bool.
Import ListNotations.
Require Import KV.C42.Model KV.C42.Proofs.
Open Scope N_scope.

(* Round trip.  Any filter tree — of any size — whose attribute / sub-attribute names are valid SCIM names
   (as produced by Attribute::from on a name of the attrstring charset), whose comparison values are
   scalars (null, bool, integer of i64 ∪ u64, ANY byte string: quotes, backslashes, control bytes,
   brackets, keywords…) and whose printed form spends at most SCIM_FILTER_MAX_DEPTH nesting levels,
   is printed to a text that parses back to exactly the same tree. *)
Theorem C42_roundtrip : forall f,
  valid f = true -> (print_depth f <= MAXD)%nat -> parse (print f) = POk f.
Proof. exact roundtrip. Qed.

(* the same for ScimComplexFilter::from_str / Display *)
Theorem C42_roundtrip_complex : forall c,
  valid_c c = true -> (S (need_c c) <= MAXD)%nat -> parse_complex (print_c c) = POk c.
Proof. exact roundtrip_c. Qed.

(* The bound is exact: a valid filter whose printed form nests deeper than the limit is REJECTED when
   its text is parsed back (so `print_depth f <= MAXD` is precisely the round-trip domain). *)
Theorem C42_depth_exact : forall f,
  valid f = true -> (MAXD < print_depth f)%nat -> parse (print f) = PErr.
Proof. exact too_deep. Qed.

(* The depth limit on arbitrary text: whatever follows, a text that opens with SCIM_FILTER_MAX_DEPTH (or more)
   parentheses is rejected, by both entry points. *)
Theorem C42_depth_reject : forall s, opens MAXD s = true -> parse s = PErr.
Proof. exact parse_opens. Qed.
Theorem C42_depth_reject_complex : forall s, opens MAXD s = true -> parse_complex s = PErr.
Proof. exact parse_complex_opens. Qed.
(* at every depth budget d, not only the top-level one *)
Theorem C42_depth_reject_at : forall d s, opens d s = true -> pdepth d s = Fail.
Proof. exact (opens_fail nested_f). Qed.

(* Precedence, for token strings of any length.  Take any or-separated list of and-separated operands
     x ( sep+ "and" sep+ y )*  ( sep+ "or" sep+  x' ( sep+ "and" sep+ y' )* )*
   with arbitrary non-empty separator runs, each operand written as printed or bare (`a pr`,
   `a eq 1`, `not (..)`, `a[..]`).  The parser answers the tree in which every and-chain is folded to
   the left FIRST and the chains are then or-ed to the left: AND binds tighter than OR, both are
   left-associative. *)
Theorem C42_precedence : forall c0 ors,
  chain_ok c0 = true -> forallb olink_ok ors = true -> (S (expr_need c0 ors) <= MAXD)%nat ->
  parse (expr_txt c0 ors) = POk (expr_sem c0 ors).
Proof. exact precedence. Qed.

(* what that tree means: under ANY valuation of the attribute expressions it is true iff some
   or-group has all of its and-operands true (disjunction of conjunctions, in reading order) *)
Theorem C42_precedence_meaning : forall lv c0 ors,
  holds lv (expr_sem c0 ors) =
  existsb (fun c => forallb (holds lv) (chain_operands c)) (c0 :: map (fun l : olink => snd l) ors).
Proof. exact holds_expr. Qed.

(* the four three-operand instances, spelled out *)
Theorem C42_or_and : forall a b c s1 s2 s3 s4,
  operand_ok a = true -> operand_ok b = true -> operand_ok c = true ->
  sep_ok s1 = true -> sep_ok s2 = true -> sep_ok s3 = true -> sep_ok s4 = true ->
  (S (Nat.max (need (fst a)) (Nat.max (need (fst b)) (need (fst c)))) <= MAXD)%nat ->
  parse (operand_txt a ++ s1 ++ k_or ++ s2 ++ operand_txt b ++ s3 ++ k_and ++ s4 ++ operand_txt c)
  = POk (SOr (fst a) (SAnd (fst b) (fst c))) /\
  parse (operand_txt a ++ s1 ++ k_and ++ s2 ++ operand_txt b ++ s3 ++ k_or ++ s4 ++ operand_txt c)
  = POk (SOr (SAnd (fst a) (fst b)) (fst c)) /\
  parse (operand_txt a ++ s1 ++ k_or ++ s2 ++ operand_txt b ++ s3 ++ k_or ++ s4 ++ operand_txt c)
  = POk (SOr (SOr (fst a) (fst b)) (fst c)) /\
  parse (operand_txt a ++ s1 ++ k_and ++ s2 ++ operand_txt b ++ s3 ++ k_and ++ s4 ++ operand_txt c)
  = POk (SAnd (SAnd (fst a) (fst b)) (fst c)).
Proof.
  intros a b c s1 s2 s3 s4 Ha Hb Hc H1 H2 H3 H4 Hn.
  repeat split;
    [ pose proof (precedence (a, []) [(s1, s2, (b, [(s3, s4, c)]))]) as P
    | pose proof (precedence (a, [(s1, s2, b)]) [(s3, s4, (c, []))]) as P
    | pose proof (precedence (a, []) [(s1, s2, (b, [])); (s3, s4, (c, []))]) as P
    | pose proof (precedence (a, [(s1, s2, b); (s3, s4, c)]) []) as P ].
  all: cbv [expr_txt expr_sem chain_txt chain_sem chain_ok olink_ok link_ok expr_need chain_need link_txt
            fst snd flat_map fold_left forallb map list_max fold_right] in P.
  all: rewrite Ha, Hb, Hc, H1, H2, H3, H4, ?app_nil_r, <- ?app_assoc, ?Nat.max_0_r, <- ?Nat.max_assoc in P.
  all: apply P; [reflexivity | reflexivity | exact Hn].
Qed.

(* the conjunction of C42_roundtrip, C42_precedence, C42_depth_reject and C42_depth_exact *)
Definition C42_full_statement : Prop :=
  (forall f, valid f = true -> (print_depth f <= MAXD)%nat -> parse (print f) = POk f) /\
  (forall c0 ors, chain_ok c0 = true -> forallb olink_ok ors = true -> (S (expr_need c0 ors) <= MAXD)%nat ->
     parse (expr_txt c0 ors) = POk (expr_sem c0 ors)) /\
  (forall s, opens MAXD s = true -> parse s = PErr) /\
  (forall f, valid f = true -> (MAXD < print_depth f)%nat -> parse (print f) = PErr).
Theorem C42_property : C42_full_statement.
Proof. exact (conj C42_roundtrip (conj C42_precedence (conj C42_depth_reject C42_depth_exact))). Qed.

(* On every recorded case where the model reproduces the implementation's Display text and
   from_str result, the property's executable predicate holds on the IMPLEMENTATION's answers: a run
   with zero disagreements transfers the theorems above to every observed implementation case. *)
Theorem C42_agree_implies_property : forall c, agree c = true -> pcheck c = true.
Proof. exact agree_implies_property. Qed.

(* filt_eqb, by which agree and pcheck compare filters, is genuine equality *)
Theorem C42_filt_eqb_sound : forall a b, filt_eqb a b = true -> a = b.
Proof. apply filt_eqb_eq. Qed.
