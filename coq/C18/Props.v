(* KV.C18.Props — `tree` = `fixedv` = /repo since the commit "fix: dynamic groups ..."; `cur` = the
   tree before that commit. *)
From Coq Require Import List NArith Bool.
Import ListNotations.
Require Import KV.Base.Filter KV.C18.Model KV.C18.Proofs.
Open Scope N_scope.

(* THE PROPERTY, full strength, for a variant v of the code: from any well-formed state in which
   every live dynamic group holds exactly the live entries that satisfy its filter, after ANY
   sequence of operations (creates, modifies, deletes of candidates and of dynamic groups, in
   batches, with any AND/OR/NOT filter trees; failed operations are rolled back) every live dynamic
   group again holds exactly the live entries that satisfy its CURRENT filter. *)
Definition C18_full_statement (v : variant) : Prop :=
  forall (s : st) (ops : list op), Inv s -> DynExact (run v s ops).

(* One operation preserves the invariant (well-formedness + exact membership) ... *)
Theorem C18_inv_step : forall (s : st) (o : op) (s' : st), Inv s -> step tree s o = Some s' -> Inv s'.
Proof. intros s o s' I H. exact (step_inv tree s o s' I H (fixed_step_unknown s o)). Qed.

(* ... hence every reachable state satisfies it. *)
Theorem C18_reachable : forall (ops : list op) (s : st), Inv s -> Inv (run tree s ops).
Proof. intros ops s I. exact (run_inv tree ops s I (fixed_never_known s ops)). Qed.

(* So the full statement holds for the tree: unbounded states, histories, batches and filters; no
   side condition. *)
Theorem C18_exact : C18_full_statement tree.
Proof. intros s ops I. exact (proj2 (C18_reachable ops s I)). Qed.

(* Membership follows the group's filter: an operation that modifies a dynamic group (new filter,
   or direct tampering with dynmember) from ANY prior state — exactness is not assumed — leaves it
   with exactly the live entries satisfying its new filter. *)
Theorem C18_filter_change_reevaluates : forall (s : st) (ts : list target) (s' : st) (t : target) (f : filt),
  WF s -> modify tree s ts = Some s' -> In t ts -> tfilt t = Some f ->
  exists g', In g' (grps s') /\ gid g' = tid t /\ gf g' = f /\
    forall x, In x (gdm g') <-> exists u, In (x, u) (ents s') /\ hit f u = true.
Proof. intros s ts s' t f _ H Ht TF. exact (modify_reeval_exact tree s ts s' t f H Ht TF eq_refl). Qed.

(* Deleted (recycled) entries leave every dynamic group, in every state. *)
Theorem C18_deleted_leave : forall (s : st) (ids : list N) (s' : st) (g' : grp) (x : N),
  delete s ids = Some s' -> In g' (grps s') -> In x ids -> ~ In x (gdm g').
Proof. exact delete_leaves. Qed.

(* Well-formedness (distinct uuids, every live group cached with its current filter) is kept by
   every variant. *)
Theorem C18_wf_always : forall (v : variant) (ops : list op) (s : st), WF s -> WF (run v s ops).
Proof. exact run_wf. Qed.

(* In the tree before the fix commit (`cur`) the full statement was false: a recycled entry
   re-entered any group that was re-evaluated (K1, witness w_ops_k1) ... *)
Theorem C18_prefix_refuted : ~ C18_full_statement cur.
Proof. apply (refuted_by cur w_ops_k1). vm_compute. reflexivity. Qed.
(* ... and repairing only that would not have been enough: an entry that is itself a dynamic group
   was never tested against the other groups' filters (K2, witness w_ops_k2). *)
Theorem C18_prefix_recfixed_refuted : ~ C18_full_statement recfixed.
Proof. apply (refuted_by recfixed w_ops_k2). vm_compute. reflexivity. Qed.
(* For EVERY variant the invariant is preserved by the steps outside that variant's classes K1/K2
   (for `tree` both classes are empty, which is how C18_inv_step is obtained). *)
Theorem C18_prefix_inv_step_partial : forall (v : variant) (s : st) (o : op) (s' : st),
  Inv s -> step v s o = Some s' -> known_step v s o = false -> Inv s'.
Proof. exact step_inv. Qed.
Theorem C18_prefix_reachable_partial : forall (v : variant) (ops : list op) (s : st),
  Inv s -> run_known v s ops = false -> Inv (run v s ops).
Proof. exact run_inv. Qed.

(* The executable predicate used on the implementation's dumps means exact membership. *)
Theorem C18_pcheck_sound : forall (init : obs) (steps : list (op * obs)),
  pcheck (CHist init steps) = true ->
  DynExact (st_of init) /\ forall o ob, In (o, ob) steps -> DynExact (st_of ob).
Proof. exact pcheck_sound. Qed.

(* If the real server's dumps agree with the model's replay and the initial directory is exact,
   then every dump of the real server is exact. *)
Theorem C18_agree_implies_property : forall c : case,
  agree c = true -> match c with CHist init _ => obs_exact init = true end -> pcheck c = true.
Proof. intros [init steps]. exact (agree_pcheck init steps). Qed.
