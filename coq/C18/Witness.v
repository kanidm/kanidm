From Coq Require Import List NArith Bool.
Import ListNotations.
Require Import KV.Base.Filter KV.C18.Model KV.C18.Proofs.
Open Scope N_scope.

Definition blue : leaf := (0, 2, 3).
Definition fblue : filt := FLeaf KEq 2 3 None.
Definition isgrp : leaf := (0, 0, 1).
(* NOT(description=red) AND class=group *)
Definition fnotred : filt := FAnd [FAndNot w_fred None; FLeaf KEq 0 1 None] None.

(* a history outside the known classes of the tree before the fix (`run_known cur` is false on it),
   in which membership changes through candidate creates, candidate edits in both directions, a
   filter change and a delete *)
Definition ops_ok : list op :=
  [ OCreate [mkT 100 [] (Some w_fred)];
    OCreate [mkT 1 [w_red; isgrp] None; mkT 2 [blue; isgrp] None];
    OModify [mkT 2 [w_red; isgrp] None];
    OModify [mkT 1 [blue; isgrp] None; mkT 2 [isgrp] None];
    OModify [mkT 100 [] (Some fnotred)];
    OCreate [mkT 3 [w_red; isgrp] None; mkT 4 [isgrp] None];
    ODelete [2];
    OCreate [mkT 1 [] None]                      (* duplicate uuid: fails, rolled back *) ].

Example C18_witness_history :
  map gdm (grps (run tree w_s0 ops_ok)) = [[1; 4]] /\
  exactb (run tree w_s0 ops_ok) = true /\
  run_known cur w_s0 ops_ok = false.
Proof. vm_compute. repeat split. Qed.

Example C18_witness_inv_s0 : Inv w_s0.
Proof. exact inv_s0. Qed.

(* every intermediate state of that history: membership really moves *)
Example C18_witness_trace :
  map (fun n => map gdm (grps (run tree w_s0 (firstn n ops_ok)))) [1; 2; 3; 4; 5; 6; 7]%nat
  = [[[]]; [[1]]; [[1; 2]]; [[]]; [[1; 2]]; [[1; 2; 4]]; [[1; 4]]].
Proof. vm_compute. reflexivity. Qed.

(* refutation witnesses: both classes broke exactness in the tree before the fix ... *)
Example C18_witness_k1_refuted :
  exactb (run cur w_s0 w_ops_k1) = false /\ run_known cur w_s0 w_ops_k1 = true
  /\ map gdm (grps (run cur w_s0 w_ops_k1)) = [[1]] /\ map fst (ents (run cur w_s0 w_ops_k1)) = [100].
Proof. vm_compute. repeat split. Qed.
Example C18_witness_k2_refuted :
  exactb (run cur w_s0 w_ops_k2) = false /\ run_known cur w_s0 w_ops_k2 = true
  /\ map gdm (grps (run cur w_s0 w_ops_k2)) = [[]; [101]].
Proof. vm_compute. repeat split. Qed.
Example C18_witness_k2_recfixed_refuted :
  exactb (run recfixed w_s0 w_ops_k2) = false /\ exactb (run recfixed w_s0 w_ops_k1) = true.
Proof. vm_compute. repeat split. Qed.
(* ... and neither does in the tree *)
Example C18_witness_fixed :
  exactb (run tree w_s0 w_ops_k1) = true /\ exactb (run tree w_s0 w_ops_k2) = true
  /\ map gdm (grps (run tree w_s0 w_ops_k2)) = [[101]; [101]] /\ map gdm (grps (run tree w_s0 w_ops_k1)) = [[]].
Proof. vm_compute. repeat split. Qed.

(* step 5 of ops_ok is an operation the filter-change theorem speaks about: the modify succeeds, on
   a state that passes wfb (that the state is WF follows from C18_witness_inv_s0 by C18_wf_always) *)
Example C18_witness_filter_change :
  let s := run tree w_s0 (firstn 4 ops_ok) in
  is_some (modify tree s [mkT 100 [] (Some fnotred)]) = true /\ wfb s = true.
Proof. vm_compute. split; reflexivity. Qed.

(* a recorded case in the harness format on which model and dump agree *)
Definition w_case : case :=
  CHist (mkO true [(0, [isgrp])] [] [])
    [ (OCreate [mkT 100 [isgrp] (Some w_fred)], mkO true [(0, [isgrp]); (100, [isgrp])] [mkG 100 w_fred []] []);
      (OCreate [mkT 1 [w_red] None], mkO true [(0, [isgrp]); (1, [w_red]); (100, [isgrp])] [mkG 100 w_fred [1]] []);
      (ODelete [1], mkO true [(0, [isgrp]); (100, [isgrp])] [mkG 100 w_fred []] [(1, [w_red])]) ].
Example C18_witness_agree : agree w_case = true /\ pcheck w_case = true.
Proof. vm_compute. repeat split. Qed.
