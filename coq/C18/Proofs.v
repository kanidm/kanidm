(* KV.C18.Proofs — the invariant (WF and DynExact) is kept by create, modify and delete of every
   variant outside that variant's classes K1/K2; a replay that agrees with the server's dumps
   carries exactness over to the dumps. *)
From Coq Require Import List NArith Bool.
Import ListNotations.
Require Import KV.Base.Filter KV.C18.Model.
Open Scope N_scope.
Arguments N.eqb : simpl never.

Lemma existsb_false_all : forall {A} (p : A -> bool) l, existsb p l = false -> forall x, In x l -> p x = false.
Proof.
  intros A p l H x Hx. destruct (p x) eqn:E; [|reflexivity].
  rewrite <- H. symmetry. apply existsb_exists. exists x. split; assumption.
Qed.
Lemma NoDup_app_intro : forall {A} (a b : list A),
  NoDup a -> NoDup b -> (forall x, In x a -> ~ In x b) -> NoDup (a ++ b).
Proof.
  intros A a b Ha Hb Hd. induction Ha as [|x r Hn Hr IH]; cbn [app]; [exact Hb|].
  constructor.
  - intros H. apply in_app_iff in H as [H|H]; [exact (Hn H) | exact (Hd x (or_introl eq_refl) H)].
  - apply IH. intros y Hy. apply Hd. right. exact Hy.
Qed.
Lemma NoDup_app_l : forall {A} (a b : list A), NoDup (a ++ b) -> NoDup a.
Proof.
  intros A a b. induction a as [|x r IH]; cbn [app]; intros H; [constructor|].
  inversion H as [|? ? Hn H']; subst. constructor; [|exact (IH H')].
  intros Hx. apply Hn. apply in_app_iff. left. exact Hx.
Qed.
Lemma map_filter_key : forall {A B} (f : A -> B) p (l : list A),
  map f (filter (fun a => p (f a)) l) = filter p (map f l).
Proof.
  intros A B f p l. induction l as [|a r IH]; cbn [map filter]; [reflexivity|].
  destruct (p (f a)); cbn [map]; rewrite IH; reflexivity.
Qed.

Lemma mem_In : forall x l, mem x l = true <-> In x l.
Proof.
  intros x l. unfold mem. rewrite existsb_exists. split.
  - intros [y [Hy E]]. apply N.eqb_eq in E. subst y. exact Hy.
  - intros H. exists x. split; [exact H | apply N.eqb_refl].
Qed.
Lemma mem_nIn : forall x l, mem x l = false <-> ~ In x l.
Proof. intros x l. rewrite <- mem_In. symmetry. apply not_true_iff_false. Qed.
Lemma nodupb_NoDup : forall l, nodupb l = true -> NoDup l.
Proof.
  induction l as [|x r IH]; intros H; [constructor|].
  cbn [nodupb] in H. apply andb_true_iff in H as [H1 H2]. apply negb_true_iff in H1.
  constructor; [apply mem_nIn; exact H1 | exact (IH H2)].
Qed.
Lemma In_union_ : forall x a b, In x (union_ a b) <-> In x a \/ In x b.
Proof.
  intros x a b. unfold union_. rewrite in_app_iff, filter_In. split.
  - intros [H | [H _]]; [left | right]; exact H.
  - intros [H | H]; [left; exact H|]. destruct (mem x a) eqn:E.
    + left. apply mem_In. exact E.
    + right. split; [exact H | reflexivity].
Qed.
Lemma In_diff_ : forall x a b, In x (diff_ a b) <-> In x a /\ ~ In x b.
Proof.
  intros x a b. unfold diff_. rewrite filter_In, negb_true_iff, mem_nIn. reflexivity.
Qed.
Lemma set_eqb_iff : forall a b, set_eqb a b = true <-> (forall x, In x a <-> In x b).
Proof.
  intros a b. unfold set_eqb. rewrite andb_true_iff, !forallb_forall. split.
  - intros [H1 H2] x. split; intros H; apply mem_In; [apply H1 | apply H2]; exact H.
  - intros H. split; intros x Hx; apply mem_In; apply H; exact Hx.
Qed.

Lemma lookup_Some_In : forall {A} x (l : list (N * A)) a, lookup x l = Some a -> In (x, a) l.
Proof.
  intros A x l a. induction l as [|[k b] r IH]; cbn [lookup]; intros H; [discriminate|].
  destruct (N.eqb_spec k x) as [->|_].
  - injection H as ->. left. reflexivity.
  - right. exact (IH H).
Qed.
Lemma lookup_None_iff : forall {A} x (l : list (N * A)), lookup x l = None <-> ~ In x (map fst l).
Proof.
  intros A x l. induction l as [|[k b] r IH]; cbn [lookup map fst In].
  - split; [intros _ [] | reflexivity].
  - destruct (N.eqb_spec k x) as [E|E].
    + split; [discriminate | intros H; destruct H; left; exact E].
    + rewrite IH. split; [intros H [E'|H']; [exact (E E') | exact (H H')] | intros H H'; apply H; right; exact H'].
Qed.
Lemma lookup_In : forall {A} x a (l : list (N * A)), NoDup (map fst l) -> In (x, a) l -> lookup x l = Some a.
Proof.
  intros A x a l. induction l as [|[k b] r IH]; cbn [lookup map fst]; intros ND H; [destruct H|].
  inversion ND as [|? ? Hn ND']; subst. destruct H as [H | H].
  - injection H as -> ->. rewrite N.eqb_refl. reflexivity.
  - destruct (N.eqb_spec k x) as [->|_]; [|exact (IH ND' H)].
    destruct Hn. exact (in_map fst _ _ H).
Qed.
Lemma pairs_fun : forall {A} x (a b : A) (l : list (N * A)), NoDup (map fst l) -> In (x, a) l -> In (x, b) l -> a = b.
Proof.
  intros A x a b l ND Ha Hb. apply (lookup_In x a l ND) in Ha. apply (lookup_In x b l ND) in Hb. congruence.
Qed.
Lemma lookup_dom : forall {A} x (l : list (N * A)), In x (map fst l) -> exists a, lookup x l = Some a.
Proof.
  intros A x l H. destruct (lookup x l) eqn:E; [eexists; reflexivity|]. apply lookup_None_iff in E. contradiction.
Qed.

Lemma tlof_fst : forall ts, map fst (tlof ts) = map tid ts.
Proof. intros ts. unfold tlof. rewrite map_map. reflexivity. Qed.
Lemma lookup_tl_Some : forall ts x t, lookup x (tlof ts) = Some t -> In t ts /\ tid t = x.
Proof.
  intros ts x t H. apply lookup_Some_In, in_map_iff in H as [t' [E Hin]].
  injection E as E1 ->. split; [exact Hin | exact E1].
Qed.
Lemma lookup_tl_In : forall ts t, NoDup (map tid ts) -> In t ts -> lookup (tid t) (tlof ts) = Some t.
Proof.
  intros ts t ND H. apply lookup_In; [rewrite tlof_fst; exact ND|].
  exact (in_map (fun t => (tid t, t)) ts t H).
Qed.

Lemma is_grp_iff : forall s x, is_grp s x = true <-> exists g, In g (grps s) /\ gid g = x.
Proof.
  intros s x. unfold is_grp. rewrite existsb_exists.
  split; intros [g [H E]]; exists g; (split; [exact H | apply N.eqb_eq; exact E]).
Qed.

Lemma newgrps_In : forall ts i f, In (i, f) (newgrps ts) <-> exists t, In t ts /\ tid t = i /\ tfilt t = Some f.
Proof.
  intros ts i f. unfold newgrps. rewrite in_flat_map. split.
  - intros [t [Ht H]]. destruct (tfilt t) as [f'|] eqn:E; [|destruct H]. destruct H as [H|[]].
    injection H as <- <-. exists t. repeat split; [exact Ht | exact E].
  - intros [t [Ht [<- E]]]. exists t. split; [exact Ht|]. rewrite E. left. reflexivity.
Qed.
Lemma newgrps_fst_incl : forall ts x, In x (map fst (newgrps ts)) -> In x (map tid ts).
Proof.
  intros ts x H. apply in_map_iff in H as [[i f] [<- H]].
  apply newgrps_In in H as [t [Ht [<- _]]]. exact (in_map tid ts t Ht).
Qed.
Lemma newgrps_NoDup : forall ts, NoDup (map tid ts) -> NoDup (map fst (newgrps ts)).
Proof.
  induction ts as [|t r IH]; intros ND; [constructor|].
  cbn [map] in ND. inversion ND as [|? ? Hn ND']; subst.
  unfold newgrps. cbn [flat_map]. fold (newgrps r). destruct (tfilt t) as [f|]; cbn [app map fst]; [|exact (IH ND')].
  constructor; [|exact (IH ND')]. intros H. exact (Hn (newgrps_fst_incl r _ H)).
Qed.

Definition matches (es : list (N * tv)) (f : filt) (x : N) : Prop :=
  exists t, In (x, t) es /\ hit f t = true.

(* the property: a live dynamic group's dynmember is exactly the set of live entries that
   satisfy its filter, i.e. In x (gdm g) <-> matches (ents s) (gf g) x, spelled out *)
Definition DynExact (s : st) : Prop :=
  forall g, In g (grps s) ->
  forall x, In x (gdm g) <-> exists t, In (x, t) (ents s) /\ hit (gf g) t = true.

Record WF (s : st) : Prop := mkWF {
  wf_ids : NoDup (map fst (ents s));
  wf_gids : NoDup (map gid (grps s));
  wf_gin : forall g, In g (grps s) -> In (gid g) (map fst (ents s));
  wf_ckeys : NoDup (map fst (cache s));                    (* a BTreeMap *)
  wf_cache : forall g, In g (grps s) -> lookup (gid g) (cache s) = Some (gf g)
}.
Definition Inv (s : st) : Prop := WF s /\ DynExact s.

Lemma In_matching : forall f es x,
  In x (map fst (filter (fun e : N * tv => hit f (snd e)) es)) <-> matches es f x.
Proof.
  intros f es x. rewrite in_map_iff. split.
  - intros [[y t] [<- H]]. apply filter_In in H. exists t. exact H.
  - intros [t H]. exists (x, t). split; [reflexivity | apply filter_In; exact H].
Qed.
Lemma matches_app : forall a b f x, matches (a ++ b) f x <-> matches a f x \/ matches b f x.
Proof.
  intros a b f x. unfold matches. split.
  - intros [t [H Hh]]. apply in_app_iff in H as [H | H]; [left | right]; exists t; split; assumption.
  - intros [[t [H Hh]] | [t [H Hh]]]; exists t; (split; [apply in_app_iff | exact Hh]); [left | right]; exact H.
Qed.
Lemma reeval_In : forall v es ds f x, In x (reeval v es ds f) <-> matches (stored v es ds) f x.
Proof. intros v es ds f x. apply In_matching. Qed.

Lemma exact_grp_iff : forall es g, exact_grp es g = true <-> (forall x, In x (gdm g) <-> matches es (gf g) x).
Proof.
  intros es g. unfold exact_grp. rewrite set_eqb_iff.
  split; intros H x; rewrite (H x); [apply In_matching | symmetry; apply In_matching].
Qed.
Lemma exactb_iff : forall s, exactb s = true <-> DynExact s.
Proof.
  intros s. unfold exactb, DynExact. rewrite forallb_forall. split; intros H g Hg; apply exact_grp_iff; apply H; exact Hg.
Qed.

Lemma k1_false : forall s ts i f,
  k1 s ts = false -> In (i, f) (newgrps ts) -> forall e, In e (dead s) -> hit f (snd e) = false.
Proof.
  intros s ts i f HK Hin e He. unfold k1 in HK.
  exact (existsb_false_all _ _ (existsb_false_all _ _ HK (i, f) Hin) e He).
Qed.
Lemma k2_false : forall s ts t g,
  k2 s ts = false -> In t ts -> is_some (tfilt t) = true -> In g (grps s) -> ~ In (gid g) (map tid ts) ->
  hit (gf g) (ttv t) = mem (tid t) (gdm g).
Proof.
  intros s ts t g HK Ht IS Hg Hn. unfold k2 in HK.
  pose proof (existsb_false_all _ _ HK t Ht) as K. cbn beta in K. rewrite IS in K.
  pose proof (existsb_false_all _ _ K g Hg) as K'. cbn beta in K'.
  apply mem_nIn in Hn. rewrite Hn in K'. apply eqb_prop, negb_false_iff. exact K'.
Qed.

Lemma reeval_exact : forall v s ts es i f,
  negb (live_only v) && k1 s ts = false -> In (i, f) (newgrps ts) ->
  forall x, In x (reeval v es (dead s) f) <-> matches es f x.
Proof.
  intros v s ts es i f HK Hin x. rewrite reeval_In. unfold stored. destruct (live_only v); [reflexivity|].
  rewrite matches_app. split; [|intros H; left; exact H].
  intros [H | [t [Hd Hh]]]; [exact H|]. pose proof (k1_false s ts i f HK Hin (x, t) Hd) as E. cbn [snd] in E. congruence.
Qed.

(* a changed entry that is not tested against the cached filters (it is a dynamic group and the
   variant skips those) already has, outside class K2, the membership its new truth vector calls for *)
Lemma noncand_settled : forall v s ts t g,
  negb (dyn_cands v) && k2 s ts = false -> In t ts -> is_cand v t = false ->
  In g (grps s) -> ~ In (gid g) (map tid ts) ->
  hit (gf g) (ttv t) = true <-> In (tid t) (gdm g).
Proof.
  intros v s ts t g HK Ht IC Hg Hn. unfold is_cand in IC. apply orb_false_iff in IC as [DC IS].
  rewrite DC in HK. apply negb_false_iff in IS. rewrite (k2_false s ts t g HK Ht IS Hg Hn). apply mem_In.
Qed.

Lemma delete_some : forall s ids s', delete s ids = Some s' ->
  s' = mkS (filter (fun e => negb (mem (fst e) ids)) (ents s))
           (map (dgrp ids) (filter (fun g => negb (mem (gid g) ids)) (grps s)))
           (dead s ++ filter (fun e => mem (fst e) ids) (ents s)) (cache s).
Proof.
  unfold delete. intros s ids s' H.
  destruct (_ || _); [discriminate | injection H as <-; reflexivity].
Qed.

Lemma delete_wf : forall s ids s', WF s -> delete s ids = Some s' -> WF s'.
Proof.
  intros s ids s' [W1 W2 W3 W4 W5] H. apply delete_some in H. subst s'.
  constructor; cbn [ents grps dead cache].
  - rewrite (map_filter_key fst (fun x => negb (mem x ids))). apply NoDup_filter. exact W1.
  - rewrite map_map. cbn [dgrp gid]. rewrite (map_filter_key gid (fun x => negb (mem x ids))).
    apply NoDup_filter. exact W2.
  - intros g' Hg. apply in_map_iff in Hg as [g [<- Hg]]. apply filter_In in Hg as [Hg Hm]. cbn [dgrp gid].
    rewrite (map_filter_key fst (fun x => negb (mem x ids))). apply filter_In. split; [exact (W3 g Hg) | exact Hm].
  - exact W4.
  - intros g' Hg. apply in_map_iff in Hg as [g [<- Hg]]. apply filter_In in Hg as [Hg _]. exact (W5 g Hg).
Qed.

Lemma delete_exact : forall s ids s', DynExact s -> delete s ids = Some s' -> DynExact s'.
Proof.
  intros s ids s' D H. apply delete_some in H. subst s'. intros g' Hg x. cbn [ents grps] in *.
  apply in_map_iff in Hg as [g [<- Hg]]. apply filter_In in Hg as [Hg _].
  cbn [dgrp gdm gf]. rewrite In_diff_, (D g Hg x). split.
  - intros [[t [H1 H2]] Hn]. exists t. split; [|exact H2]. apply filter_In. split; [exact H1|].
    apply negb_true_iff, mem_nIn. exact Hn.
  - intros [t [H1 H2]]. apply filter_In in H1 as [H1 Hm]. apply negb_true_iff, mem_nIn in Hm.
    split; [exists t; split; assumption | exact Hm].
Qed.

Lemma delete_leaves : forall s ids s' g' x,
  delete s ids = Some s' -> In g' (grps s') -> In x ids -> ~ In x (gdm g').
Proof.
  intros s ids s' g' x H Hg Hx. apply delete_some in H. subst s'.
  apply in_map_iff in Hg as [g [<- _]]. cbn [dgrp gdm]. rewrite In_diff_. intros [_ Hn]. exact (Hn Hx).
Qed.

Definition created_ents (ts : list target) : list (N * tv) := map (fun t => (tid t, ttv t)) ts.

Lemma created_fst : forall ts, map fst (created_ents ts) = map tid ts.
Proof. intros ts. unfold created_ents. rewrite map_map. reflexivity. Qed.
Lemma matches_created : forall ts f x,
  matches (created_ents ts) f x <-> In x (map tid (filter (fun t => hit f (ttv t)) ts)).
Proof.
  intros ts f x. unfold matches, created_ents. rewrite in_map_iff. split.
  - intros [u [H Hh]]. apply in_map_iff in H as [t [E Ht]]. injection E as <- <-.
    exists t. split; [reflexivity | apply filter_In; split; assumption].
  - intros [t [<- Ht]]. apply filter_In in Ht as [Ht Hh].
    exists (ttv t). split; [exact (in_map (fun t => (tid t, ttv t)) ts t Ht) | exact Hh].
Qed.

Lemma live_ids_of : forall s x, In x (map fst (ents s)) -> In x (ids_of s).
Proof. intros s x H. unfold ids_of. apply in_app_iff. left. exact H. Qed.

Lemma create_some : forall v s ts s', create v s ts = Some s' ->
  NoDup (map tid ts) /\ (forall x, In x (map tid ts) -> ~ In x (ids_of s)) /\
  (forall x, In x (map tid ts) -> ~ In x (map fst (cache s))) /\
  s' = mkS (ents s ++ created_ents ts)
           (map (cgrp (cache s) (filter (is_cand v) ts)) (grps s)
            ++ map (fun p => mkG (fst p) (snd p) (reeval v (ents s ++ created_ents ts) (dead s) (snd p))) (newgrps ts))
           (dead s) (cache s ++ newgrps ts).
Proof.
  unfold create. intros v s ts s' H.
  destruct (_ || _) eqn:C; [discriminate|].
  injection H as <-. apply orb_false_elim in C as [C C4]. apply orb_false_elim in C as [C C3].
  apply orb_false_elim in C as [_ C2]. apply negb_false_iff in C2.
  split; [exact (nodupb_NoDup _ C2)|]. split; [|split; [|reflexivity]];
    intros x Hx; apply in_map_iff in Hx as [t [<- Ht]]; apply mem_nIn.
  - exact (existsb_false_all _ _ C3 t Ht).
  - exact (existsb_false_all _ _ C4 t Ht).
Qed.

Lemma cgrp_gid : forall c cands g, gid (cgrp c cands g) = gid g.
Proof. intros c cands g. unfold cgrp. destruct (lookup (gid g) c); reflexivity. Qed.
Lemma cgrp_gf : forall c cands g, gf (cgrp c cands g) = gf g.
Proof. intros c cands g. unfold cgrp. destruct (lookup (gid g) c); reflexivity. Qed.

Lemma create_wf : forall v s ts s', WF s -> create v s ts = Some s' -> WF s'.
Proof.
  intros v s ts s' [W1 W2 W3 W4 W5] H. apply create_some in H as [ND [Hfresh [Hc ->]]].
  assert (forall x, In x (map fst (ents s)) -> ~ In x (map tid ts)) as Hdis.
  { intros x Hx Hy. exact (Hfresh x Hy (live_ids_of s x Hx)). }
  pose proof (newgrps_NoDup ts ND) as NG.
  assert (NoDup (map fst (cache s ++ newgrps ts))) as NC.
  { rewrite map_app. apply NoDup_app_intro; [exact W4 | exact NG |].
    intros x Hx Hy. exact (Hc x (newgrps_fst_incl ts x Hy) Hx). }
  constructor; cbn [ents grps dead cache]; [| | |exact NC|].
  - rewrite map_app, created_fst. apply NoDup_app_intro; assumption.
  - rewrite map_app, !map_map. cbn [gid]. rewrite (map_ext _ gid (cgrp_gid _ _)).
    apply NoDup_app_intro; [exact W2 | exact NG |].
    intros x Hx Hy. apply (Hdis x); [|exact (newgrps_fst_incl ts x Hy)].
    apply in_map_iff in Hx as [g [<- Hg]]. exact (W3 g Hg).
  - intros g' Hg. rewrite map_app, created_fst. apply in_app_iff.
    apply in_app_iff in Hg as [Hg | Hg]; apply in_map_iff in Hg as [g [<- Hg]].
    + left. rewrite cgrp_gid. exact (W3 g Hg).
    + right. apply newgrps_fst_incl. exact (in_map fst _ g Hg).
  - intros g' Hg. apply lookup_In; [exact NC|]. apply in_app_iff.
    apply in_app_iff in Hg as [Hg | Hg]; apply in_map_iff in Hg as [g [<- Hg]].
    + left. rewrite cgrp_gid, cgrp_gf. exact (lookup_Some_In _ _ _ (W5 g Hg)).
    + right. destruct g. exact Hg.
Qed.

Lemma create_exact : forall v s ts s',
  WF s -> DynExact s -> create v s ts = Some s' -> known_step v s (OCreate ts) = false -> DynExact s'.
Proof.
  intros v s ts s' W D H HK. apply create_some in H as [ND [Hfresh [Hc ->]]].
  cbn [known_step] in HK. apply orb_false_iff in HK as [HK1 HK2].
  intros g' Hg x. cbn [ents grps] in *. apply in_app_iff in Hg as [Hg | Hg].
  - (* an existing group takes the created candidates that satisfy its cached filter *)
    apply in_map_iff in Hg as [g [<- Hg]]. unfold cgrp. rewrite (wf_cache s W g Hg). cbn [gdm gf].
    fold (matches (ents s ++ created_ents ts) (gf g) x).
    rewrite In_union_, matches_app, matches_created, <- (D g Hg x).
    (* member or matching created candidate <-> member or matching created entry *)
    split; (intros [Hm | Hc']; [left; exact Hm|]); apply in_map_iff in Hc' as [t [<- Ht]];
      rewrite !filter_In in Ht.
    + right. apply in_map, filter_In. split; apply Ht.
    + destruct Ht as [Ht Hh]. destruct (is_cand v t) eqn:IC.
      * right. apply in_map. rewrite !filter_In. repeat split; assumption.
      * left. apply (noncand_settled v s ts t g HK2 Ht IC Hg); [|exact Hh].
        intros Hy. exact (Hfresh _ Hy (live_ids_of s _ (wf_gin s W g Hg))).
  - (* a created group is populated by a search *)
    apply in_map_iff in Hg as [[i f] [<- Hg]]. exact (reeval_exact v s ts _ i f HK1 Hg x).
Qed.

Lemma modify_some : forall v s ts s', modify v s ts = Some s' ->
  NoDup (map tid ts) /\ (forall t, In t ts -> is_some (tfilt t) = is_grp s (tid t)) /\
  s' = mkS (map (upd_tv (tlof ts)) (ents s))
           (map (mgrp v (map (upd_tv (tlof ts)) (ents s)) (dead s) (tlof ts)
                      (map (upd_cache (tlof ts)) (cache s)) (pairs v (tlof ts) (ents s))) (grps s))
           (dead s) (map (upd_cache (tlof ts)) (cache s)).
Proof.
  unfold modify. intros v s ts s' H.
  destruct (_ || _) eqn:C; [discriminate|].
  injection H as <-. apply orb_false_elim in C as [C _]. apply orb_false_elim in C as [C C4].
  apply orb_false_elim in C as [C _]. apply orb_false_elim in C as [_ C2].
  apply negb_false_iff in C2, C4. rewrite forallb_forall in C4.
  split; [exact (nodupb_NoDup _ C2)|]. split; [|reflexivity].
  intros t Ht. apply eqb_prop. exact (C4 t Ht).
Qed.

Definition post_tv (tl : list (N * target)) (x : N) (t0 : tv) : tv :=
  match lookup x tl with Some t => ttv t | None => t0 end.
Definition newfilt (tl : list (N * target)) (x : N) : option filt :=
  match lookup x tl with Some t => tfilt t | None => None end.

Lemma upd_tv_eq : forall tl e, upd_tv tl e = (fst e, post_tv tl (fst e) (snd e)).
Proof. intros tl [x t0]. unfold upd_tv, post_tv. cbn [fst snd]. destruct (lookup x tl); reflexivity. Qed.
Lemma upd_tv_fst : forall tl es, map fst (map (upd_tv tl) es) = map fst es.
Proof. intros tl es. rewrite map_map. apply map_ext. intros e. rewrite upd_tv_eq. reflexivity. Qed.

Lemma upd_cache_eq : forall tl c,
  upd_cache tl c = (fst c, match newfilt tl (fst c) with Some f => f | None => snd c end).
Proof.
  intros tl [k cf]. unfold upd_cache, newfilt. cbn [fst snd].
  destruct (lookup k tl) as [t|]; [destruct (tfilt t)|]; reflexivity.
Qed.
Lemma upd_cache_fst : forall tl c, map fst (map (upd_cache tl) c) = map fst c.
Proof. intros tl c. rewrite map_map. apply map_ext. intros e. rewrite upd_cache_eq. reflexivity. Qed.
Lemma lookup_cache1 : forall tl c x,
  lookup x (map (upd_cache tl) c) =
  option_map (fun cf => match newfilt tl x with Some f => f | None => cf end) (lookup x c).
Proof.
  intros tl c x. induction c as [|[k b] r IH]; cbn [map lookup]; [reflexivity|].
  rewrite upd_cache_eq. cbn [lookup fst snd]. destruct (N.eqb_spec k x) as [->|_]; [reflexivity | exact IH].
Qed.
Lemma newfilt_newgrps : forall ts x f, newfilt (tlof ts) x = Some f -> In (x, f) (newgrps ts).
Proof.
  intros ts x f. unfold newfilt. destruct (lookup x (tlof ts)) as [t|] eqn:L; [|discriminate].
  intros TF. apply lookup_tl_Some in L as [Ht E]. apply newgrps_In. exists t. repeat split; assumption.
Qed.

Lemma newfilt_tlof : forall ts t, NoDup (map tid ts) -> In t ts -> newfilt (tlof ts) (tid t) = tfilt t.
Proof. intros ts t ND Ht. unfold newfilt. rewrite (lookup_tl_In ts t ND Ht). reflexivity. Qed.

Lemma In_selected : forall (a b : N * tv * tv -> bool) ps x,
  In x (map (fun p => fst (fst p)) (filter (fun p => a p && negb (b p)) ps)) <->
  exists p q, In (x, p, q) ps /\ a (x, p, q) = true /\ b (x, p, q) = false.
Proof.
  intros a b ps x. rewrite in_map_iff. split.
  - intros [[[y p] q] [<- H]]. apply filter_In in H as [H E]. apply andb_true_iff in E as [Ea Eb].
    apply negb_true_iff in Eb. exists p, q. repeat split; assumption.
  - intros [p [q [H [Ea Eb]]]]. exists (x, p, q). split; [reflexivity|].
    apply filter_In. split; [exact H|]. rewrite Ea, Eb. reflexivity.
Qed.
Lemma In_adds : forall cf ps x,
  In x (adds cf ps) <-> exists p q, In (x, p, q) ps /\ hit cf q = true /\ hit cf p = false.
Proof. intros cf ps x. exact (In_selected (fun p => hit cf (snd p)) (fun p => hit cf (snd (fst p))) ps x). Qed.
Lemma In_rems : forall cf ps x,
  In x (rems cf ps) <-> exists p q, In (x, p, q) ps /\ hit cf p = true /\ hit cf q = false.
Proof. intros cf ps x. exact (In_selected (fun p => hit cf (snd (fst p))) (fun p => hit cf (snd p)) ps x). Qed.

(* post_modify with target table tl on the entries es, seen from one filter f: the update
   (dm ∪ adds) \ rems of a member list dm against the entries after the operation *)
Section Incremental.
Variables (v : variant) (tl : list (N * target)) (es : list (N * tv)) (f : filt).

Lemma matches_upd : forall x,
  matches (map (upd_tv tl) es) f x <-> exists t0, In (x, t0) es /\ hit f (post_tv tl x t0) = true.
Proof.
  intros x. unfold matches. split.
  - intros [t' [H Hh]]. apply in_map_iff in H as [[y t0] [E H]]. rewrite upd_tv_eq in E. injection E as <- <-.
    exists t0. split; assumption.
  - intros [t0 [H Hh]]. exists (post_tv tl x t0). split; [|exact Hh].
    apply in_map_iff. exists (x, t0). split; [apply upd_tv_eq | exact H].
Qed.

Lemma In_pairs : forall x p q,
  In (x, p, q) (pairs v tl es) <->
  In (x, p) es /\ q = post_tv tl x p /\ exists t, lookup x tl = Some t /\ is_cand v t = true.
Proof.
  intros x p q. unfold pairs, post_tv. rewrite in_flat_map. split.
  - intros [[y p0] [He H]]. cbn [fst snd] in H. destruct (lookup y tl) as [t|] eqn:L; [|destruct H].
    destruct (is_cand v t) eqn:IC; [|destruct H]. destruct H as [H|[]]. injection H as -> -> <-.
    rewrite L. repeat split; [exact He|]. exists t. split; [reflexivity | exact IC].
  - intros [He [-> [t [L IC]]]]. exists (x, p). split; [exact He|]. cbn [fst snd]. rewrite L, IC. left. reflexivity.
Qed.

(* what is added matches afterwards, what is removed does not ... *)
Lemma adds_post : forall x, In x (adds f (pairs v tl es)) -> matches (map (upd_tv tl) es) f x.
Proof.
  intros x H. apply In_adds in H as [p [q [Hp [Hq _]]]]. apply In_pairs in Hp as [He [-> _]].
  apply matches_upd. exists p. split; assumption.
Qed.
Lemma rems_post : forall x, In x (rems f (pairs v tl es)) -> ~ matches (map (upd_tv tl) es) f x.
Proof.
  intros x H HM. apply In_rems in H as [p [q [Hp [_ Hq]]]]. apply matches_upd in HM as [t0 [_ Hh]].
  (* the new truth vector of a changed entry does not depend on the old one *)
  apply In_pairs in Hp as [_ [-> [t [L _]]]]. unfold post_tv in Hq, Hh. rewrite L in Hq, Hh. congruence.
Qed.
(* ... so the update is exact as soon as dm is right up to those two sets *)
Lemma incr_exact : forall dm,
  (forall y, In y dm -> matches (map (upd_tv tl) es) f y \/ In y (rems f (pairs v tl es))) ->
  (forall y, matches (map (upd_tv tl) es) f y -> In y dm \/ In y (adds f (pairs v tl es))) ->
  forall x, In x (diff_ (union_ dm (adds f (pairs v tl es))) (rems f (pairs v tl es)))
            <-> matches (map (upd_tv tl) es) f x.
Proof.
  intros dm Hsub Hsup x. rewrite In_diff_, In_union_. split.
  - intros [[Hd | Ha] Hr]; [|exact (adds_post x Ha)]. destruct (Hsub x Hd) as [HM | Hr']; [exact HM | contradiction].
  - intros HM. split; [exact (Hsup x HM) | intros Hr; exact (rems_post x Hr HM)].
Qed.

Lemma incr_exact_of_exact : forall dm,
  (forall y, In y dm <-> matches (map (upd_tv tl) es) f y) ->
  forall x, In x (diff_ (union_ dm (adds f (pairs v tl es))) (rems f (pairs v tl es)))
            <-> matches (map (upd_tv tl) es) f x.
Proof. intros dm RE. apply incr_exact; intros y Hy; left; apply RE; exact Hy. Qed.

Lemma incr_update_exact : forall dm,
  (forall y, In y dm <-> matches es f y) ->
  (forall y t, lookup y tl = Some t -> is_cand v t = false -> (hit f (ttv t) = true <-> In y dm)) ->
  forall x, In x (diff_ (union_ dm (adds f (pairs v tl es))) (rems f (pairs v tl es)))
            <-> matches (map (upd_tv tl) es) f x.
Proof.
  intros dm D Hset.
  (* every entry is unmodified, tested, or settled *)
  assert (forall y t0, In (y, t0) es ->
            post_tv tl y t0 = t0 \/ In (y, t0, post_tv tl y t0) (pairs v tl es)
            \/ (hit f (post_tv tl y t0) = true <-> In y dm)) as Hcase.
  { intros y t0 He. unfold post_tv at 1 3. destruct (lookup y tl) as [t|] eqn:L; [right | left; reflexivity].
    destruct (is_cand v t) eqn:IC.
    - left. apply In_pairs. repeat split; [exact He|]. exists t. split; assumption.
    - right. exact (Hset y t L IC). }
  apply incr_exact; intros y Hy.
  - (* a member that no longer matches was tested, hence is removed *)
    destruct (proj1 (D y) Hy) as [t0 [He Hh]].
    destruct (hit f (post_tv tl y t0)) eqn:Hq; [left; apply matches_upd; exists t0; split; assumption|].
    right. destruct (Hcase y t0 He) as [E | [Hp | K]].
    + congruence.
    + apply In_rems. exists t0, (post_tv tl y t0). repeat split; assumption.
    + apply K in Hy. congruence.
  - (* a match that was no member was tested, hence is added *)
    apply matches_upd in Hy as [t0 [He Hq]].
    destruct (hit f t0) eqn:Hh; [left; apply D; exists t0; split; assumption|].
    destruct (Hcase y t0 He) as [E | [Hp | K]].
    + congruence.
    + right. apply In_adds. exists t0, (post_tv tl y t0). repeat split; assumption.
    + left. apply K. exact Hq.
Qed.
End Incremental.

Lemma mgrp_gid : forall v e1 ds tl c1 ps g, gid (mgrp v e1 ds tl c1 ps g) = gid g.
Proof.
  intros. unfold mgrp. destruct (lookup (gid g) tl) as [t|]; [destruct (tfilt t)|]; destruct (lookup (gid g) c1); reflexivity.
Qed.

(* a group after post_modify: re-evaluated if the operation gives it a filter, then updated
   against its cached filter (which by then is the new one) if it has one *)
Lemma mgrp_shape : forall v e1 ds tl c ps g,
  mgrp v e1 ds tl (map (upd_cache tl) c) ps g =
  match newfilt tl (gid g), lookup (gid g) c with
  | Some f, Some _ => mkG (gid g) f (diff_ (union_ (reeval v e1 ds f) (adds f ps)) (rems f ps))
  | Some f, None => mkG (gid g) f (reeval v e1 ds f)
  | None, Some cf => mkG (gid g) (gf g) (diff_ (union_ (gdm g) (adds cf ps)) (rems cf ps))
  | None, None => g
  end.
Proof.
  intros v e1 ds tl c ps g. unfold mgrp. rewrite lookup_cache1. unfold newfilt.
  destruct (lookup (gid g) tl) as [t|]; [destruct (tfilt t)|]; destruct (lookup (gid g) c); reflexivity.
Qed.

Lemma modify_wf : forall v s ts s', WF s -> modify v s ts = Some s' -> WF s'.
Proof.
  intros v s ts s' [W1 W2 W3 W4 W5] H. apply modify_some in H as [_ [_ ->]].
  constructor; cbn [ents grps dead cache].
  - rewrite upd_tv_fst. exact W1.
  - rewrite map_map, (map_ext _ gid (mgrp_gid _ _ _ _ _ _)). exact W2.
  - intros g' Hg. apply in_map_iff in Hg as [g [<- Hg]]. rewrite mgrp_gid, upd_tv_fst. exact (W3 g Hg).
  - rewrite upd_cache_fst. exact W4.
  - intros g' Hg. apply in_map_iff in Hg as [g [<- Hg]].
    rewrite mgrp_gid, lookup_cache1, mgrp_shape, (W5 g Hg).
    destruct (newfilt (tlof ts) (gid g)); reflexivity.
Qed.

Lemma modify_exact : forall v s ts s',
  WF s -> DynExact s -> modify v s ts = Some s' -> known_step v s (OModify ts) = false -> DynExact s'.
Proof.
  intros v s ts s' W D H HK. apply modify_some in H as [ND [Hkind ->]].
  cbn [known_step] in HK. apply orb_false_iff in HK as [HK1 HK2].
  intros g' Hg x. cbn [ents grps] in *. apply in_map_iff in Hg as [g [<- Hg]].
  rewrite mgrp_shape, (wf_cache s W g Hg).
  destruct (newfilt (tlof ts) (gid g)) as [f|] eqn:NF; cbn [gdm gf].
  - (* the group itself was modified: full re-evaluation with its (new) filter *)
    apply incr_exact_of_exact. exact (reeval_exact v s ts _ _ f HK1 (newfilt_newgrps ts _ f NF)).
  - (* the group was not modified (a modified group keeps its kind, so has a new filter):
       incremental update against its cached filter *)
    assert (~ In (gid g) (map tid ts)) as Hn.
    { intros Hy. apply in_map_iff in Hy as [t [E Ht]]. pose proof (Hkind t Ht) as K.
      rewrite <- E, (newfilt_tlof ts t ND Ht) in NF. rewrite NF, E in K.
      assert (is_grp s (gid g) = true) as G by (apply is_grp_iff; exists g; split; [exact Hg | reflexivity]).
      rewrite G in K. discriminate K. }
    apply incr_update_exact; [exact (D g Hg)|]. intros y t L IC. apply lookup_tl_Some in L as [Ht <-].
    exact (noncand_settled v s ts t g HK2 Ht IC Hg Hn).
Qed.

(* Whatever the state was (a tampered or stale dynmember, a cache that holds another filter for
   the group), an operation that modifies a dynamic group leaves it with exactly the live entries
   that satisfy its (new) filter, unless a recycled entry satisfies that filter in the tree before
   the fix (class K1). *)
Lemma modify_reeval_exact : forall v s ts s' t f,
  modify v s ts = Some s' -> In t ts -> tfilt t = Some f ->
  negb (live_only v) && k1 s ts = false ->
  exists g', In g' (grps s') /\ gid g' = tid t /\ gf g' = f /\
    forall x, In x (gdm g') <-> exists u, In (x, u) (ents s') /\ hit f u = true.
Proof.
  intros v s ts s' t f H Ht TF HK1. apply modify_some in H as [ND [Hkind ->]].
  pose proof (Hkind t Ht) as G. rewrite TF in G. symmetry in G. apply is_grp_iff in G as [g [Hg Eg]].
  assert (newfilt (tlof ts) (gid g) = Some f) as NF by (rewrite Eg, (newfilt_tlof ts t ND Ht); exact TF).
  pose proof (reeval_exact v s ts (map (upd_tv (tlof ts)) (ents s)) _ f HK1 (newfilt_newgrps ts _ f NF)) as RE.
  eexists. split; [cbn [grps]; apply in_map; exact Hg|]. rewrite mgrp_shape, NF.
  destruct (lookup (gid g) (cache s)); cbn [gid gf gdm ents]; (split; [exact Eg|]); (split; [reflexivity|]).
  - apply incr_exact_of_exact. exact RE.
  - exact RE.
Qed.

Theorem step_wf : forall v s o s', WF s -> step v s o = Some s' -> WF s'.
Proof.
  intros v s o s' W H. destruct o as [ts | ts | ids]; cbn [step] in H.
  - exact (create_wf v s ts s' W H).
  - exact (modify_wf v s ts s' W H).
  - exact (delete_wf s ids s' W H).
Qed.

Theorem step_inv : forall v s o s',
  Inv s -> step v s o = Some s' -> known_step v s o = false -> Inv s'.
Proof.
  intros v s o s' [W D] H HK. split; [exact (step_wf v s o s' W H)|].
  destruct o as [ts | ts | ids]; cbn [step] in H.
  - exact (create_exact v s ts s' W D H HK).
  - exact (modify_exact v s ts s' W D H HK).
  - exact (delete_exact s ids s' D H).
Qed.

Theorem run_wf : forall v ops s, WF s -> WF (run v s ops).
Proof.
  intros v ops. induction ops as [|o r IH]; intros s W; cbn [run]; [exact W|].
  apply IH. destruct (step v s o) as [s'|] eqn:E; [exact (step_wf v s o s' W E) | exact W].
Qed.

Theorem run_inv : forall v ops s, Inv s -> run_known v s ops = false -> Inv (run v s ops).
Proof.
  intros v ops. induction ops as [|o r IH]; intros s I HK; cbn [run]; [exact I|].
  cbn [run_known] in HK. destruct (step v s o) as [s'|] eqn:E.
  - apply orb_false_iff in HK as [HK1 HK2]. apply IH; [exact (step_inv v s o s' I E HK1) | exact HK2].
  - apply IH; assumption.
Qed.

Lemma fixed_step_unknown : forall s o, known_step fixedv s o = false.
Proof. intros s o. destruct o; reflexivity. Qed.
Lemma fixed_never_known : forall s ops, run_known fixedv s ops = false.
Proof.
  intros s ops. revert s. induction ops as [|o r IH]; intros s; cbn [run_known]; [reflexivity|].
  destruct (step fixedv s o) as [s'|]; [|apply IH]. rewrite IH, fixed_step_unknown. reflexivity.
Qed.

Lemma leaf_eqb_eq : forall x y, leaf_eqb x y = true -> x = y.
Proof.
  intros [[a b] c] [[d e] f] H. cbn [leaf_eqb] in H.
  apply andb_true_iff in H as [H Hc]. apply andb_true_iff in H as [Ha Hb].
  apply N.eqb_eq in Ha, Hb, Hc. subst. reflexivity.
Qed.
Lemma tv_eqb_eq : forall a b, tv_eqb a b = true -> a = b.
Proof.
  induction a as [|x a IH]; intros [|y b] H; cbn [tv_eqb] in H; try discriminate H; [reflexivity|].
  apply andb_true_iff in H as [H1 H2]. rewrite (leaf_eqb_eq x y H1), (IH b H2). reflexivity.
Qed.
Lemma ent_in_In : forall e l, ent_in e l = true -> In e l.
Proof.
  intros [x t] l H. apply existsb_exists in H as [[y u] [Hd E]]. cbn [fst snd] in E.
  apply andb_true_iff in E as [E1 E2]. apply N.eqb_eq in E1. apply tv_eqb_eq in E2. subst. exact Hd.
Qed.
Lemma ents_eqb_In : forall a b, ents_eqb a b = true -> forall e, In e a <-> In e b.
Proof.
  intros a b H e. apply andb_true_iff in H as [H1 H2].
  rewrite forallb_forall in H1, H2. split; intros He; apply ent_in_In; [apply H1 | apply H2]; exact He.
Qed.

Lemma filt_eqb_sound : forall sm x y, filt_eqb x y = true -> ematch sm x = ematch sm y.
Proof.
  intros sm. induction x as [k a v s | l s IH | l s IH | a | l s IH | g s IH] using filt_ind';
    intros y H; destruct y as [k2 a2 v2 s2 | l2 s2 | l2 s2 | a2 | l2 s2 | g2 s2];
    try discriminate H; cbn [filt_eqb] in H; cbn [ematch]; [| | |reflexivity|reflexivity|].
  (* FOr, FAnd: the lists agree element by element *)
  2,3: revert l2 H; induction IH as [|x l Hx _ IHl]; intros [|b q] H; try discriminate H; [reflexivity|];
       apply andb_true_iff in H as [H1 H2]; cbn [existsb forallb]; rewrite (Hx b H1), (IHl q H2); reflexivity.
  - apply andb_true_iff in H as [H Hv]. apply andb_true_iff in H as [Hk Ha].
    apply N.eqb_eq in Ha, Hv. subst. destruct k, k2; try discriminate Hk; reflexivity.
  - rewrite (IH g2 H). reflexivity.
Qed.

Lemma st_eqb_exact : forall s ob, DynExact s -> st_eqb s ob = true -> obs_exact ob = true.
Proof.
  intros s ob D H. unfold st_eqb in H. apply andb_true_iff in H as [H _]. apply andb_true_iff in H as [HE HG].
  unfold grps_eqb in HG. apply andb_true_iff in HG as [_ HG].
  apply forallb_forall. intros og Hog. apply exact_grp_iff. intros x.
  rewrite forallb_forall in HG. destruct (proj1 (existsb_exists _ _) (HG og Hog)) as [g [Hg E]].
  apply andb_true_iff in E as [E EM]. apply andb_true_iff in E as [_ EF].
  rewrite <- (proj1 (set_eqb_iff _ _) EM x), (D g Hg x).
  (* the same entries, and filters that are true on the same truth vectors *)
  assert (forall t, hit (gf g) t = hit (gf og) t) as HF by (intros t; exact (filt_eqb_sound (sem t) _ _ EF)).
  split; intros [t [H1 H2]]; exists t.
  - split; [apply (ents_eqb_In _ _ HE); exact H1 | rewrite <- HF; exact H2].
  - split; [apply (ents_eqb_In _ _ HE); exact H1 | rewrite HF; exact H2].
Qed.

(* st_of caches every dumped group with its filter, so the cache part of WF comes from the group part *)
Lemma wfb_st_of : forall o, wfb (st_of o) = true -> WF (st_of o).
Proof.
  intros o H. unfold wfb in H.
  do 3 apply andb_true_iff, proj1 in H. apply andb_true_iff in H as [H H3]. apply andb_true_iff in H as [H1 H2].
  apply nodupb_NoDup in H1, H2. rewrite forallb_forall in H3.
  assert (map fst (cache (st_of o)) = map gid (grps (st_of o))) as EC by (cbn [st_of cache grps]; apply map_map).
  constructor.
  - exact (NoDup_app_l _ _ H1).
  - exact H2.
  - intros g Hg. apply mem_In. exact (H3 g Hg).
  - rewrite EC. exact H2.
  - intros g Hg. apply lookup_In; [rewrite EC; exact H2|].
    exact (in_map (fun g => (gid g, gf g)) _ g Hg).
Qed.

Lemma replay_sound : forall v steps s,
  Inv s -> replay v s steps = true -> run_known v s (map fst steps) = false ->
  forallb (fun p => obs_exact (snd p)) steps = true.
Proof.
  intros v. induction steps as [|[o ob] r IH]; intros s I HR HK; [reflexivity|].
  cbn [replay] in HR. cbn [map fst run_known] in HK. cbn [forallb snd].
  destruct (step v s o) as [s'|] eqn:E; apply andb_true_iff in HR as [HR HR3]; apply andb_true_iff in HR as [_ HR2].
  - apply orb_false_iff in HK as [HK1 HK2]. pose proof (step_inv v s o s' I E HK1) as I'.
    rewrite (st_eqb_exact s' ob (proj2 I') HR2). exact (IH s' I' HR3 HK2).
  - rewrite (st_eqb_exact s ob (proj2 I) HR2). exact (IH s I HR3 HK).
Qed.

Theorem agree_pcheck : forall init steps,
  agree (CHist init steps) = true -> obs_exact init = true -> pcheck (CHist init steps) = true.
Proof.
  intros init steps HA HI. cbn [agree] in HA. cbn [pcheck].
  apply andb_true_iff in HA as [HW HR]. rewrite HI. cbn [andb].
  apply (replay_sound tree steps (st_of init)); [|exact HR|apply fixed_never_known].
  split; [apply wfb_st_of; exact HW|]. apply exactb_iff. exact HI.
Qed.

Theorem pcheck_sound : forall init steps,
  pcheck (CHist init steps) = true ->
  DynExact (st_of init) /\ forall o ob, In (o, ob) steps -> DynExact (st_of ob).
Proof.
  intros init steps H. cbn [pcheck] in H. apply andb_true_iff in H as [H1 H2]. split.
  - apply exactb_iff. exact H1.
  - intros o ob Hin. apply exactb_iff. rewrite forallb_forall in H2. exact (H2 (o, ob) Hin).
Qed.

Definition w_red : leaf := (0, 2, 1).                         (* description = red *)
Definition w_fred : filt := FLeaf KEq 2 1 None.
Definition w_s0 : st := mkS [] [] [] [].
(* K1: group 100 (description=red); candidate 1 (red); delete 1; touch group 100 *)
Definition w_ops_k1 : list op :=
  [OCreate [mkT 100 [] (Some w_fred)]; OCreate [mkT 1 [w_red] None]; ODelete [1]; OModify [mkT 100 [] (Some w_fred)]].
(* K2: group 100 (description=red); then a second dynamic group 101 whose own description is red *)
Definition w_ops_k2 : list op :=
  [OCreate [mkT 100 [] (Some w_fred)]; OCreate [mkT 101 [w_red] (Some w_fred)]].

Lemma inv_s0 : Inv w_s0.
Proof.
  split; [constructor; cbn; try constructor; intros g []| intros g []].
Qed.

(* the refuted statement is C18_full_statement v of Props.v *)
Lemma refuted_by : forall v ops,
  exactb (run v w_s0 ops) = false -> ~ (forall s ops, Inv s -> DynExact (run v s ops)).
Proof.
  intros v ops E H. specialize (H w_s0 ops inv_s0). apply exactb_iff in H. rewrite E in H. discriminate H.
Qed.
