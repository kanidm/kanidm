(* A committed transaction maps one function over the entries ([committed]); for delete and revive
   that function is written out as a record ([delF], [revF]) and shown once to be what the model
   computes.  The time and finality theorems go through the moves one entry can make ([lifecycle]),
   the membership theorems through the invariant [sinv], the bridge through both. *)
From Coq Require Import List NArith Bool Lia.
Import ListNotations.
Require Import KV.C26.Model.
Open Scope N_scope.
Arguments N.add : simpl never.
Arguments N.sub : simpl never.
Arguments N.ltb : simpl never.
Arguments N.leb : simpl never.
Arguments N.eqb : simpl never.

Lemma memN_In x l : memN x l = true <-> In x l.
Proof.
  unfold memN. rewrite existsb_exists. split.
  - intros (y & Hy & He). apply N.eqb_eq in He. subst. exact Hy.
  - intros Hi. exists x. split; [exact Hi | apply N.eqb_refl].
Qed.

Lemma memN_false x l : memN x l = false <-> ~ In x l.
Proof. rewrite <- memN_In. symmetry. apply not_true_iff_false. Qed.

Lemma rm_In ds l y : In y (rm ds l) <-> In y l /\ ~ In y ds.
Proof.
  unfold rm. rewrite filter_In, negb_true_iff, memN_false. tauto.
Qed.

Lemma Forall2_map_r {A} (P : A -> A -> Prop) (F : A -> A) l :
  (forall e, In e l -> P e (F e)) -> Forall2 P l (map F l).
Proof.
  induction l as [|a l IH]; intros H; cbn; constructor.
  - apply H. left. reflexivity.
  - apply IH. intros e He. apply H. right. exact He.
Qed.

Lemma nodupb_NoDup l : nodupb l = true -> NoDup l.
Proof.
  induction l as [|x l IH]; cbn; intros H; constructor.
  - apply andb_true_iff in H. destruct H as [H _]. apply negb_true_iff, memN_false in H. exact H.
  - apply IH. apply andb_true_iff in H. tauto.
Qed.

Lemma nodup_unique (es : list ent) e1 e2 :
  NoDup (map eid es) -> In e1 es -> In e2 es -> eid e1 = eid e2 -> e1 = e2.
Proof.
  induction es as [|a es IH]; cbn; intros Hnd H1 H2 He; [contradiction|].
  inversion Hnd as [|? ? Hni Hnd']; subst.
  destruct H1 as [H1|H1], H2 as [H2|H2]; subst.
  - reflexivity.
  - exfalso. apply Hni. rewrite He. apply in_map. exact H2.
  - exfalso. apply Hni. rewrite <- He. apply in_map. exact H1.
  - apply IH; assumption.
Qed.

Lemma is_live_eq s : is_live s = true <-> s = Live.
Proof. destruct s; cbn; split; intros; try discriminate; reflexivity. Qed.
Lemma is_rec_eq s : is_rec s = true <-> s = Rec.
Proof. destruct s; cbn; split; intros; try discriminate; reflexivity. Qed.
Lemma opt_is_eq o x : opt_is o x = true <-> o = Some x.
Proof. destruct o as [y|]; cbn; [rewrite N.eqb_eq|]; split; congruence. Qed.

Lemma id_st_iff (p : status -> bool) st es g : (forall s, p s = true <-> s = st) ->
  existsb (fun e => (eid e =? g) && p (est e)) es = true <-> exists e, In e es /\ eid e = g /\ est e = st.
Proof.
  intros Hp. rewrite existsb_exists.
  split; intros (e & Hin & H); exists e; rewrite andb_true_iff, N.eqb_eq, Hp in *; tauto.
Qed.
Lemma live_id_iff es g : live_id es g = true <-> exists e, In e es /\ eid e = g /\ est e = Live.
Proof. apply id_st_iff, is_live_eq. Qed.
Lemma rec_id_iff es g : rec_id es g = true <-> exists e, In e es /\ eid e = g /\ est e = Rec.
Proof. apply id_st_iff, is_rec_eq. Qed.

Lemma in_dels_iff x e : in_dels x e = true <-> est e = Live /\ (eid e = x \/ erefers e = Some x).
Proof. unfold in_dels. rewrite andb_true_iff, orb_true_iff, is_live_eq, N.eqb_eq, opt_is_eq. reflexivity. Qed.
Lemma in_revs_iff x e : in_revs x e = true <-> est e = Rec /\ (eid e = x \/ ecasc e = Some x).
Proof. unfold in_revs. rewrite andb_true_iff, orb_true_iff, is_rec_eq, N.eqb_eq, opt_is_eq. reflexivity. Qed.

Lemma lists_iff g y : lists g y = true <-> est g = Live /\ ekind g = 1 /\ In y (emember g).
Proof.
  unfold lists. rewrite !andb_true_iff, is_live_eq, N.eqb_eq, memN_In. tauto.
Qed.

Lemma dmo_In es y g : In g es -> lists g y = true -> In (eid g) (dmo es y).
Proof. intros Hin Hl. unfold dmo. apply in_map. apply filter_In. tauto. Qed.

Lemma existsb_false_rm ds l : existsb (fun y => memN y ds) l = false -> rm ds l = l.
Proof.
  induction l as [|y l IH]; cbn; intros H; [reflexivity|].
  apply orb_false_iff in H. destruct H as [H1 H2]. rewrite H1. cbn. f_equal. apply IH. exact H2.
Qed.

(* whichever branch [strip] takes, every reference attribute loses exactly the deleted ids *)
Lemma strip_eq ds t e :
  strip ds t e =
  mkent (eid e) (ekind e) (est e) (if touches ds e then t else elm e) (erec e)
        (rm ds (emember e)) (rm ds (erdmo e))
        (match erefers e with Some y => if memN y ds then None else Some y | None => None end) (ecasc e)
        (rm ds (edmo e)).
Proof.
  unfold strip. destruct (touches ds e) eqn:T; [reflexivity|]. unfold touches in T.
  apply orb_false_iff in T. destruct T as [T Tr]. apply orb_false_iff in T. destruct T as [Tm Td].
  rewrite (existsb_false_rm _ _ Tm), (existsb_false_rm _ _ Td).
  revert Tr. destruct (erefers e); [intros ->|]; reflexivity.
Qed.

Lemma recompute_eq es aff e :
  recompute es aff e = set_dmo (if is_live (est e) && memN (eid e) aff then dmo es (eid e) else edmo e) e.
Proof. unfold recompute. destruct (_ && _); [reflexivity | destruct e; reflexivity]. Qed.

Lemma add_members_eq es x t e :
  add_members es x t e =
  if is_live (est e)
  then mkent (eid e) (ekind e) (est e) (match adds es x (eid e) with [] => elm e | _ => t end) (erec e)
             (fold_right ins (emember e) (adds es x (eid e))) (erdmo e) (erefers e) (ecasc e) (edmo e)
  else e.
Proof.
  unfold add_members. destruct (is_live (est e)); [|reflexivity].
  destruct (adds es x (eid e)); [destruct e|]; reflexivity.
Qed.

Lemma ins_In y x l : In y (ins x l) <-> y = x \/ In y l.
Proof.
  induction l as [|z l IH]; cbn; [intuition congruence|].
  destruct (x <? z); cbn; [intuition congruence|].
  destruct (N.eqb_spec x z) as [->|Hne]; cbn; [|rewrite IH]; intuition congruence.
Qed.

Lemma fold_ins_In y m l : In y (fold_right ins m l) <-> In y l \/ In y m.
Proof.
  induction l as [|z l IH]; cbn [fold_right]; [cbn; tauto|].
  rewrite ins_In, IH. cbn. intuition congruence.
Qed.

Lemma emember_add_mono es x t e0 y :
  In y (emember e0) -> In y (emember (add_members es x t e0)).
Proof.
  rewrite add_members_eq. destruct (is_live (est e0)); [|tauto].
  intros H. apply fold_ins_In. right. exact H.
Qed.

Lemma dmo_recompute es' aff es y : dmo (map (recompute es' aff) es) y = dmo es y.
Proof.
  unfold dmo. induction es as [|g es IH]; cbn [map filter]; [reflexivity|].
  rewrite (recompute_eq es' aff g). change (lists (set_dmo _ g) y) with (lists g y).
  destruct (lists g y); cbn [map]; rewrite IH; reflexivity.
Qed.

(* [dmo_consb] as a proposition *)
Definition dcons (es : list ent) : Prop :=
  forall e g, In e es -> In g es -> est e = Live -> lists g (eid e) = true -> In (eid g) (edmo e).

Lemma dmo_consb_dcons es : dmo_consb es = true <-> dcons es.
Proof.
  unfold dmo_consb, dcons. rewrite forallb_forall. split.
  - intros H e g He Hg Hs Hl. specialize (H e He). rewrite Hs in H. cbn [is_live implb] in H.
    rewrite forallb_forall in H. specialize (H g Hg). rewrite Hl in H. cbn [implb] in H.
    apply memN_In. exact H.
  - intros H e He. destruct (est e) eqn:Es; cbn [is_live implb]; try reflexivity.
    apply forallb_forall. intros g Hg. destruct (lists g (eid e)) eqn:Hl; cbn [implb]; [|reflexivity].
    apply memN_In. apply H; assumption.
Qed.

Lemma dcons_map (F : ent -> ent) es :
  (forall e g, In e es -> In g es -> est (F e) = Live -> lists (F g) (eid (F e)) = true ->
     In (eid (F g)) (edmo (F e))) ->
  dcons (map F es).
Proof.
  intros H e' g' He' Hg'. apply in_map_iff in He'. destruct He' as (e & <- & He).
  apply in_map_iff in Hg'. destruct Hg' as (g & <- & Hg). apply H; assumption.
Qed.

Section Delete.
Variables (es : list ent) (x t : N).

Definition dels : list N := map eid (filter (in_dels x) es).
Definition del_aff : list N := flat_map emember (filter (fun g => in_dels x g && (ekind g =? 1)) es).

Definition delF (e : ent) : ent :=
  let d := in_dels x e in
  mkent (eid e) (ekind e) (if d then Rec else est e)
        (if d || touches dels e then t else elm e)
        (if d then t else erec e)
        (rm dels (emember e))
        (rm dels (if d then edmo e else erdmo e))
        (match erefers e with Some y => if memN y dels then None else Some y | None => None end)
        (if d && opt_is (erefers e) x then Some x else ecasc e)
        (if negb d && is_live (est e) && memN (eid e) del_aff
         then dmo (map (del_upd es x t dels) es) (eid e)
         else if d then [] else rm dels (edmo e)).

Lemma del_upd_delF e :
  recompute (map (del_upd es x t dels) es) del_aff (del_upd es x t dels e) = delF e.
Proof.
  unfold del_upd, delF. rewrite recompute_eq, strip_eq.
  destruct (in_dels x e); cbn; destruct (touches _ _); reflexivity.
Qed.

Lemma delF_map :
  let es1 := map (del_upd es x t dels) es in
  map (recompute es1 del_aff) es1 = map delF es.
Proof.
  intros es1. unfold es1 at 2. rewrite map_map. apply map_ext. intros e. apply del_upd_delF.
Qed.

Lemma do_delete_eq es' :
  do_delete es x t = Some es' -> live_id es x = true /\ es' = map delF es.
Proof.
  unfold do_delete. destruct (live_id es x); [|discriminate].
  intros H. inversion H. split; [reflexivity | apply delF_map].
Qed.

Lemma delF_eid e : eid (delF e) = eid e.
Proof. reflexivity. Qed.
Lemma delF_ekind e : ekind (delF e) = ekind e.
Proof. reflexivity. Qed.
Lemma delF_est e : est (delF e) = if in_dels x e then Rec else est e.
Proof. reflexivity. Qed.
Lemma delF_emember e : emember (delF e) = rm dels (emember e).
Proof. reflexivity. Qed.
Lemma delF_erdmo e : erdmo (delF e) = rm dels (if in_dels x e then edmo e else erdmo e).
Proof. reflexivity. Qed.
Lemma delF_ecasc e :
  ecasc (delF e) = if in_dels x e && opt_is (erefers e) x then Some x else ecasc e.
Proof. reflexivity. Qed.

Lemma delF_edmo e : in_dels x e = false ->
  edmo (delF e) = dmo (map delF es) (eid e) \/ edmo (delF e) = rm dels (edmo e).
Proof.
  intros Hd. pose proof delF_map as Hm. cbn zeta in Hm. rewrite <- Hm, dmo_recompute.
  unfold delF. cbn [edmo]. rewrite Hd. cbn [negb andb]. destruct (_ && _); [left | right]; reflexivity.
Qed.

Lemma delF_target : live_id es x = true -> rec_id (map delF es) x = true.
Proof.
  rewrite live_id_iff, rec_id_iff. intros (e & Hin & He & Hs). exists (delF e).
  split; [apply in_map; exact Hin|]. split; [exact He|].
  rewrite delF_est. replace (in_dels x e) with true; [reflexivity|]. symmetry. apply in_dels_iff. tauto.
Qed.

Lemma delF_recycled e : is_live (est e) && is_rec (est (delF e)) = true -> in_dels x e = true.
Proof.
  rewrite delF_est. destruct (in_dels x e); [reflexivity|]. destruct (est e); cbn; discriminate.
Qed.

Hypothesis Hnd : NoDup (map eid es).

Lemma dels_spec e : In e es -> (In (eid e) dels <-> in_dels x e = true).
Proof.
  intros Hin. unfold dels. rewrite in_map_iff. split.
  - intros (e0 & He & Hf). apply filter_In in Hf. destruct Hf as [Hin0 Hd].
    rewrite <- (nodup_unique es e0 e Hnd Hin0 Hin He). exact Hd.
  - intros Hd. exists e. split; [reflexivity|]. apply filter_In. tauto.
Qed.

Lemma dels_not_live g : In g dels -> live_id (map delF es) g = false.
Proof.
  intros Hg. apply not_true_iff_false. intros Hl. apply live_id_iff in Hl.
  destruct Hl as (e' & Hin' & <- & Hs). apply in_map_iff in Hin'. destruct Hin' as (e & <- & Hin).
  rewrite delF_eid in Hg. apply (dels_spec e Hin) in Hg. rewrite delF_est, Hg in Hs. discriminate.
Qed.

Lemma delF_hidden : live_id es x = true -> live_id (map delF es) x = false.
Proof.
  intros Hl. apply live_id_iff in Hl. destruct Hl as (e & Hin & He & Hs).
  apply dels_not_live. rewrite <- He. apply (dels_spec e Hin). apply in_dels_iff. tauto.
Qed.

(* a live entry the delete recycles keeps, as its stash, every stored DirectMemberOf group that is
   not recycled with it *)
Lemma stash_kept e g :
  in_dels x e = true -> In g (edmo e) ->
  memN g (erdmo (delF e)) || negb (live_id (map delF es) g) = true.
Proof.
  intros Hd Hg. rewrite delF_erdmo, Hd. destruct (memN g dels) eqn:Em.
  - apply memN_In in Em. rewrite (dels_not_live g Em). apply orb_true_r.
  - apply memN_false in Em. apply orb_true_iff. left. apply memN_In, rm_In. tauto.
Qed.

Hypothesis Hc : dcons es.

Lemma dcons_delete : dcons (map delF es).
Proof.
  apply dcons_map. intros e g He Hg Hs Hl.
  pose proof Hl as Hl'. apply lists_iff in Hl'. destruct Hl' as (Hgs & Hgk & Hgm).
  (* neither is recycled by this delete, and g still lists e *)
  rewrite delF_est in Hs, Hgs. rewrite delF_ekind in Hgk. rewrite delF_emember, delF_eid in Hgm.
  apply rm_In in Hgm.
  destruct (in_dels x e) eqn:Hde; [discriminate|]. destruct (in_dels x g) eqn:Hdg; [discriminate|].
  destruct (delF_edmo e Hde) as [-> | ->].
  - apply (dmo_In _ _ (delF g)); [apply in_map; exact Hg | exact Hl].
  - apply rm_In. split.
    + apply (Hc e g); try assumption. apply lists_iff. tauto.
    + rewrite (dels_spec g Hg), Hdg. discriminate.
Qed.

Lemma stash_walk_map l : incl l es -> stash_walk es (map delF es) l (map delF l) = true.
Proof.
  induction l as [|e l IH]; intros Hi; cbn [stash_walk map]; [reflexivity|].
  apply andb_true_iff. split; [|apply IH; intros y Hy; apply Hi; right; exact Hy].
  destruct (_ && _) eqn:E; [|reflexivity]. cbn [implb].
  apply forallb_forall. intros g Hg. destruct (lists g (eid e)) eqn:Eg; [|reflexivity].
  apply stash_kept; [exact (delF_recycled e E)|].
  apply andb_true_iff in E. apply (Hc e g); try assumption; [apply Hi; left; reflexivity | apply is_live_eq; tauto].
Qed.
End Delete.

Section Revive.
Variables (es : list ent) (x t : N).

Definition rev_aff : list N :=
  map eid (filter (in_revs x) es)
  ++ (if existsb (fun e => in_revs x e && (ekind e =? 0)) es
      then map eid (filter (fun e => ekind e =? 0) es) else [])
  ++ flat_map emember (filter (fun e => in_revs x e && (ekind e =? 1)) es).

Definition revF (e : ent) : ent :=
  let r := in_revs x e in
  let lv := r || is_live (est e) in
  mkent (eid e) (ekind e) (if r then Live else est e)
        (if r then t
         else if is_live (est e) then match adds es x (eid e) with [] => elm e | _ => t end else elm e)
        (erec e)
        (if lv then fold_right ins (emember e) (adds es x (eid e)) else emember e)
        (if r then [] else erdmo e) (if r then refers' e else erefers e) (if r then None else ecasc e)
        (if lv && memN (eid e) rev_aff
         then dmo (map (add_members es x t) (map (rev1 x t) es)) (eid e)
         else edmo e).

Lemma rev1_revF e :
  recompute (map (add_members es x t) (map (rev1 x t) es)) rev_aff (add_members es x t (rev1 x t e))
  = revF e.
Proof.
  rewrite recompute_eq, add_members_eq. unfold rev1, revF. destruct (in_revs x e); cbn.
  - destruct (adds es x (eid e)); reflexivity.
  - destruct (is_live (est e)) eqn:El; cbn; rewrite ?El; [|destruct e]; reflexivity.
Qed.

Lemma revF_map :
  let es2 := map (add_members es x t) (map (rev1 x t) es) in
  map (recompute es2 rev_aff) es2 = map revF es.
Proof.
  intros es2. unfold es2 at 2. rewrite !map_map. apply map_ext. intros e. apply rev1_revF.
Qed.

Lemma revF_eid e : eid (revF e) = eid e.
Proof. reflexivity. Qed.
Lemma revF_ekind e : ekind (revF e) = ekind e.
Proof. reflexivity. Qed.
Lemma revF_est e : est (revF e) = if in_revs x e then Live else est e.
Proof. reflexivity. Qed.
Lemma revF_erefers e : erefers (revF e) = if in_revs x e then refers' e else erefers e.
Proof. reflexivity. Qed.

Lemma revF_emember e y :
  In y (emember (revF e)) <-> In y (emember e) \/ est (revF e) = Live /\ In y (adds es x (eid e)).
Proof.
  unfold revF. cbn [emember est]. destruct (in_revs x e); cbn [orb].
  - rewrite fold_ins_In. tauto.
  - destruct (est e); cbn [is_live]; rewrite ?fold_ins_In; intuition discriminate.
Qed.

Lemma revF_edmo e :
  edmo (revF e) = dmo (map revF es) (eid e)
  \/ (est (revF e) = Live -> ~ In (eid e) rev_aff) /\ edmo (revF e) = edmo e.
Proof.
  pose proof revF_map as Hm. cbn zeta in Hm. rewrite <- Hm, dmo_recompute.
  unfold revF. cbn [edmo est]. destruct (memN (eid e) rev_aff) eqn:Ea.
  - destruct (in_revs x e || is_live (est e)) eqn:El; cbn [andb].
    + left. reflexivity.
    + right. split; [|reflexivity]. apply orb_false_iff in El. destruct El as [-> El].
      intros Hl. apply is_live_eq in Hl. congruence.
  - right. rewrite andb_false_r. split; [|reflexivity]. intros _. apply memN_false. exact Ea.
Qed.

Lemma live_rev1_revF g l : live_id (map (rev1 x t) l) g = live_id (map revF l) g.
Proof.
  unfold live_id. induction l as [|a l IH]; cbn [map existsb]; [reflexivity|].
  rewrite IH, revF_eid, revF_est. unfold rev1. destruct (in_revs x a); reflexivity.
Qed.

Lemma do_revive_spec :
  match do_revive es x t with
  | inr c => c <> 0
  | inl es' =>
      rec_id es x = true
      /\ (forall e g, In e es -> in_revs x e = true -> In g (erdmo e) -> live_id (map revF es) g = true)
      /\ es' = map revF es
  end.
Proof.
  unfold do_revive, do_revive_gen. destruct (rec_id es x); cbn [negb]; [|discriminate].
  destruct (forallb _ es); cbn [negb]; [|discriminate].
  destruct (forallb _ es); cbn [negb]; [|discriminate].
  destruct (forallb _ es) eqn:E; cbn [negb]; [|discriminate].
  split; [reflexivity|]. split; [|apply revF_map].
  intros e g Hin Hr. rewrite forallb_forall in E. specialize (E e Hin). rewrite Hr in E.
  rewrite <- live_rev1_revF. revert g. apply forallb_forall. exact E.
Qed.

Lemma revF_live g : live_id es g = true -> live_id (map revF es) g = true.
Proof.
  rewrite !live_id_iff. intros (e & Hin & He & Hs). exists (revF e).
  split; [apply in_map; exact Hin|]. split; [exact He|]. rewrite revF_est, Hs. destruct (in_revs x e); reflexivity.
Qed.

Lemma revF_target : rec_id es x = true -> live_id (map revF es) x = true.
Proof.
  rewrite live_id_iff, rec_id_iff. intros (e & Hin & He & Hs). exists (revF e).
  split; [apply in_map; exact Hin|]. split; [exact He|].
  rewrite revF_est. replace (in_revs x e) with true; [reflexivity|]. symmetry. apply in_revs_iff. tauto.
Qed.

Lemma adds_iff g y :
  In y (adds es x g) <-> exists r, In r es /\ in_revs x r = true /\ In g (erdmo r) /\ eid r = y.
Proof.
  unfold adds. rewrite in_map_iff.
  split; intros (r & H); exists r; rewrite filter_In, andb_true_iff, memN_In in *; tauto.
Qed.

Lemma revF_member e eg :
  In e es -> in_revs x e = true -> In (eid eg) (erdmo e) -> est (revF eg) = Live ->
  In (eid e) (emember (revF eg)).
Proof.
  intros Hin Hr Hg Hl. apply revF_emember. right. split; [exact Hl|]. apply adds_iff. exists e. tauto.
Qed.

Hypothesis Hnd : NoDup (map eid es).
Hypothesis Hc : dcons es.

Lemma dcons_revive : dcons (map revF es).
Proof.
  apply dcons_map. intros e g He Hg Hs Hl. destruct (revF_edmo e) as [-> | [Ha ->]].
  - apply (dmo_In _ _ (revF g)); [apply in_map; exact Hg | exact Hl].
  - (* e was not recomputed: it is not revived, not re-added to a group, not listed by a revived group;
       so g listed it before, and both were live before *)
    specialize (Ha Hs). apply lists_iff in Hl. destruct Hl as (Hgs & Hgk & Hgm).
    rewrite revF_ekind in Hgk. rewrite revF_eid in Hgm.
    assert (Hre : in_revs x e = false).
    { apply not_true_iff_false. intros E. apply Ha. apply in_or_app. left.
      apply in_map. apply filter_In. tauto. }
    apply revF_emember in Hgm. destruct Hgm as [Hgm | [_ Hgm]].
    2:{ apply adds_iff in Hgm. destruct Hgm as (r & Hr & Hrr & _ & Hid).
        rewrite (nodup_unique es r e Hnd Hr He Hid) in Hrr. congruence. }
    assert (Hrg : in_revs x g = false).
    { apply not_true_iff_false. intros E. apply Ha. apply in_or_app. right. apply in_or_app. right.
      apply in_flat_map. exists g. split; [|exact Hgm]. apply filter_In. split; [exact Hg|].
      rewrite E. apply N.eqb_eq. exact Hgk. }
    rewrite revF_est in Hs, Hgs. rewrite Hre in Hs. rewrite Hrg in Hgs.
    apply (Hc e g); try assumption. apply lists_iff. tauto.
Qed.
End Revive.

Inductive committed (R C : N) (s : state) (t : N) : op -> (ent -> ent) -> Prop :=
| CDel x : live_id (ents s) x = true -> committed R C s t (ODelete x) (delF (ents s) x t)
| CRev x : rec_id (ents s) x = true ->
           (forall e g, In e (ents s) -> in_revs x e = true -> In g (erdmo e) ->
              live_id (map (revF (ents s) x t) (ents s)) g = true) ->
           committed R C s t (ORevive x) (revF (ents s) x t)
| CPR : committed R C s t OPurgeRec (purge_rec_upd R t)
| CPT : committed R C s t OPurgeTomb (purge_tomb_upd C t).

Lemma step_cases R C s o t0 :
  (snd (step R C s o t0) <> 0 /\ fst (step R C s o t0) = s)
  \/ (snd (step R C s o t0) = 0 /\ exists F, committed R C s (eff s t0) o F
      /\ fst (step R C s o t0) = mkst (eff s t0) (map F (ents s))).
Proof.
  unfold step, step_gen. fold do_revive. destruct (eff s t0 <? C).
  - left. split; [discriminate | reflexivity].
  - destruct o as [x|x| |].
    + destruct (do_delete (ents s) x (eff s t0)) as [es'|] eqn:E.
      * apply do_delete_eq in E. destruct E as [Hl ->]. right. eauto using committed.
      * left. split; [discriminate | reflexivity].
    + pose proof (do_revive_spec (ents s) x (eff s t0)) as H.
      destruct (do_revive (ents s) x (eff s t0)) as [es'|c].
      * destruct H as (Hr & Hg & ->). right. eauto using committed.
      * left. split; [exact H | reflexivity].
    + destruct (eff s t0 <? R).
      * left. split; [discriminate | reflexivity].
      * right. eauto using committed.
    + right. eauto using committed.
Qed.

Lemma committed_of_ok R C s o t0 :
  snd (step R C s o t0) = 0 ->
  exists F, committed R C s (eff s t0) o F
     /\ fst (step R C s o t0) = mkst (eff s t0) (map F (ents s)).
Proof.
  intros H. destruct (step_cases R C s o t0) as [[Hne _]|[_ HF]]; [contradiction | exact HF].
Qed.

Lemma eff_gt s t0 : now s < eff s t0.
Proof. unfold eff. destruct (N.ltb_spec (now s) t0); lia. Qed.

Lemma now_mono_step R C s o t : now s <= now (fst (step R C s o t)).
Proof.
  destruct (step_cases R C s o t) as [[_ ->]|(_ & F & _ & ->)]; [lia|].
  pose proof (eff_gt s t). cbn. lia.
Qed.

Lemma committed_eid R C s t o F e : committed R C s t o F -> eid (F e) = eid e.
Proof.
  intros H. destruct H.
  - reflexivity.
  - reflexivity.
  - unfold purge_rec_upd. destruct (_ && _); reflexivity.
  - unfold purge_tomb_upd. destruct (est e); try reflexivity. destruct (_ <? _); reflexivity.
Qed.

(* What a transaction committed at time [t] does to the status, LastModifiedCid and recycle time of
   one entry: it stays (and then a purge found it too young), or makes one of four moves, each with
   its cause. *)
Inductive lifecycle (R C t : N) (o : op) (e e' : ent) : Prop :=
| LStay : est e' = est e -> erec e' = erec e -> elm e' = elm e \/ elm e' = t ->
          (o = OPurgeRec -> est e = Rec -> t <= elm e + R) ->
          (forall a, o = OPurgeTomb -> est e = Tomb a -> t <= a + C) ->
          lifecycle R C t o e e'
| LDelete x : o = ODelete x -> in_dels x e = true -> est e' = Rec -> elm e' = t -> erec e' = t ->
          lifecycle R C t o e e'
| LRevive x : o = ORevive x -> in_revs x e = true -> est e' = Live -> lifecycle R C t o e e'
| LTomb : o = OPurgeRec -> est e = Rec -> elm e + R < t -> est e' = Tomb t -> erec e' = erec e ->
          lifecycle R C t o e e'
| LReap a : o = OPurgeTomb -> est e = Tomb a -> a + C < t -> est e' = Gone -> erec e' = erec e ->
          lifecycle R C t o e e'.

Lemma committed_lifecycle R C s t o F e : committed R C s t o F -> lifecycle R C t o e (F e).
Proof.
  intros Hcom. destruct Hcom as [x _|x _ _| |].
  - destruct (in_dels x e) eqn:Hd.
    + eapply LDelete; unfold delF; cbn; rewrite ?Hd; reflexivity.
    + apply LStay; unfold delF; cbn; rewrite ?Hd; try reflexivity; try discriminate.
      destruct (touches _ e); auto.
  - destruct (in_revs x e) eqn:Hr.
    + eapply LRevive; unfold revF; cbn; rewrite ?Hr; reflexivity.
    + apply LStay; unfold revF; cbn; rewrite ?Hr; try reflexivity; try discriminate.
      destruct (is_live (est e)); [destruct (adds _ x (eid e))|]; auto.
  - unfold purge_rec_upd. destruct (est e) eqn:Es; cbn [is_rec andb].
    1,3,4: apply LStay; auto; intros; congruence.
    destruct (N.ltb_spec (elm e) (t - R)).
    + apply LTomb; try reflexivity; [exact Es | lia].
    + apply LStay; auto; [intros; lia | discriminate].
  - unfold purge_tomb_upd. destruct (est e) eqn:Es.
    1,2,4: apply LStay; auto; intros; congruence.
    destruct (N.ltb_spec a (t - C)).
    + eapply LReap; try reflexivity; [exact Es | lia].
    + apply LStay; auto; [discriminate | intros a' _ Ha; rewrite Es in Ha; injection Ha as <-; lia].
Qed.

(* [erec] is the history variable "time of the delete that recycled this entry"; t0 precedes every
   such delete, nw is the current time *)
Definition tinv (R C t0 nw : N) (e : ent) : Prop :=
  match est e with
  | Live => True
  | Rec => t0 < erec e /\ erec e <= elm e /\ elm e <= nw
  | Tomb a => t0 < erec e /\ erec e + R < a /\ a <= nw
  | Gone => t0 < erec e /\ erec e + R + C < nw
  end.
Definition TInv (R C t0 : N) (s : state) : Prop :=
  t0 <= now s /\ Forall (tinv R C t0 (now s)) (ents s).

Lemma tinv_mono R C t0 nw nw' e : nw <= nw' -> tinv R C t0 nw e -> tinv R C t0 nw' e.
Proof. unfold tinv. destruct (est e); intros; try tauto; lia. Qed.

Lemma tinv_step R C t0 nw t o e e' :
  t0 <= nw -> nw < t -> lifecycle R C t o e e' -> tinv R C t0 nw e -> tinv R C t0 t e'.
Proof.
  intros H0 Ht Hl Hi. unfold tinv in *.
  destruct Hl as [Hs Hr Hm _ _|x _ _ Hs Hm Hr|x _ _ Hs|_ Es Hlt Hs Hr|a _ Es Hlt Hs Hr].
  - rewrite Hs, Hr. destruct (est e); [exact I | destruct Hm as [-> | ->]; lia | lia | lia].
  - rewrite Hs, Hm, Hr. lia.
  - rewrite Hs. exact I.
  - rewrite Es in Hi. rewrite Hs, Hr. lia.
  - rewrite Es in Hi. rewrite Hs, Hr. lia.
Qed.

Lemma step_TInv R C t0 s o t :
  TInv R C t0 s -> TInv R C t0 (fst (step R C s o t)).
Proof.
  intros [H0 Hf]. destruct (step_cases R C s o t) as [[_ ->]|(_ & F & Hcom & ->)].
  - split; assumption.
  - pose proof (eff_gt s t) as Hgt. split; cbn [now ents]; [lia|].
    apply Forall_map. revert Hf. apply Forall_impl. intros e.
    apply (tinv_step R C t0 (now s) (eff s t) o); [assumption.. | apply (committed_lifecycle R C s), Hcom].
Qed.

Lemma run_TInv R C t0 ops : forall s, TInv R C t0 s -> TInv R C t0 (run R C s ops).
Proof.
  induction ops as [|[o t] r IH]; intros s H; cbn [run]; [exact H|].
  apply IH. apply step_TInv. exact H.
Qed.

Lemma all_live_TInv R C s :
  (forall e, In e (ents s) -> est e = Live) -> TInv R C (now s) s.
Proof.
  intros H. split; [lia|]. rewrite Forall_forall. intros e He. unfold tinv. rewrite (H e He). exact I.
Qed.

Lemma not_purged_early R C t0 s t e :
  TInv R C t0 s -> In e (ents s) -> est e = Rec -> t <= erec e + R ->
  purge_rec_upd R t e = e.
Proof.
  intros [_ Hf] Hin Hs Ht. rewrite Forall_forall in Hf. specialize (Hf e Hin).
  unfold tinv in Hf. rewrite Hs in Hf. unfold purge_rec_upd. rewrite Hs. cbn.
  destruct (N.ltb_spec (elm e) (t - R)); [lia | reflexivity].
Qed.

Lemma from_all_live R C s0 ops :
  (forall e, In e (ents s0) -> est e = Live) ->
  forall e, In e (ents (run R C s0 ops)) ->
    (forall a, est e = Tomb a -> now s0 + R < a /\ a <= now (run R C s0 ops))
    /\ (est e = Gone -> now s0 + R + C < now (run R C s0 ops)).
Proof.
  intros Hl e Hin. pose proof (run_TInv R C (now s0) ops s0 (all_live_TInv R C s0 Hl)) as [_ Hf].
  rewrite Forall_forall in Hf. specialize (Hf e Hin). unfold tinv in Hf. split.
  - intros a Ha. rewrite Ha in Hf. lia.
  - intros Hg. rewrite Hg in Hf. lia.
Qed.

Lemma tomb_final R C s o t0 :
  Forall2 (fun e e' =>
     (forall a, est e = Tomb a ->
        est e' = Tomb a \/ (est e' = Gone /\ o = OPurgeTomb /\ a + C < eff s t0))
     /\ (est e = Gone -> est e' = Gone))
    (ents s) (ents (fst (step R C s o t0))).
Proof.
  destruct (step_cases R C s o t0) as [[_ ->]|(_ & F & Hcom & ->)].
  - rewrite <- (map_id (ents s)) at 2. apply Forall2_map_r. intros e _. split; [left|]; trivial.
  - cbn [ents]. apply Forall2_map_r. intros e _.
    destruct (committed_lifecycle R C s _ o F e Hcom) as [Hs _ _ _ _|x _ Hd _ _ _|x _ Hr _|_ Es _ _ _|a Ho Es Hlt Hs _].
    + rewrite Hs. split; [left|]; trivial.
    + apply in_dels_iff in Hd. destruct Hd as [Hd _]. split; intros; congruence.
    + apply in_revs_iff in Hr. destruct Hr as [Hr _]. split; intros; congruence.
    + split; intros; congruence.
    + split; [|intros; congruence]. intros a' Ha. right. rewrite Es in Ha. injection Ha as <-. tauto.
Qed.

Lemma revive_needs_recycled R C s x t0 :
  rec_id (ents s) x = false -> step R C s (ORevive x) t0 = (s, if eff s t0 <? C then 4 else 1).
Proof.
  intros H. unfold step, step_gen. destruct (eff s t0 <? C); [reflexivity|].
  unfold do_revive_gen. rewrite H. reflexivity.
Qed.

Lemma hidden_after_delete R C s x t0 :
  NoDup (map eid (ents s)) -> snd (step R C s (ODelete x) t0) = 0 ->
  let s' := fst (step R C s (ODelete x) t0) in
  live_id (ents s') x = false /\ rec_id (ents s') x = true
  /\ Forall2 (fun e e' => eid e' = eid e
        /\ (est e = Live -> erefers e = Some x -> est e' = Rec /\ ecasc e' = Some x)
        /\ (est e = Live \/ est e' = est e))
       (ents s) (ents s').
Proof.
  intros Hnd Hok. cbn zeta. destruct (committed_of_ok _ _ _ _ _ Hok) as (F & Hcom & ->).
  cbn [ents]. inversion Hcom as [x' Hl| | |]; subst.
  split; [apply delF_hidden; assumption|]. split; [apply delF_target; exact Hl|].
  apply Forall2_map_r. intros e Hin. split; [reflexivity|]. rewrite delF_est, delF_ecasc. split.
  - intros Hs Hr. replace (in_dels x e) with true by (symmetry; apply in_dels_iff; tauto).
    rewrite Hr. cbn. rewrite N.eqb_refl. split; reflexivity.
  - destruct (in_dels x e) eqn:Hd; [left; apply in_dels_iff in Hd; tauto | right; reflexivity].
Qed.

Lemma revive_commits R C s x t0 :
  C <= eff s t0 -> rec_id (ents s) x = true ->
  (forall e, In e (ents s) -> in_revs x e = true ->
     (edep e = true -> refers' e <> None)
     /\ (forall u, ecasc e = Some u -> u = x \/ live_id (ents s) u = true)
     /\ (forall g, In g (erdmo e) -> live_id (ents s) g = true)) ->
  snd (step R C s (ORevive x) t0) = 0.
Proof.
  intros Hc Hrec H. unfold step, step_gen. destruct (N.ltb_spec (eff s t0) C) as [Hlt|_]; [lia|].
  unfold do_revive_gen. rewrite Hrec. cbn [negb].
  (* the three checks of the model hold of every revived entry *)
  rewrite (proj2 (forallb_forall _ _)); cbn [negb].
  2:{ intros e Hin. destruct (in_revs x e) eqn:Hr; [|reflexivity].
      destruct (edep e) eqn:Hd; [|reflexivity]. cbn.
      destruct (H e Hin Hr) as (Ha & _). specialize (Ha Hd). destruct (refers' e); [reflexivity | contradiction]. }
  rewrite (proj2 (forallb_forall _ _)); cbn [negb].
  2:{ intros e Hin. destruct (in_revs x e) eqn:Hr; [|reflexivity]. cbn.
      destruct (ecasc e) as [u|] eqn:Ec; [|reflexivity]. rewrite (live_rev1_revF (ents s)).
      destruct (H e Hin Hr) as (_ & Hb & _).
      destruct (Hb u Ec) as [-> | Hl]; [apply revF_target; exact Hrec | apply revF_live; exact Hl]. }
  rewrite (proj2 (forallb_forall _ _)); [reflexivity|].
  intros e Hin. destruct (in_revs x e) eqn:Hr; [|reflexivity]. cbn.
  apply forallb_forall. intros g Hg. rewrite (live_rev1_revF (ents s)). apply revF_live.
  destruct (H e Hin Hr) as (_ & _ & Hcg). apply Hcg. exact Hg.
Qed.

Lemma revive_restores R C s x t0 :
  snd (step R C s (ORevive x) t0) = 0 ->
  let s' := fst (step R C s (ORevive x) t0) in
  rec_id (ents s) x = true /\ live_id (ents s') x = true
  /\ Forall2 (fun e e' => eid e' = eid e
        /\ (est e = Rec -> eid e = x \/ ecasc e = Some x ->
              est e' = Live
              /\ (ecasc e = Some x -> erefers e' = Some x)
              /\ forall g, In g (erdmo e) ->
                   live_id (ents s') g = true
                   /\ forall eg', In eg' (ents s') -> eid eg' = g -> est eg' = Live ->
                        In (eid e) (emember eg'))
        /\ (est e = Rec \/ est e' = est e))
       (ents s) (ents s').
Proof.
  intros Hok. cbn zeta. destruct (committed_of_ok _ _ _ _ _ Hok) as (F & Hcom & ->).
  cbn [ents]. inversion Hcom as [|x' Hrec Hst| |]; subst.
  split; [exact Hrec|]. split; [apply revF_target; exact Hrec|].
  apply Forall2_map_r. intros e Hin. split; [reflexivity|]. rewrite revF_est, revF_erefers. split.
  - intros Hs Hx. assert (Hd : in_revs x e = true) by (apply in_revs_iff; tauto).
    rewrite Hd. split; [reflexivity|]. split.
    + intros Hcx. unfold refers'. rewrite Hcx. reflexivity.
    + intros g Hg. split; [exact (Hst e g Hin Hd Hg)|].
      intros eg' Hin' <- Hs'. apply in_map_iff in Hin'. destruct Hin' as (eg & <- & Hing).
      apply revF_member; assumption.
  - destruct (in_revs x e) eqn:Hd; [left; apply in_revs_iff in Hd; tauto | right; reflexivity].
Qed.

Lemma purge_rec_live R t e : est (purge_rec_upd R t e) = Live -> purge_rec_upd R t e = e.
Proof. unfold purge_rec_upd. destruct (_ && _); cbn; [discriminate | reflexivity]. Qed.
Lemma purge_tomb_live C t e : est (purge_tomb_upd C t e) = Live -> purge_tomb_upd C t e = e.
Proof.
  unfold purge_tomb_upd. destruct (est e) eqn:Es; try reflexivity.
  destruct (_ <? _); cbn; [discriminate | reflexivity].
Qed.

Lemma dcons_fix (F : ent -> ent) es :
  (forall e, est (F e) = Live -> F e = e) -> dcons es -> dcons (map F es).
Proof.
  intros HF Hc. apply dcons_map. intros e g He Hg Hs Hl.
  assert (Hgs : est (F g) = Live) by (apply lists_iff in Hl; tauto).
  pose proof (HF e Hs) as Ee. pose proof (HF g Hgs) as Eg. rewrite Ee, Eg in *. apply Hc; assumption.
Qed.

(* Stored DirectMemberOf stays complete (tree after 76a0ae1), and therefore every delete takes a
   complete stash. *)
Definition sinv (s : state) : Prop := NoDup (map eid (ents s)) /\ dcons (ents s).

Lemma sinv_step R C s o t : sinv s -> sinv (fst (step R C s o t)).
Proof.
  intros [Hnd Hc]. destruct (step_cases R C s o t) as [[_ ->]|(_ & F & Hcom & ->)].
  - split; assumption.
  - split; cbn [ents].
    + rewrite map_map. erewrite map_ext; [exact Hnd|]. intros e. apply (committed_eid _ _ _ _ _ _ _ Hcom).
    + destruct Hcom.
      * apply dcons_delete; assumption.
      * apply dcons_revive; assumption.
      * apply dcons_fix; [apply purge_rec_live | exact Hc].
      * apply dcons_fix; [apply purge_tomb_live | exact Hc].
Qed.

Lemma sinv_run R C ops : forall s, sinv s -> sinv (run R C s ops).
Proof.
  induction ops as [|[o t] r IH]; intros s H; cbn [run]; [exact H|]. apply IH. apply sinv_step. exact H.
Qed.

Lemma fresh_sinv s : fresh s = true -> sinv s.
Proof.
  unfold fresh. rewrite !andb_true_iff. intros [[_ H1] H2]. split.
  - apply nodupb_NoDup. exact H1.
  - apply dmo_consb_dcons. exact H2.
Qed.

Lemma stash_complete_delete R C s x t0 :
  NoDup (map eid (ents s)) -> dmo_consb (ents s) = true ->
  snd (step R C s (ODelete x) t0) = 0 ->
  stash_completeb (ents s) (ents (fst (step R C s (ODelete x) t0))) = true.
Proof.
  intros Hnd Hc Hok. destruct (committed_of_ok _ _ _ _ _ Hok) as (F & Hcom & ->).
  inversion Hcom; subst. apply stash_walk_map; [exact Hnd | apply dmo_consb_dcons, Hc | apply incl_refl].
Qed.

Lemma full_statement R C s0 ops x t0 :
  fresh s0 = true ->
  snd (step R C (run R C s0 ops) (ODelete x) t0) = 0 ->
  stash_completeb (ents (run R C s0 ops))
                  (ents (fst (step R C (run R C s0 ops) (ODelete x) t0))) = true.
Proof.
  intros Hf Hok. destruct (sinv_run R C ops s0 (fresh_sinv s0 Hf)) as [Hnd Hc].
  apply stash_complete_delete; try assumption. apply dmo_consb_dcons. exact Hc.
Qed.

Lemma status_eqb_eq a b : status_eqb a b = true -> a = b.
Proof. destruct a, b; cbn; try discriminate; try reflexivity. intros H. apply N.eqb_eq in H. congruence. Qed.
Lemma listN_eqb_eq a : forall b, listN_eqb a b = true -> a = b.
Proof.
  induction a as [|x a IH]; destruct b as [|y b]; cbn; try discriminate; try reflexivity.
  intros H. apply andb_true_iff in H. destruct H as [H1 H2]. apply N.eqb_eq in H1. f_equal; auto.
Qed.
Lemma optN_eqb_eq a b : optN_eqb a b = true -> a = b.
Proof. destruct a, b; cbn; try discriminate; try reflexivity. intros H. apply N.eqb_eq in H. congruence. Qed.

Lemma oent_eqb_eq a b : oent_eqb a b = true -> a = b.
Proof.
  unfold oent_eqb. rewrite !andb_true_iff.
  intros ((((((((((((H1 & H2) & H3) & H4) & H5) & H6) & H7) & H8) & H9) & H10) & H11) & H12) & H13).
  destruct a, b; cbn in *.
  apply N.eqb_eq in H1, H2, H4. apply status_eqb_eq in H3.
  apply listN_eqb_eq in H5, H6, H9. apply optN_eqb_eq in H7, H8.
  apply Bool.eqb_prop in H10, H11, H12, H13.
  (* thirteen equations between variables: substitute ([congruence] takes seconds on a record this wide) *)
  subst. reflexivity.
Qed.

Lemma oents_eqb_eq a : forall b, oents_eqb a b = true -> a = b.
Proof.
  induction a as [|x a IH]; destruct b as [|y b]; cbn; try discriminate; try reflexivity.
  intros H. apply andb_true_iff in H. destruct H as [H1 H2]. apply oent_eqb_eq in H1. f_equal; auto.
Qed.

Lemma abs_of_obs_init init : oents_eqb (map abs (map of_obs init)) init = true ->
  map abs (map of_obs init) = init.
Proof. apply oents_eqb_eq. Qed.

Lemma all2_map (f : oent -> oent -> bool) (F : ent -> ent) l :
  (forall e, In e l -> f (abs e) (abs (F e)) = true) -> all2 f (map abs l) (map abs (map F l)) = true.
Proof.
  induction l as [|a l IH]; intros H; cbn; [reflexivity|].
  rewrite H by (left; reflexivity). cbn. apply IH. intros e He. apply H. right. exact He.
Qed.

Lemma all2_same (f : oent -> oent -> bool) l :
  (forall e, In e l -> f (abs e) (abs e) = true) -> all2 f (map abs l) (map abs l) = true.
Proof.
  intros H. rewrite <- (map_id l) at 2. apply all2_map. exact H.
Qed.

Lemma existsb_abs (p : status -> bool) l g :
  existsb (fun o => (oid o =? g) && p (ost o)) (map abs l) = existsb (fun e => (eid e =? g) && p (est e)) l.
Proof. induction l as [|a l IH]; cbn; [|rewrite IH]; reflexivity. Qed.
Lemma olive_abs l g : olive (map abs l) g = live_id l g.
Proof. apply (existsb_abs is_live). Qed.

Lemma vis_ok_abs e : vis_ok (abs e) = true.
Proof.
  unfold vis_ok, abs. cbn. destruct (est e); cbn; try reflexivity. destruct (ekind e =? 1); reflexivity.
Qed.

Lemma trans_ok_same R C o t e : trans_ok R C o t false (abs e) (abs e) = true.
Proof.
  unfold trans_ok, abs. cbn. destruct (est e); cbn; try reflexivity.
  - rewrite N.leb_refl. reflexivity.
  - rewrite N.eqb_refl. reflexivity.
Qed.

Lemma trans_ok_lifecycle R C nw t o e e' :
  lifecycle R C t o e e' -> (est e = Rec -> elm e <= nw) -> nw < t ->
  trans_ok R C o t true (abs e) (abs e') = true.
Proof.
  intros Hl Hw Ht. unfold trans_ok. cbn [abs ost olm oid orefers ocasc].
  destruct Hl as [Hs _ Hm Hpr Hpt|x -> Hd Hs Hm _|x -> Hr Hs| -> Es Hlt Hs _|a -> Es Hlt Hs _].
  - rewrite Hs. destruct (est e) eqn:Es; cbn [is_rec andb]; try reflexivity.
    + apply andb_true_iff. split.
      * apply N.leb_le. specialize (Hw eq_refl). destruct Hm as [-> | ->]; lia.
      * destruct o; try reflexivity. apply negb_true_iff, N.ltb_ge. apply Hpr; reflexivity.
    + rewrite N.eqb_refl. destruct o; try reflexivity. apply negb_true_iff, N.ltb_ge. apply (Hpt a); reflexivity.
  - rewrite Hs, Hm. unfold in_dels in Hd. destruct (est e); try discriminate Hd.
    cbn. rewrite N.eqb_refl, andb_true_r. exact Hd.
  - rewrite Hs. unfold in_revs in Hr. destruct (est e); try discriminate Hr. exact Hr.
  - rewrite Es, Hs. cbn. rewrite N.eqb_refl. apply N.ltb_lt. exact Hlt.
  - rewrite Es, Hs. cbn. apply N.ltb_lt. exact Hlt.
Qed.

Lemma del_ok_model es x t e :
  NoDup (map eid es) -> In e es ->
  del_ok x (map abs (map (delF es x t) es)) (abs e) (abs (delF es x t e)) = true.
Proof.
  intros Hnd Hin. unfold del_ok. cbn [oid ost orefers ocasc ordmo odmo abs].
  rewrite delF_eid, delF_ecasc. rewrite !andb_true_iff. repeat split.
  - destruct ((eid e =? x) && is_live (est e)) eqn:E; [|reflexivity].
    apply andb_true_iff in E. destruct E as [E1 E2]. rewrite delF_est. unfold in_dels. rewrite E1, E2. reflexivity.
  - destruct (is_live (est e) && opt_is (erefers e) x) eqn:E; [|reflexivity].
    apply andb_true_iff in E. destruct E as [E1 E2]. rewrite delF_est. unfold in_dels. rewrite E1, E2, orb_true_r.
    cbn. apply N.eqb_refl.
  - destruct (is_live (est e) && is_rec _) eqn:E; [|reflexivity]. cbn [implb].
    pose proof (delF_recycled es x t e E) as Hd.
    apply andb_true_iff. split; apply forallb_forall; intros g Hg.
    + rewrite olive_abs. apply stash_kept; assumption.
    + rewrite delF_erdmo, Hd in Hg. apply rm_In in Hg. apply memN_In. tauto.
Qed.

Lemma rev_ok_model es x t e :
  In e es ->
  rev_ok x (map abs (map (revF es x t) es)) (abs e) (abs (revF es x t e)) = true.
Proof.
  intros Hin. unfold rev_ok. cbn [oid ost orefers ocasc ordmo omember abs].
  rewrite revF_eid, revF_est, revF_erefers. rewrite !andb_true_iff. repeat split.
  - destruct ((eid e =? x) && is_rec (est e)) eqn:E; [|reflexivity].
    apply andb_true_iff in E. destruct E as [E1 E2]. unfold in_revs. rewrite E1, E2. reflexivity.
  - destruct (is_rec (est e) && opt_is (ecasc e) x) eqn:E; [|reflexivity].
    apply andb_true_iff in E. destruct E as [E1 E2]. unfold in_revs. rewrite E1, E2, orb_true_r.
    cbn. unfold refers'. destruct (ecasc e); [exact E2 | discriminate].
  - destruct (in_revs x e) eqn:Hd; [|destruct (est e); reflexivity].
    rewrite andb_true_r. destruct (is_rec (est e)); [|reflexivity]. cbn [implb].
    apply forallb_forall. intros g Hg. apply forallb_forall. intros b Hb. rewrite map_map in Hb.
    apply in_map_iff in Hb. destruct Hb as (eg & <- & Hing). cbn [oid ost omember abs].
    destruct (_ && _) eqn:E; [|reflexivity]. cbn [implb].
    apply andb_true_iff in E. destruct E as [E3 E4]. apply N.eqb_eq in E3. apply is_live_eq in E4.
    apply memN_In. apply revF_member; try assumption. rewrite revF_eid in E3. rewrite E3. exact Hg.
Qed.

Lemma target_ok_model R C s t o F :
  committed R C s t o F ->
  target_ok o true (absS s) (map abs (map F (ents s))) = true.
Proof.
  intros Hcom. destruct Hcom as [x Hl|x Hr _| |]; cbn [target_ok implb]; try reflexivity;
    unfold absS; rewrite !existsb_abs; apply andb_true_iff.
  - split; [exact Hl | exact (delF_target _ _ _ Hl)].
  - split; [exact Hr | exact (revF_target _ _ _ Hr)].
Qed.

Lemma stash_strict_abs pre post : forall l l',
  all2 (stash_strict (map abs pre) (map abs post)) (map abs l) (map abs l') = stash_walk pre post l l'.
Proof.
  induction l as [|e l IH]; destruct l' as [|e' l']; cbn [map all2 stash_walk]; try reflexivity.
  rewrite IH. clear IH. f_equal. unfold stash_strict. cbn [ost oid ordmo abs]. f_equal.
  induction pre as [|g pre IHp]; cbn [map forallb]; [reflexivity|]. rewrite IHp, olive_abs. reflexivity.
Qed.

Lemma entry_ok_same R C o t post e : entry_ok R C o t false post (abs e) (abs e) = true.
Proof.
  unfold entry_ok. rewrite N.eqb_refl, vis_ok_abs, trans_ok_same. cbn. destruct o; reflexivity.
Qed.

(* what [wfb] checks on the initial state: [sinv], and a recycled entry was last modified no later
   than the published cid_max *)
Definition winv (s : state) : Prop :=
  sinv s /\ forall e, In e (ents s) -> est e = Rec -> elm e <= now s.

Lemma wfb_winv s : wfb s = true -> winv s.
Proof.
  unfold wfb, winv, sinv. rewrite !andb_true_iff, forallb_forall. intros [[H1 H2] H3]. split.
  - split; [apply nodupb_NoDup; exact H1 | apply dmo_consb_dcons; exact H3].
  - intros e He Hs. specialize (H2 e He). rewrite Hs in H2. apply N.leb_le. exact H2.
Qed.

Lemma winv_step R C s o t : winv s -> winv (fst (step R C s o t)).
Proof.
  intros [Hs Hw]. split; [apply sinv_step; exact Hs|].
  destruct (step_cases R C s o t) as [[_ ->]|(_ & F & Hcom & ->)]; [exact Hw|].
  cbn [now ents]. intros e' Hin Hs'. apply in_map_iff in Hin. destruct Hin as (e & <- & Hin).
  pose proof (eff_gt s t) as Hgt. specialize (Hw e Hin).
  destruct (committed_lifecycle R C s _ o F e Hcom) as [Hst _ Hm _ _|x _ _ _ Hm _|x _ _ Hst|_ _ _ Hst _|a _ _ _ Hst _];
    try congruence.
  - rewrite Hst in Hs'. destruct Hm as [-> | ->]; [specialize (Hw Hs')|]; lia.
  - lia.
Qed.

Lemma entry_ok_committed R C s t o F e :
  winv s -> committed R C s t o F -> In e (ents s) -> now s < t ->
  entry_ok R C o t true (map abs (map F (ents s))) (abs e) (abs (F e)) = true.
Proof.
  intros [[Hnd _] Hw] Hcom Hin Ht. unfold entry_ok.
  rewrite vis_ok_abs, (trans_ok_lifecycle R C (now s) t o e (F e) (committed_lifecycle R C s t o F e Hcom) (Hw e Hin) Ht).
  cbn [oid abs]. rewrite (committed_eid R C s t o F e Hcom), N.eqb_refl. cbn [andb].
  destruct Hcom; cbn [implb]; try reflexivity.
  - apply del_ok_model; assumption.
  - apply rev_ok_model; assumption.
Qed.

(* one model step, as [pcheck] sees it on the read-backs before and after *)
Lemma step_ok R C s o t0 : winv s ->
  let s' := fst (step R C s o t0) in
  let ok := snd (step R C s o t0) =? 0 in
  all2 (entry_ok R C o (eff s t0) ok (absS s')) (absS s) (absS s') = true
  /\ target_ok o ok (absS s) (absS s') = true
  /\ match o with
     | ODelete _ => implb ok (all2 (stash_strict (absS s) (absS s')) (absS s) (absS s'))
     | _ => true
     end = true.
Proof.
  intros Hw. cbn zeta. destruct (step_cases R C s o t0) as [[Hne ->]|(-> & F & Hcom & ->)].
  - apply N.eqb_neq in Hne. rewrite Hne. split; [|split].
    + apply all2_same. intros e _. apply entry_ok_same.
    + destruct o; reflexivity.
    + destruct o; reflexivity.
  - change (0 =? 0) with true. unfold absS. cbn [ents]. split; [|split].
    + apply all2_map. intros e He. apply (entry_ok_committed R C s); try assumption. apply eff_gt.
    + exact (target_ok_model R C s _ o F Hcom).
    + destruct Hw as [[Hnd Hdc] _]. destruct Hcom; try reflexivity. cbn [implb].
      rewrite stash_strict_abs. apply stash_walk_map; [assumption.. | apply incl_refl].
Qed.

Lemma run_agree_sound R C : forall steps s,
  winv s -> run_agree R C s steps = true ->
  trace_ok R C (absS s) steps = true /\ trace_strict (absS s) steps = true.
Proof.
  induction steps as [|[o t cid code post] r IH]; intros s Hw H; [split; reflexivity|].
  cbn [run_agree trace_ok trace_strict] in *.
  pose proof (step_ok R C s o t Hw) as Hok. pose proof (winv_step R C s o t Hw) as Hw'. cbn zeta in Hok.
  destruct (step R C s o t) as [s' c]. cbn [fst snd] in *.
  rewrite !andb_true_iff in H. destruct H as (((Hc & Hcid) & Hpost) & Hr).
  apply N.eqb_eq in Hc, Hcid. apply oents_eqb_eq in Hpost. subst code cid post.
  destruct Hok as (H1 & H2 & H3). destruct (IH s' Hw' Hr) as [I1 I2].
  rewrite H1, H2, H3, I1, I2. split; reflexivity.
Qed.

Lemma agree_pcheck c : agree c = true -> pcheck c = true.
Proof.
  destruct c as [R C now0 init steps]. unfold agree, pcheck, pcore.
  rewrite !andb_true_iff. intros ((Hinit & Hwf) & Hrun).
  destruct (run_agree_sound R C steps _ (wfb_winv _ Hwf) Hrun) as [H1 H2].
  apply abs_of_obs_init in Hinit. unfold absS in H1, H2. cbn [ents] in H1, H2. rewrite Hinit in H1, H2.
  split; [split|]; try assumption.
  rewrite <- Hinit. apply forallb_forall. intros b Hb. rewrite map_map in Hb. apply in_map_iff in Hb.
  destruct Hb as (e & <- & _). apply vis_ok_abs.
Qed.
