(* Non-vacuity: concrete states/histories meeting the hypotheses. *)
From Coq Require Import List NArith Bool.
Import ListNotations.
Require Import KV.C26.Model KV.C26.Proofs.
Open Scope N_scope.

(* person 0 in group 2, person 1, dependent 3 -> person 0 (also a member of group 2) *)
Definition w0 : state :=
  mkst 1000 [mkent 0 0 Live 0 0 [] [] None None [2]; mkent 1 0 Live 0 0 [] [] None None [];
             mkent 2 1 Live 0 0 [0; 3] [] None None []; mkent 3 2 Live 0 0 [] [] (Some 0) None [2]].

Example C26_witness_fresh : fresh w0 = true.
Proof. vm_compute. reflexivity. Qed.

(* delete commits (hypothesis of C26_hidden_after_delete / C26_stash_complete), cascades
   to the dependent and stashes group 2 for both *)
Example C26_witness_delete :
  snd (step 100 100 w0 (ODelete 0) 2000) = 0
  /\ map est (ents (fst (step 100 100 w0 (ODelete 0) 2000))) = [Rec; Live; Live; Rec]
  /\ map erdmo (ents (fst (step 100 100 w0 (ODelete 0) 2000))) = [[2]; []; []; [2]]
  /\ map ecasc (ents (fst (step 100 100 w0 (ODelete 0) 2000))) = [None; None; None; Some 0].
Proof. vm_compute. repeat split; reflexivity. Qed.

(* revive commits (hypothesis of C26_revive_restores; of C26_revivable the conclusion only), the
   dependent comes back with its Refers and both are members of group 2 again *)
Definition w1 : state := fst (step 100 100 w0 (ODelete 0) 2000).
Example C26_witness_revive :
  snd (step 100 100 w1 (ORevive 0) 2050) = 0
  /\ map est (ents (fst (step 100 100 w1 (ORevive 0) 2050))) = [Live; Live; Live; Live]
  /\ map emember (ents (fst (step 100 100 w1 (ORevive 0) 2050))) = [[]; []; [0; 3]; []]
  /\ map erefers (ents (fst (step 100 100 w1 (ORevive 0) 2050))) = [None; None; None; Some 0].
Proof. vm_compute. repeat split; reflexivity. Qed.

(* the retention boundary is exact: purge at delete + R keeps the entry, at delete + R + 1 it
   becomes a tombstone; reaping at tombstone + C keeps it, at + C + 1 removes it; and a
   tombstone cannot be revived (hypothesis of C26_tombstone_not_revivable) *)
Example C26_witness_boundaries :
  map est (ents (run 100 100 w1 [(OPurgeRec, 2100)])) = [Rec; Live; Live; Rec]
  /\ map est (ents (run 100 100 w1 [(OPurgeRec, 2101)])) = [Tomb 2101; Live; Live; Tomb 2101]
  /\ map est (ents (run 100 100 w1 [(OPurgeRec, 2101); (OPurgeTomb, 2201)])) = [Tomb 2101; Live; Live; Tomb 2101]
  /\ map est (ents (run 100 100 w1 [(OPurgeRec, 2101); (OPurgeTomb, 2202)])) = [Gone; Live; Live; Gone]
  /\ rec_id (ents (run 100 100 w1 [(OPurgeRec, 2101)])) 0 = false
  /\ snd (step 100 100 (run 100 100 w1 [(OPurgeRec, 2101)]) (ORevive 0) 2150) = 1.
Proof. vm_compute. repeat split; reflexivity. Qed.

(* the time invariant holds of a state with a recycled entry (hypothesis of
   C26_retention_invariant / C26_revivable_before_retention) *)
Example C26_witness_tinv : TInv 100 100 1000 w1.
Proof.
  split; [vm_compute; discriminate|].
  repeat constructor; unfold tinv; cbn; try exact I; repeat split; vm_compute; congruence.
Qed.

(* after 76a0ae1 a revived group's members get their DirectMemberOf back (hypotheses of
   C26_full_statement / C26_dmo_complete_invariant are met by this history); before it they kept
   a stale one — the middle state of C26_prefix_refuted *)
Definition wg : state :=
  mkst 100 [mkent 0 0 Live 0 0 [] [] None None [1]; mkent 1 1 Live 0 0 [0] [] None None []].
Example C26_witness_group_revive :
  fresh wg = true
  /\ dmo_consb (ents (run 10 10 wg [(ODelete 1, 200); (ORevive 1, 300)])) = true
  /\ snd (step 10 10 (run 10 10 wg [(ODelete 1, 200); (ORevive 1, 300)]) (ODelete 0) 400) = 0
  /\ map erdmo (ents (fst (step 10 10 (run 10 10 wg [(ODelete 1, 200); (ORevive 1, 300)]) (ODelete 0) 400)))
     = [[1]; []]
  /\ dmo_consb (ents (run_prefix 10 10 wg [(ODelete 1, 200); (ORevive 1, 300)])) = false.
Proof. vm_compute. repeat split; reflexivity. Qed.

(* an agreeing observed history (hypothesis of C26_agree_implies_property); it includes a refused
   revive (code 3: the Refers target of dependent 3 is not live) and a requested time in the past
   (1500, committed at 2001) *)
Example C26_witness_agree :
  agree (CHist 100 100 1000 (absS w0)
    [OStep (ODelete 0) 2000 2000 0 (absS w1);
     OStep (ORevive 3) 2001 2001 3 (absS w1);
     OStep (ORevive 0) 1500 2001 0 (absS (fst (step 100 100 w1 (ORevive 0) 1500)))]) = true.
Proof. vm_compute. reflexivity. Qed.
