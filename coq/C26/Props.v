(* Model: states = closed population of persons / flat groups / Refers-dependents; one write
   transaction per step; times in ns; R = RECYCLEBIN_MAX_AGE, C = CHANGELOG_MAX_AGE as arbitrary
   parameters. *)
From Coq Require Import List NArith Bool.
Import ListNotations.
Require Import KV.C26.Model KV.C26.Proofs.
Open Scope N_scope.

(* A committed delete of x: afterwards x is not found by a normal search, is found by the recycle
   bin search, and every live dependent (Refers = x) went to the recycle bin with it, marked
   CascadeDeleted = x.  Nothing else changes life-cycle state. *)
Theorem C26_hidden_after_delete : forall R C s x t0,
  NoDup (map eid (ents s)) -> snd (step R C s (ODelete x) t0) = 0 ->
  let s' := fst (step R C s (ODelete x) t0) in
  live_id (ents s') x = false /\ rec_id (ents s') x = true
  /\ Forall2 (fun e e' => eid e' = eid e
        /\ (est e = Live -> erefers e = Some x -> est e' = Rec /\ ecasc e' = Some x)
        /\ (est e = Live \/ est e' = est e))
       (ents s) (ents s').
Proof. exact hidden_after_delete. Qed.

(* A committed revive of x: x was in the recycle bin and is live again; every recycled entry
   that was cascade-deleted with x is live again with Refers = x restored; and for every revived
   entry, every group named in its stash (RecycledDirectMemberOf) is live and lists it as a
   member again.  Nothing else changes life-cycle state. *)
Theorem C26_revive_restores : forall R C s x t0,
  snd (step R C s (ORevive x) t0) = 0 ->
  let s' := fst (step R C s (ORevive x) t0) in
  rec_id (ents s) x = true /\ live_id (ents s') x = true
  /\ Forall2 (fun e e' => eid e' = eid e
        /\ (est e = Rec -> eid e = x \/ ecasc e = Some x ->
              est e' = Live
              /\ (ecasc e = Some x -> erefers e' = Some x)
              /\ forall g, In g (erdmo e) ->
                   live_id (ents s') g = true
                   /\ forall eg', In eg' (ents s') -> eid eg' = g -> est eg' = Live ->
                        In (eid e) (emember eg'))
        /\ (est e = Rec \/ est e' = est e))
       (ents s) (ents s').
Proof. exact revive_restores. Qed.

(* A revive commits when the target is in the recycle bin, the transaction time is representable,
   every revived ClientCertificate has a Refers to restore, every restored Refers target is x or
   live, and every stashed group is live (sufficient conditions; no converse is stated).  (For a
   person or group deleted on its own the last three conditions are about its cascade dependents
   and its stash only.) *)
Theorem C26_revivable : forall R C s x t0,
  C <= eff s t0 -> rec_id (ents s) x = true ->
  (forall e, In e (ents s) -> in_revs x e = true ->
     (edep e = true -> refers' e <> None)
     /\ (forall u, ecasc e = Some u -> u = x \/ live_id (ents s) u = true)
     /\ (forall g, In g (erdmo e) -> live_id (ents s) g = true)) ->
  snd (step R C s (ORevive x) t0) = 0.
Proof. exact revive_commits. Qed.

(* The retention invariant, for arbitrary op lists with arbitrary requested times (the lamport
   rule makes transaction times strictly increasing): relative to any time t0 not after `now`,
   every recycled entry was recycled after t0 and last modified between its recycling and now;
   every tombstone was made MORE than R after the delete that recycled the entry; every reaped
   entry was recycled more than R + C ago.  [erec] is the history variable written by delete. *)
Theorem C26_retention_invariant : forall R C t0 ops s,
  TInv R C t0 s -> TInv R C t0 (run R C s ops).
Proof. intros R C t0 ops s. apply run_TInv. Qed.

(* While the retention period since its delete has not passed, what purge_recycled does to one
   entry at a transaction time t (an OPurgeRec step maps purge_rec_upd R (eff s t0) over the
   entries) leaves a recycled entry as it is. *)
Theorem C26_revivable_before_retention : forall R C t0 s t e,
  TInv R C t0 s -> In e (ents s) -> est e = Rec -> t <= erec e + R ->
  purge_rec_upd R t e = e.
Proof. exact not_purged_early. Qed.

(* Starting from a population in which everything is live, after ANY history: a tombstone's
   `at` is more than R after the start, and an entry can only have been removed for good
   when more than R + C has passed. *)
Theorem C26_tombstone_not_before_retention : forall R C s0 ops,
  (forall e, In e (ents s0) -> est e = Live) ->
  forall e, In e (ents (run R C s0 ops)) -> forall a, est e = Tomb a -> now s0 + R < a.
Proof. intros R C s0 ops Hl e Hin a Ha. apply (from_all_live R C s0 ops Hl e Hin). exact Ha. Qed.

Theorem C26_reaped_not_before_window : forall R C s0 ops,
  (forall e, In e (ents s0) -> est e = Live) ->
  forall e, In e (ents (run R C s0 ops)) -> est e = Gone ->
    now s0 + R + C < now (run R C s0 ops).
Proof. intros R C s0 ops Hl e Hin Hg. apply (from_all_live R C s0 ops Hl e Hin). exact Hg. Qed.

(* Tombstones are final: no step turns a tombstone into anything but the same tombstone, or
   "removed" — and that only by purge_tombstones strictly after `at` + C; removed stays removed. *)
Theorem C26_tombstone_final : forall R C s o t0,
  Forall2 (fun e e' =>
     (forall a, est e = Tomb a ->
        est e' = Tomb a \/ (est e' = Gone /\ o = OPurgeTomb /\ a + C < eff s t0))
     /\ (est e = Gone -> est e' = Gone))
    (ents s) (ents (fst (step R C s o t0))).
Proof. exact tomb_final. Qed.

(* A revive whose target is not in the recycle bin (live, tombstone, removed, unknown) is refused
   and changes nothing. *)
Theorem C26_tombstone_not_revivable : forall R C s x t0,
  rec_id (ents s) x = false ->
  step R C s (ORevive x) t0 = (s, if eff s t0 <? C then 4 else 1).
Proof. exact revive_needs_recycled. Qed.

(* Completeness of the stash over histories, for the tree after 76a0ae1 (what "returning with its
   direct memberships of groups that still exist" needs from delete): in every state reachable
   from a fresh population by ANY history, a committed delete stashes EVERY live group that lists
   the recycled entry as a member (unless that group went to the recycle bin in the same delete).
   C26_revive_restores adds that every group in the stash at the time of the revive gets the
   member back; no theorem here says how the stash fares between the delete and the revive. *)
Theorem C26_full_statement : forall R C s0 ops x t0,
  fresh s0 = true ->
  snd (step R C (run R C s0 ops) (ODelete x) t0) = 0 ->
  stash_completeb (ents (run R C s0 ops))
                  (ents (fst (step R C (run R C s0 ops) (ODelete x) t0))) = true.
Proof. exact full_statement. Qed.

(* The invariant behind it, over arbitrary op lists: ids stay unique and the stored
   DirectMemberOf of every live entry names every live group that lists it. *)
Theorem C26_dmo_complete_invariant : forall R C ops s,
  NoDup (map eid (ents s)) /\ dmo_consb (ents s) = true ->
  NoDup (map eid (ents (run R C s ops))) /\ dmo_consb (ents (run R C s ops)) = true.
Proof.
  intros R C ops s [H1 H2].
  destruct (sinv_run R C ops s (conj H1 (proj1 (dmo_consb_dcons _) H2))) as [H3 H4].
  split; [exact H3 | apply dmo_consb_dcons; exact H4].
Qed.

(* One step, any state: a complete stored DirectMemberOf gives a complete stash. *)
Theorem C26_stash_complete : forall R C s x t0,
  NoDup (map eid (ents s)) -> dmo_consb (ents s) = true ->
  snd (step R C s (ODelete x) t0) = 0 ->
  stash_completeb (ents s) (ents (fst (step R C s (ODelete x) t0))) = true.
Proof. exact stash_complete_delete. Qed.

(* THE DEFECT THIS CHECK FOUND (tree before 76a0ae1, model step_prefix / run_prefix): the same
   statement is false.  Witness, confirmed on the real server (harness --probe; QueryServer::verify
   reported MemberOfInvalid): person 0 in group 1; delete group 1; revive group 1 (memberof did
   not recompute DirectMemberOf of the members of a revived group); delete person 0 -> its stash
   is empty although group 1 is live and lists it, so reviving person 0 did not return it to
   group 1. *)
Theorem C26_prefix_refuted :
  ~ (forall R C s0 ops x t0, fresh s0 = true ->
       snd (step_prefix R C (run_prefix R C s0 ops) (ODelete x) t0) = 0 ->
       stash_completeb (ents (run_prefix R C s0 ops))
                       (ents (fst (step_prefix R C (run_prefix R C s0 ops) (ODelete x) t0))) = true).
Proof.
  intros H.
  specialize (H 10 10
    (mkst 100 [mkent 0 0 Live 0 0 [] [] None None [1]; mkent 1 1 Live 0 0 [0] [] None None []])
    [(ODelete 1, 200); (ORevive 1, 300)] 0 400 eq_refl eq_refl).
  vm_compute in H. discriminate.
Qed.

(* Soundness of the run-time tie: whenever the implementation's read-backs agree with the model,
   the property's executable predicate pcheck holds on those read-backs: search visibility =
   life-cycle state; only the allowed transitions, at the allowed times, with the allowed causes;
   cascade and stash effects of delete incl. completeness of the stash judged on the groups' own
   Member lists; restoration effects of revive. *)
Theorem C26_agree_implies_property : forall c : case, agree c = true -> pcheck c = true.
Proof. exact agree_pcheck. Qed.
