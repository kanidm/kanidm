(* KV.C44.Witness — non-vacuity of the implication theorems of Props.v, on the symbolic instance
   (which satisfies the premises key_inj_kdf / key_inj_hmac: C44_ideal_instance). *)
From Coq Require Import List NArith Bool.
Import ListNotations.
Require Import KV.C44.Model.
Open Scope N_scope.

Definition pA : pw := [112; 119; 65].        (* "pwA" *)
Definition pB : pw := [112; 119; 66].        (* "pwB" *)
Definition R := reach ideal_kdf ideal_hmac 7 9.
Definition acc (sg : state * ghost) := offline_accepts ideal_kdf ideal_hmac (fst sg).

(* C44_last_online / C44_offline_complete / C44_login_accept (offline disjunct): alice (0) logs in
   online on machine 0 with pA, the server password changes to pB, the network goes down, the
   cache expires.  Untampered slot; the offline check accepts pA = the most recent verified
   password and rejects the server's NEW password pB and the empty password. *)
Definition h_plain : list op :=
  [OSrvSet 0 (Some pA); OLogin false 0 pA; OSrvSet 0 (Some pB); ONet false false; OInvalidate false].
Example C44_witness_last_online :
  is_dirty (snd (R h_plain)) false 0 = false /\
  lastv (g_ver (snd (R h_plain))) false 0 = Some pA /\
  acc (R h_plain) false 0 pA = true /\
  acc (R h_plain) false 0 pB = false /\
  acc (R h_plain) false 0 [] = false /\
  (let st := fst (R h_plain) in
   login ideal_kdf ideal_hmac (s_srv st) (s_salt st) (sel st false) 0 pA)
   = (RSome true, EvOfflineOk,
      mkmach 7 PLater false [(0, mkentry true (Some (seal ideal_kdf ideal_hmac 7 0 pA)))] [], 1).
Proof. vm_compute. repeat split; reflexivity. Qed.

(* a denied online login does NOT clear the cache (as transcribed): after the server moved to pB,
   an online attempt with pA is refused, and once offline pA is still the accepted password —
   it is still the most recent password VERIFIED online on this machine *)
Definition h_denied : list op :=
  [OSrvSet 0 (Some pA); OLogin false 0 pA; OSrvSet 0 (Some pB); OLogin false 0 pA; ONet false false; OInvalidate false].
Example C44_witness_denial_keeps_cache :
  map o_res (run ideal_kdf ideal_hmac (init_k 7 9) h_denied)
    = [None; Some (RSome true); None; Some (RSome false); None; None] /\
  lastv (g_ver (snd (R h_denied))) false 0 = Some pA /\
  acc (R h_denied) false 0 pA = true /\ acc (R h_denied) false 0 pB = false.
Proof. vm_compute. repeat split; reflexivity. Qed.

(* C44_login_accept, online disjunct *)
Example C44_witness_online_accept :
  (let st := fst (R [OSrvSet 0 (Some pA)]) in
   login ideal_kdf ideal_hmac (s_srv st) (s_salt st) (sel st true) 0 pA)
   = (RSome true, EvOnlineOk,
      mkmach 9 POnline true [(0, mkentry true (Some (seal ideal_kdf ideal_hmac 9 0 pA)))] [], 1).
Proof. vm_compute. reflexivity. Qed.

(* C44_machine_bound: both machines verified pA online; the cached credentials are swapped.  Each
   slot now holds the OTHER machine's sealing of the right password: the offline check rejects
   that password on both machines, and so does a login. *)
Definition h_swap : list op :=
  [OSrvSet 0 (Some pA); OLogin false 0 pA; OLogin true 0 pA; OSwap 0; ONet false false; ONet true false;
   OInvalidate false; OInvalidate true].
Example C44_witness_machine_bound :
  cred_of (sel (fst (R h_swap)) false) 0 = Some (seal ideal_kdf ideal_hmac (keyof 7 9 (negb false)) 1 pA) /\
  cred_of (sel (fst (R h_swap)) true) 0 = Some (seal ideal_kdf ideal_hmac (keyof 7 9 (negb true)) 0 pA) /\
  acc (R h_swap) false 0 pA = false /\ acc (R h_swap) true 0 pA = false /\
  map o_res (run ideal_kdf ideal_hmac (init_k 7 9) (h_swap ++ [OLogin false 0 pA; OLogin true 0 pA]))
    = [None; Some (RSome true); Some (RSome true); None; None; None; None; None; Some (RSome false); Some (RSome false)].
Proof. vm_compute. repeat split; reflexivity. Qed.
(* ... and swapped back, each machine accepts again (hypotheses of C44_offline_only_verified_here
   met with a tampered slot) *)
Example C44_witness_swap_back :
  let sg := R (h_swap ++ [OSwap 0]) in
  is_dirty (snd sg) false 0 = true /\ acc sg false 0 pA = true /\ In (false, 0, pA) (g_ver (snd sg)).
Proof. vm_compute. repeat split; try reflexivity. right. left. reflexivity. Qed.

(* the premise "not tampered since the last online verification" of C44_last_online is NEEDED:
   a replay of the machine's OWN older credential (moved away, then moved back after a newer
   online verification) makes the older password acceptable offline although the most recent
   verified password is pB.  Nothing in the cache format protects against rollback. *)
Definition h_rollback : list op :=
  [OSrvSet 0 (Some pA); OLogin false 0 pA; OLogin true 0 pA; OSwap 0;
   OSrvSet 0 (Some pB); OLogin false 0 pB; OSwap 0; ONet false false; OInvalidate false].
Example C44_witness_rollback_needs_clean :
  let sg := R h_rollback in
  is_dirty (snd sg) false 0 = true /\
  lastv (g_ver (snd sg)) false 0 = Some pB /\
  acc sg false 0 pA = true /\ acc sg false 0 pB = false /\
  In (false, 0, pA) (g_ver (snd sg)).
Proof. vm_compute. repeat split; try reflexivity. right. right. left. reflexivity. Qed.

(* function level: C44_fn_refines_spec on a sequence with all kinds of ops; a planted plain
   ARGON2ID credential is accepted under EVERY key (boundary of the machine-binding claim:
   only credentials written by kanidm_update_cached_password are TPM bound) *)
Definition f_ops : list fop :=
  [FSeal 0 1 pA; FCheck 0 1 pA; FCheck 0 2 pA; FCheck 0 1 pB; FMove 0 1; FCheck 1 1 pA; FHas 2;
   FPlant 2 pB; FCheck 2 1 pB; FCheck 2 2 pB; FCheck 2 2 pA; FJunk 0; FHas 0; FCheck 0 1 pA; FClear 1; FHas 1;
   FSeal 1 2 (rep 66 513); FCheck 1 2 (rep 66 513); FSeal 1 2 (rep 66 512); FCheck 1 2 (rep 66 512)].
Example C44_witness_fn :
  frun ideal_kdf ideal_hmac ([], 0) f_ops
    = [true; false; false; true; false; true; true; false; true; false; false; false; true] /\
  fspec_run [] f_ops = frun ideal_kdf ideal_hmac ([], 0) f_ops.
Proof. vm_compute. split; reflexivity. Qed.

(* the case-level predicates accept a consistent recorded run and reject a corrupted one *)
Definition w_obs := run ideal_kdf ideal_hmac (init_k 0 1) h_rollback.
Example C44_witness_pcheck_accepts : agree (CRes h_rollback w_obs) = true /\ pcheck (CRes h_rollback w_obs) = true.
Proof. vm_compute. split; reflexivity. Qed.
(* an implementation that accepted the swapped (foreign) credential offline would be flagged *)
Definition w_bad_obs :=
  map (fun ob => match o_res ob with
                 | Some (RSome false) => mkobs (Some (RSome true)) (o_on0 ob) (o_on1 ob) (o_slots ob)
                 | _ => ob end)
      (run ideal_kdf ideal_hmac (init_k 0 1) (h_swap ++ [OLogin false 0 pA])).
Example C44_witness_pcheck_rejects :
  pcheck (CRes (h_swap ++ [OLogin false 0 pA]) w_bad_obs) = false /\
  pcheck (CFn [FSeal 0 1 pA; FCheck 0 2 pA] [true]) = false.
Proof. vm_compute. split; reflexivity. Qed.
