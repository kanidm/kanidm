(* Function level: a simulation between the token store and the symbolic content tracker.
   Resolver level: an invariant over (state, ghost) saying what every cached credential is
   ([slot_ok]); each operation either leaves the verification log alone and moves credentials
   around ([Inv_move]) or is a server-verified login ([Inv_verified]). *)
From Coq Require Import List NArith Bool.
Import ListNotations.
Require Import KV.C44.Model.
Open Scope N_scope.

Lemma leqb_refl : forall a, leqb a a = true.
Proof. induction a as [|x a IH]; cbn [leqb]; [reflexivity|]. rewrite N.eqb_refl. exact IH. Qed.

Lemma leqb_eq : forall a b, leqb a b = true <-> a = b.
Proof.
  split; [|intros <-; apply leqb_refl].
  revert b. induction a as [|x a IH]; intros [|y b] H; try discriminate H; [reflexivity|].
  cbn [leqb] in H. apply andb_true_iff in H as [H1 H2]. apply N.eqb_eq in H1. apply IH in H2. congruence.
Qed.

Lemma leqb_neq : forall a b, a <> b -> leqb a b = false.
Proof. intros a b H. destruct (leqb a b) eqn:E; [|reflexivity]. apply leqb_eq in E. contradiction. Qed.

Section Assoc.
Context {A : Type}.
Lemma aget_adel : forall k k' (l : list (N * A)), aget k' (adel k l) = if k' =? k then None else aget k' l.
Proof.
  intros k k' l. induction l as [|[k2 v] r IH]; cbn [adel aget]; [destruct (k' =? k); reflexivity|].
  destruct (N.eqb_spec k k2) as [<-|Hn]; cbn [aget]; rewrite IH.
  - destruct (k' =? k); reflexivity.
  - destruct (N.eqb_spec k' k) as [->|_]; [|reflexivity]. destruct (N.eqb_spec k k2); [contradiction|reflexivity].
Qed.
Lemma aget_aput : forall k k' (v : A) l, aget k' (aput k v l) = if k' =? k then Some v else aget k' l.
Proof. intros. unfold aput. cbn [aget]. rewrite aget_adel. destruct (k' =? k); reflexivity. Qed.
(* every write of a store is of this form *)
Lemma aget_set : forall d (a : option A) l s,
  aget s (match a with Some v => aput d v l | None => adel d l end) = if s =? d then a else aget s l.
Proof. intros d [v|] l s; [apply aget_aput|apply aget_adel]. Qed.
End Assoc.

Definition key_inj_kdf (kdf : N -> pw -> list N) : Prop :=
  forall s p p', kdf s p = kdf s p' -> p = p'.
Definition key_inj_hmac (hmac : N -> list N -> list N) : Prop :=
  forall k k' d d', hmac k d = hmac k' d' -> k = k' /\ d = d'.

Lemma ideal_kdf_inj : key_inj_kdf ideal_kdf.
Proof. intros s p p' H. injection H as H. exact H. Qed.
Lemma ideal_hmac_inj : key_inj_hmac ideal_hmac.
Proof. intros k k' d d' H. injection H as H1 H2. split; assumption. Qed.

(* the comparison verify_ctx makes, behind its length guard *)
Lemma bounded_leqb : forall p a b,
  (if too_long p then false else leqb a b) = true <-> a = b /\ too_long p = false.
Proof.
  intros p a b. destruct (too_long p).
  - split; [discriminate|intros [_ H]; discriminate H].
  - rewrite leqb_eq. split; [auto|intros [H _]; exact H].
Qed.

Section Crypto.
Variable kdf : N -> pw -> list N.
Variable hmac : N -> list N -> list N.
Notation seal := (seal kdf hmac).
Notation plain := (plain kdf).
Notation check_cached := (check_cached kdf hmac).

(* completeness needs no assumption on the primitives *)
Lemma check_seal_refl : forall k s p, too_long p = false -> check_cached k (Some (seal k s p)) p = true.
Proof. intros k s p Hl. unfold Model.check_cached. cbn [Model.seal c_kind c_salt c_tag]. apply bounded_leqb. auto. Qed.

Section Inj.
Hypothesis Hkdf : key_inj_kdf kdf.
Hypothesis Hhmac : key_inj_hmac hmac.

Lemma check_seal_iff : forall k k' s p p',
  check_cached k (Some (seal k' s p')) p = true <-> k = k' /\ p = p' /\ too_long p = false.
Proof.
  intros k k' s p p'. unfold Model.check_cached. cbn [Model.seal c_kind c_salt c_tag]. rewrite bounded_leqb. split.
  - intros [H Hl]. apply Hhmac in H as [Hk Hd]. apply Hkdf in Hd. auto.
  - intros (-> & -> & Hl). auto.
Qed.

Lemma check_plain_iff : forall k s p p',
  check_cached k (Some (plain s p')) p = true <-> p = p' /\ too_long p = false.
Proof.
  intros k s p p'. unfold Model.check_cached. cbn [Model.plain c_kind c_salt c_tag]. rewrite bounded_leqb. split.
  - intros [H Hl]. apply Hkdf in H. auto.
  - intros [-> Hl]. auto.
Qed.

Lemma check_other_key : forall k k' s p0 p, k <> k' -> check_cached k (Some (seal k' s p0)) p = false.
Proof.
  intros k k' s p0 p Hn. apply not_true_is_false. rewrite check_seal_iff. intros [Hk _]. contradiction.
Qed.

(* the simulation relation: the token store [sl] and the symbolic store [sp] hold, slot by slot, the same thing *)
Definition crel (c : cred) (ct : content) : Prop :=
  match ct with
  | CtSealed k p => exists s, c = seal k s p
  | CtPlain p => exists s, c = plain s p
  | CtJunk => c_kind c = KJunk
  end.
Definition orel (a : option cred) (b : option content) : Prop :=
  match a, b with
  | Some c, Some ct => crel c ct
  | None, None => True
  | _, _ => False
  end.
Definition frel (sl : list (N * cred)) (sp : list (N * content)) : Prop :=
  forall s, orel (aget s sl) (aget s sp).

Lemma check_content : forall a b k p, orel a b -> check_cached k a p = content_accepts b k p.
Proof.
  intros [c|] [[k' p'|p'|]|] k p H; try contradiction; [| | |reflexivity]; cbn [orel crel] in H.
  - destruct H as [s ->]. apply eq_true_iff_eq. rewrite check_seal_iff.
    cbn [content_accepts]. rewrite !andb_true_iff, N.eqb_eq, leqb_eq, negb_true_iff. tauto.
  - destruct H as [s ->]. apply eq_true_iff_eq. rewrite check_plain_iff.
    cbn [content_accepts]. rewrite !andb_true_iff, leqb_eq, negb_true_iff. tauto.
  - unfold Model.check_cached. rewrite H. reflexivity.
Qed.

Lemma frel_set : forall sl sp d a b, frel sl sp -> orel a b ->
  frel (match a with Some c => aput d c sl | None => adel d sl end)
       (match b with Some c => aput d c sp | None => adel d sp end).
Proof.
  intros sl sp d a b H Hab s. rewrite !aget_set. destruct (s =? d); [exact Hab|apply H].
Qed.

Lemma fstep_rel : forall sl n sp o,
  frel sl sp ->
  frel (fst (fst (fstep kdf hmac (sl, n) o))) (fst (fspec_step sp o))
  /\ snd (fstep kdf hmac (sl, n) o) = snd (fspec_step sp o).
Proof.
  intros sl n sp o H.
  destruct o as [s k p|s p|s|s d|s|s|s k p]; cbn [fstep fspec_step fst snd]; (split; [|try reflexivity]);
    try exact H.
  - apply (frel_set sl sp s (Some _) (Some _) H). exists n. reflexivity.
  - apply (frel_set sl sp s (Some _) (Some _) H). exists n. reflexivity.
  - apply (frel_set sl sp s (Some _) (Some _) H). reflexivity.
  - apply (frel_set sl sp d _ _ H), H.
  - apply (frel_set sl sp s None None H). exact I.
  - pose proof (H s) as Hs. destruct (aget s sl), (aget s sp); try contradiction; reflexivity.
  - f_equal. apply check_content, H.
Qed.

Lemma frun_spec_gen : forall ops sl n sp, frel sl sp -> frun kdf hmac (sl, n) ops = fspec_run sp ops.
Proof.
  induction ops as [|o r IH]; intros sl n sp H; [reflexivity|].
  cbn [frun fspec_run]. pose proof (fstep_rel sl n sp o H) as [Hr Ho].
  destruct (fstep kdf hmac (sl, n) o) as [[sl' n'] ob].
  destruct (fspec_step sp o) as [sp' ob']. cbn [fst snd] in Hr, Ho. subst ob'.
  rewrite (IH sl' n' sp' Hr). reflexivity.
Qed.

Lemma frun_spec : forall ops, frun kdf hmac ([], 0) ops = fspec_run [] ops.
Proof. intro ops. apply frun_spec_gen. intro s. exact I. Qed.

End Inj.

Notation login := (login kdf hmac).
Notation step := (step kdf hmac).

Lemma cred_of_some : forall m u e, aget u (m_cache m) = Some e -> cred_of m u = e_cred e.
Proof. intros m u e H. unfold cred_of. rewrite H. reflexivity. Qed.
Lemma cred_of_put : forall m u e u',
  cred_of (set_cache m (aput u e (m_cache m))) u' = if u' =? u then e_cred e else cred_of m u'.
Proof. intros. unfold cred_of. cbn [set_cache m_cache]. rewrite aget_aput. destruct (u' =? u); reflexivity. Qed.

Definition keeps (m m' : mach) : Prop :=
  m_key m' = m_key m /\ m_net m' = m_net m /\ forall u, cred_of m' u = cred_of m u.
Lemma keeps_refl : forall m, keeps m m.
Proof. intro m. repeat split. Qed.
Lemma keeps_trans : forall a b c, keeps a b -> keeps b c -> keeps a c.
Proof.
  intros a b c (H1 & H2 & H3) (H4 & H5 & H6). split; [congruence|split; [congruence|]]. intro u. rewrite H6. apply H3.
Qed.
Lemma keeps_prov : forall m p, keeps m (set_prov m p).
Proof. intros m p. repeat split. Qed.
Lemma keeps_put : forall m u e, e_cred e = cred_of m u -> keeps m (set_cache m (aput u e (m_cache m))).
Proof.
  intros m u e H. split; [reflexivity|split; [reflexivity|]]. intro u'. rewrite cred_of_put.
  destruct (N.eqb_spec u' u) as [->|_]; [exact H|reflexivity].
Qed.

Lemma attempt_online_keeps : forall m, keeps m (snd (attempt_online m)).
Proof. intro m. unfold attempt_online. destruct (m_net m); apply keeps_prov. Qed.
Lemma attempt_online_net : forall m, fst (attempt_online m) = m_net m.
Proof. intro m. unfold attempt_online. destruct (m_net m); reflexivity. Qed.
Lemma check_online_keeps : forall m, keeps m (snd (check_online m)).
Proof.
  intro m. unfold check_online. destruct (m_prov m); try apply keeps_refl. apply attempt_online_keeps.
Qed.
Lemma check_online_rm_keeps : forall m, keeps m (snd (check_online_right_meow m)).
Proof.
  intro m. unfold check_online_right_meow. destruct (m_prov m); try apply keeps_refl; apply attempt_online_keeps.
Qed.

Definition le_mach (u : user) (m m' : mach) : Prop :=
  m_key m' = m_key m /\ m_net m' = m_net m /\
  forall u', cred_of m' u' = cred_of m u' \/ u' = u /\ cred_of m' u' = None.
Lemma keeps_le : forall u m m', keeps m m' -> le_mach u m m'.
Proof. intros u m m' (Hk & Hn & Hc). repeat split; try assumption. intro u'. left. apply Hc. Qed.
Lemma le_mach_trans : forall u a b c, le_mach u a b -> le_mach u b c -> le_mach u a c.
Proof.
  intros u a b c (H1 & H2 & H3) (H4 & H5 & H6). repeat split; try congruence.
  intro u'. destruct (H6 u') as [E|E]; [rewrite E; apply H3|right; exact E].
Qed.
Lemma le_mach_purge : forall u m nx, le_mach u m (set_nx (set_cache m (adel u (m_cache m))) nx).
Proof.
  intros u m nx. split; [reflexivity|split; [reflexivity|]]. intro u'.
  unfold cred_of. cbn [m_cache set_nx set_cache]. rewrite aget_adel.
  destruct (N.eqb_spec u' u) as [E|_]; [right; split; [exact E|reflexivity]|left; reflexivity].
Qed.

(* the contract of a token lookup for u that started on m; without a token, u's row may have been purged *)
Definition tok_post (u : user) (m : mach) (r : option entry * mach) : Prop :=
  match fst r with
  | Some e => e_cred e = cred_of m u /\ keeps m (snd r)
  | None => le_mach u m (snd r)
  end.

Lemma tok_post_cached : forall u m m', keeps m m' -> tok_post u m (aget u (m_cache m), m').
Proof.
  intros u m m' H. unfold tok_post, cred_of. cbn [fst snd].
  destruct (aget u (m_cache m)); [split; [reflexivity|exact H]|apply keeps_le, H].
Qed.

Lemma refresh_post : forall srv m u, tok_post u m (refresh srv m u (aget u (m_cache m))).
Proof.
  intros srv m u. unfold refresh.
  pose proof (check_online_keeps m) as Hs. destruct (check_online m) as [on m1]. cbn [snd] in Hs.
  destruct on; cbn [negb]; [|apply tok_post_cached, Hs].
  destruct (m_net m1); cbn [negb]; [|apply tok_post_cached, (keeps_trans _ _ _ Hs), keeps_prov].
  destruct (aget u srv) as [_|].
  - (* Update: the new row carries the old row's credential, which is [cred_of m u] *)
    split; [reflexivity|]. apply (keeps_trans _ _ _ Hs), keeps_put. symmetry. apply Hs.
  - apply (le_mach_trans _ _ m1); [apply keeps_le, Hs|apply le_mach_purge].
Qed.

Lemma get_usertoken_post : forall srv m u, tok_post u m (get_usertoken srv m u).
Proof.
  intros srv m u. unfold get_usertoken.
  destruct (nmem u (m_nx m)); [apply keeps_le, keeps_refl|].
  pose proof (refresh_post srv m u) as Hr. pose proof (tok_post_cached u m m (keeps_refl m)) as Hc.
  destruct (aget u (m_cache m)) as [e|]; [destruct (e_fresh e)|]; assumption.
Qed.

Definition login_post (srv : srvmap) (salt : N) (m : mach) (u : user) (p : pw)
  (r : res) (ev : event) (m' : mach) (salt' : N) : Prop :=
  match ev with
  | EvOnlineOk =>
      r = RSome true /\ salt' = salt + 1 /\ aget u srv = Some p /\ m_net m = true /\
      m_key m' = m_key m /\ cred_of m' u = Some (seal (m_key m) salt p) /\
      (forall u', u' <> u -> cred_of m' u' = cred_of m u')
  | EvOfflineOk =>
      r = RSome true /\ salt' = salt /\ check_cached (m_key m) (cred_of m u) p = true /\ keeps m m'
  | _ => r <> RSome true /\ salt' = salt /\ le_mach u m m'
  end.

Lemma login_idle : forall srv salt m u p r ev m',
  le_mach u m m' -> r <> RSome true -> ev <> EvOnlineOk -> ev <> EvOfflineOk ->
  login_post srv salt m u p r ev m' salt.
Proof. intros srv salt m u p r ev m' Hle Hr H1 H2. destruct ev; try congruence; cbn [login_post]; auto. Qed.

Lemma login_contract : forall srv salt m u p,
  let '(r, ev, m', salt') := login srv salt m u p in login_post srv salt m u p r ev m' salt'.
Proof.
  intros srv salt m u p. unfold Model.login.
  pose proof (get_usertoken_post srv m u) as Ht.
  destruct (get_usertoken srv m u) as [[e|] m1]; unfold tok_post in Ht; cbn [fst snd] in Ht.
  2:{ pose proof (check_online_rm_keeps m1) as Hs. destruct (check_online_right_meow m1) as [b m2].
      apply login_idle; try discriminate. apply (le_mach_trans _ _ m1); [exact Ht|apply keeps_le, Hs]. }
  destruct Ht as [Hec H1].
  assert (Hs : keeps m (snd (match e_cred e with
                             | Some _ => (is_online m1, m1)
                             | None => check_online_right_meow m1 end))).
  { apply (keeps_trans _ _ _ H1). destruct (e_cred e); [apply keeps_refl|apply check_online_rm_keeps]. }
  destruct (match e_cred e with Some _ => (is_online m1, m1) | None => check_online_right_meow m1 end) as [on m2].
  cbn [snd] in Hs. pose proof (keeps_le u _ _ Hs) as Hle. pose proof Hs as (Hk & Hn & Hc).
  destruct on.
  - destruct (m_net m2) eqn:En; cbn [negb]; [|apply login_idle; [exact Hle|discriminate..]].
    destruct (aget u srv) as [sp|] eqn:Es; [|apply login_idle; [exact Hle|discriminate..]].
    destruct (leqb p sp) eqn:El; [|apply login_idle; [exact Hle|discriminate..]].
    apply leqb_eq in El. subst sp. cbn [login_post].
    split; [reflexivity|]. split; [reflexivity|]. split; [exact Es|]. split; [congruence|]. split; [exact Hk|]. split.
    + rewrite cred_of_put, N.eqb_refl, Hk. reflexivity.
    + intros u' Hu. apply N.eqb_neq in Hu. rewrite cred_of_put, Hu. apply Hc.
  - destruct (e_cred e) as [c|]; [|apply login_idle; [exact Hle|discriminate..]].
    destruct (check_cached (m_key m2) (Some c) p) eqn:Ech; [|apply login_idle; [exact Hle|discriminate..]].
    cbn [login_post]. split; [reflexivity|]. split; [reflexivity|]. split; [congruence|].
    apply (keeps_trans _ _ _ Hs), keeps_put. cbn [e_cred]. congruence.
Qed.

Section Keys.
Variables k0 k1 : N.
Notation keyof := (Model.keyof k0 k1).

(* what the credential [c] in the slot of user u on machine m can be: a sealing by some machine m'
   of a password verified online for u on m'; in a slot not tampered with since its last online
   verification, m' is this machine and the password is the most recent one *)
Definition slot_ok (g : ghost) (m : bool) (u : user) (c : cred) : Prop :=
  exists m' s p, c = seal (keyof m') s p /\ In (m', u, p) (g_ver g) /\
    (is_dirty g m u = false -> m' = m /\ lastv (g_ver g) m u = Some p).

Definition Inv (sg : state * ghost) : Prop :=
  let '(st, g) := sg in
  (forall m, m_key (sel st m) = keyof m) /\
  (forall m u c, cred_of (sel st m) u = Some c -> slot_ok g m u c).

Lemma sel_upd : forall st m x m', sel (upd st m x) m' = if Bool.eqb m' m then x else sel st m'.
Proof. intros st [|] x [|]; reflexivity. Qed.

Lemma same_slot_true : forall m u m' u', same_slot m u (m', u') = true <-> m = m' /\ u = u'.
Proof.
  intros m u m' u'. unfold same_slot. cbn [fst snd]. rewrite andb_true_iff, N.eqb_eq, eqb_true_iff. reflexivity.
Qed.

Lemma is_dirty_In : forall g m u, In (m, u) (g_dirty g) -> is_dirty g m u = true.
Proof.
  intros g m u H. apply existsb_exists. exists (m, u). split; [exact H|]. apply same_slot_true. auto.
Qed.

Lemma is_dirty_filter : forall dl m u m' u',
  same_slot m' u' (m, u) = false ->
  existsb (same_slot m' u') (filter (fun y => negb (same_slot m u y)) dl) = existsb (same_slot m' u') dl.
Proof.
  intros dl m u m' u' Hn. induction dl as [|[a b] r IH]; [reflexivity|].
  cbn [filter existsb]. destruct (same_slot m u (a, b)) eqn:E; cbn [negb existsb]; rewrite IH; [|reflexivity].
  apply same_slot_true in E as [<- <-]. rewrite Hn. reflexivity.
Qed.

Lemma In_lastv : forall ver m u p, lastv ver m u = Some p -> In (m, u, p) ver.
Proof.
  induction ver as [|[[m' u'] p'] r IH]; intros m u p H; cbn [lastv] in H; [discriminate|].
  destruct (Bool.eqb m m' && (u =? u')) eqn:E.
  - injection H as H. subst p'. apply andb_true_iff in E as [E1 E2].
    apply eqb_prop in E1. apply N.eqb_eq in E2. subst. left. reflexivity.
  - right. apply IH. exact H.
Qed.

Lemma cred_of_invalidate : forall x u,
  cred_of (set_nx (set_cache x (map (fun '(u, e) => (u, mkentry false (e_cred e))) (m_cache x))) []) u = cred_of x u.
Proof.
  intros x u. unfold cred_of. cbn [m_cache set_nx set_cache].
  induction (m_cache x) as [|[k e] r IH]; cbn [map aget]; [reflexivity|]. destruct (u =? k); [reflexivity|exact IH].
Qed.

(* provenance does not depend on the machine, and a dirty slot promises nothing more *)
Lemma slot_ok_dirty : forall g m m' u c, slot_ok g m' u c -> is_dirty g m u = true -> slot_ok g m u c.
Proof.
  intros g m m' u c (m0 & s & p & Hc & Hin & _) Hd. exists m0, s, p. repeat split; try assumption; congruence.
Qed.

Lemma Inv_dirty : forall st g dl, Inv (st, g) -> Inv (st, mkghost (g_ver g) (dl ++ g_dirty g)).
Proof.
  intros st g dl [Hk Hs]. split; [exact Hk|]. intros m u c H.
  destruct (Hs m u c H) as (m' & s & p & Hc & Hin & Hcl). exists m', s, p. split; [exact Hc|]. split; [exact Hin|].
  intro Hd. apply Hcl. unfold is_dirty in *. cbn [g_dirty] in Hd. rewrite existsb_app in Hd.
  apply orb_false_elim in Hd as [_ Hd]. exact Hd.
Qed.

(* machine m went from [old], beside [other], to [new] *)
Definition moved (g : ghost) (m : bool) (old other new : mach) : Prop :=
  m_key new = m_key old /\
  forall u, cred_of new u = cred_of old u \/ cred_of new u = None \/
            is_dirty g m u = true /\ cred_of new u = cred_of other u.

Lemma moved_same : forall g m old other new,
  m_key new = m_key old -> (forall u, cred_of new u = cred_of old u) -> moved g m old other new.
Proof. intros g m old other new Hk Hc. split; [exact Hk|]. intro u. left. apply Hc. Qed.

Lemma moved_le_mach : forall g m u old other new, le_mach u old new -> moved g m old other new.
Proof.
  intros g m u old other new (Hk & _ & Hc). split; [exact Hk|]. intro u'. destruct (Hc u') as [E|[_ E]]; auto.
Qed.

Lemma moved_put : forall g m old other u fr e,
  is_dirty g m u = true -> aget u (m_cache other) = Some e ->
  moved g m old other (set_cache old (aput u (mkentry fr (e_cred e)) (m_cache old))).
Proof.
  intros g m old other u fr e Hd He. split; [reflexivity|]. intro u'. rewrite cred_of_put.
  destruct (N.eqb_spec u' u) as [->|_]; [|left; reflexivity].
  right; right. split; [exact Hd|]. exact (eq_sym (cred_of_some _ _ _ He)).
Qed.

Lemma Inv_move : forall st st' g,
  Inv (st, g) -> (forall m, moved g m (sel st m) (sel st (negb m)) (sel st' m)) -> Inv (st', g).
Proof.
  intros st st' g [Hk Hs] Hm. split; intro m; destruct (Hm m) as [Hk' Hc].
  - rewrite Hk'. apply Hk.
  - intros u c H. destruct (Hc u) as [E|[E|[Hd E]]]; rewrite E in H.
    + apply Hs, H.
    + discriminate.
    + apply (slot_ok_dirty g m (negb m)); [apply Hs, H|exact Hd].
Qed.

Lemma Inv_upd : forall st g m x,
  Inv (st, g) -> moved g m (sel st m) (sel st (negb m)) x -> Inv (upd st m x, g).
Proof.
  intros st g m x HI Hx. apply Inv_move with st; [exact HI|]. intro m'. rewrite sel_upd.
  destruct (Bool.eqb_spec m' m) as [->|_]; [exact Hx|apply moved_same; reflexivity].
Qed.

(* the step that extends the verification log: the server verified p for u on m, and m sealed it *)
Section Verified.
Variables (g : ghost) (m : bool) (u : user) (p : pw) (r : res).
Notation g' := (gstep g (OLogin m u p) (Some (r, EvOnlineOk))).

Lemma slot_ok_verified : forall s, slot_ok g' m u (seal (keyof m) s p).
Proof.
  intro s. exists m, s, p. split; [reflexivity|]. split; [left; reflexivity|]. intros _. split; [reflexivity|].
  cbn [gstep g_ver lastv]. rewrite eqb_reflx, N.eqb_refl. reflexivity.
Qed.

Lemma slot_ok_elsewhere : forall m' u' c, m' <> m \/ u' <> u -> slot_ok g m' u' c -> slot_ok g' m' u' c.
Proof.
  intros m' u' c Hne (m0 & s & p0 & Hc & Hin & Hcl).
  assert (E : same_slot m' u' (m, u) = false) by (apply not_true_is_false; rewrite same_slot_true; tauto).
  exists m0, s, p0. split; [exact Hc|]. split; [right; exact Hin|]. intro Hd.
  unfold is_dirty in Hd. cbn [gstep g_dirty] in Hd. rewrite (is_dirty_filter _ _ _ _ _ E) in Hd.
  destruct (Hcl Hd) as [Hm Hl]. split; [exact Hm|].
  cbn [gstep g_ver lastv]. change (Bool.eqb m' m && (u' =? u)) with (same_slot m' u' (m, u)). rewrite E. exact Hl.
Qed.

Lemma Inv_verified : forall st s x,
  Inv (st, g) -> m_key x = m_key (sel st m) ->
  cred_of x u = Some (seal (m_key (sel st m)) s p) ->
  (forall u', u' <> u -> cred_of x u' = cred_of (sel st m) u') ->
  Inv (upd st m x, g').
Proof.
  intros st s x [Hk Hs] Hkx Hnew Hox. split; intro m'; rewrite sel_upd; destruct (Bool.eqb_spec m' m) as [->|Hm].
  - rewrite Hkx. apply Hk.
  - apply Hk.
  - intros u' c H. destruct (N.eq_dec u' u) as [->|Hu].
    + rewrite Hnew, Hk in H. injection H as <-. apply slot_ok_verified.
    + rewrite Hox in H by exact Hu. apply slot_ok_elsewhere; [right; exact Hu|apply Hs, H].
  - intros u' c H. apply slot_ok_elsewhere; [left; exact Hm|apply Hs, H].
Qed.
End Verified.

Lemma Inv_swap : forall st g u, Inv (st, g) -> Inv (gstep_full kdf hmac (st, g) (OSwap u)).
Proof.
  intros st g u HI. apply (Inv_dirty st g [(false, u); (true, u)]) in HI.
  unfold gstep_full. cbn [fst snd step].
  destruct (aget u (m_cache (s_m0 st))) as [ea|] eqn:Ea; [|exact HI].
  destruct (aget u (m_cache (s_m1 st))) as [eb|] eqn:Eb; [|exact HI].
  apply Inv_move with st; [exact HI|]. intros [|]; cbn [sel s_m0 s_m1 negb]; apply moved_put.
  - apply is_dirty_In. right. left. reflexivity.
  - exact Ea.
  - apply is_dirty_In. left. reflexivity.
  - exact Eb.
Qed.

Lemma Inv_steal : forall st g m u, Inv (st, g) -> Inv (gstep_full kdf hmac (st, g) (OSteal m u)).
Proof.
  intros st g m u HI. apply (Inv_dirty st g [(m, u)]) in HI.
  unfold gstep_full. cbn [fst snd step].
  destruct (aget u (m_cache (sel st m))) as [em|]; [|exact HI].
  destruct (aget u (m_cache (sel st (negb m)))) as [eo|] eqn:Eo; [|exact HI].
  apply Inv_upd; [exact HI|]. apply moved_put; [|exact Eo]. apply is_dirty_In. left. reflexivity.
Qed.

Lemma Inv_login : forall st g m u p, Inv (st, g) -> Inv (gstep_full kdf hmac (st, g) (OLogin m u p)).
Proof.
  intros st g m u p HI. unfold gstep_full. cbn [fst snd step].
  pose proof (login_contract (s_srv st) (s_salt st) (sel st m) u p) as Hl.
  destruct (login (s_srv st) (s_salt st) (sel st m) u p) as [[[r ev] x] salt'].
  (* the new salt counter is of no concern *)
  apply Inv_move with (upd st m x); [|intros [|]; apply moved_same; reflexivity].
  destruct ev; cbn [gstep login_post] in *;
    try (* nothing sealed, the log stays *) (apply Inv_upd; [exact HI|apply (moved_le_mach _ _ u), Hl]).
  - destruct Hl as (_ & _ & _ & _ & Hk & Hnew & Hox). apply (Inv_verified g m u p r st (s_salt st)); assumption.
  - apply Inv_upd; [exact HI|apply (moved_le_mach _ _ u), keeps_le, Hl].
Qed.

Lemma Inv_step : forall sg o, Inv sg -> Inv (gstep_full kdf hmac sg o).
Proof.
  intros [st g] o HI. destruct o as [u [p|]|m b|m|m|m|u|m u|m u p].
  1-6: unfold gstep_full; cbn [fst snd step gstep].
  1-2: (* only the server changes *) apply Inv_move with st; [exact HI|intros [|]; apply moved_same; reflexivity].
  1-3: (* network and provider state *) apply Inv_upd; [exact HI|apply moved_same; reflexivity].
  - apply Inv_upd; [exact HI|apply moved_same; [reflexivity|apply cred_of_invalidate]].
  - apply Inv_swap, HI.
  - apply Inv_steal, HI.
  - apply Inv_login, HI.
Qed.

Lemma Inv_init : Inv (init_k k0 k1, mkghost [] []).
Proof. split; [intros [|]; reflexivity|intros [|] u c H; discriminate]. Qed.

Lemma reach_Inv : forall ops st g, reach kdf hmac k0 k1 ops = (st, g) -> Inv (st, g).
Proof.
  intros ops st g <-. unfold reach. generalize (Inv_init). generalize (init_k k0 k1, mkghost [] []).
  induction ops as [|o r IH]; intros sg H; [exact H|]. apply IH, Inv_step, H.
Qed.

Lemma keyof_inj : k0 <> k1 -> forall m m', keyof m = keyof m' -> m = m'.
Proof. intros Hn [|] [|] H; cbn [Model.keyof] in H; try reflexivity; [symmetry in H|]; contradiction. Qed.

(* [keyof m = keyof m'], not [m = m']: k0 <> k1 is not assumed here *)
Lemma offline_accepted : key_inj_kdf kdf -> key_inj_hmac hmac ->
  forall ops st g m u p, reach kdf hmac k0 k1 ops = (st, g) ->
  offline_accepts kdf hmac st m u p = true ->
  exists m' s, cred_of (sel st m) u = Some (seal (keyof m') s p) /\ keyof m = keyof m' /\
    In (m', u, p) (g_ver g) /\ (is_dirty g m u = false -> m' = m /\ lastv (g_ver g) m u = Some p).
Proof.
  intros Hkdf Hhmac ops st g m u p Hr Ha. destruct (reach_Inv ops st g Hr) as [Hk Hs].
  unfold offline_accepts in Ha. destruct (cred_of (sel st m) u) as [c|] eqn:Hcr; [|discriminate].
  destruct (Hs m u c Hcr) as (m' & s & p' & -> & Hin & Hcl). rewrite Hk in Ha.
  apply (check_seal_iff Hkdf Hhmac) in Ha as (Hkk & <- & _). exists m', s. auto.
Qed.

Lemma offline_machine_bound : key_inj_kdf kdf -> key_inj_hmac hmac -> k0 <> k1 ->
  forall ops st g m u s p0, reach kdf hmac k0 k1 ops = (st, g) ->
  cred_of (sel st m) u = Some (seal (keyof (negb m)) s p0) ->
  forall p, offline_accepts kdf hmac st m u p = false.
Proof.
  intros Hkdf Hhmac Hn ops st g m u s p0 Hr Hcr p. destruct (reach_Inv ops st g Hr) as [Hk _].
  unfold offline_accepts. rewrite Hcr, Hk.
  apply (check_other_key Hkdf Hhmac). intro E. apply (keyof_inj Hn) in E. destruct m; discriminate.
Qed.

Lemma offline_complete :
  forall ops st g m u c p, reach kdf hmac k0 k1 ops = (st, g) ->
  is_dirty g m u = false -> cred_of (sel st m) u = Some c ->
  lastv (g_ver g) m u = Some p -> too_long p = false ->
  offline_accepts kdf hmac st m u p = true.
Proof.
  intros ops st g m u c p Hr Hd Hcr Hl Ht. destruct (reach_Inv ops st g Hr) as [Hk Hs].
  destruct (Hs m u c Hcr) as (m' & s & p' & -> & _ & Hcl). destruct (Hcl Hd) as [-> Hl'].
  assert (p' = p) as -> by congruence.
  unfold offline_accepts. rewrite Hcr, Hk. apply check_seal_refl, Ht.
Qed.

Lemma login_accept : key_inj_kdf kdf -> key_inj_hmac hmac -> k0 <> k1 ->
  forall ops st g m u p r ev x salt', reach kdf hmac k0 k1 ops = (st, g) ->
  login (s_srv st) (s_salt st) (sel st m) u p = (r, ev, x, salt') ->
  r = RSome true ->
  (ev = EvOnlineOk /\ m_net (sel st m) = true /\ aget u (s_srv st) = Some p) \/
  (ev = EvOfflineOk /\ offline_accepts kdf hmac st m u p = true /\
   In (m, u, p) (g_ver g) /\ (is_dirty g m u = false -> lastv (g_ver g) m u = Some p)).
Proof.
  intros Hkdf Hhmac Hn ops st g m u p r ev x salt' Hr Hl Hacc.
  pose proof (login_contract (s_srv st) (s_salt st) (sel st m) u p) as Hc. rewrite Hl in Hc.
  destruct ev; cbn [login_post] in Hc; try (destruct Hc as [Hne _]; contradiction).
  - left. destruct Hc as (_ & _ & Hs & Hnet & _). auto.
  - right. destruct Hc as (_ & _ & Hch & _).
    destruct (offline_accepted Hkdf Hhmac ops st g m u p Hr Hch) as (m' & s & _ & Hk & Hin & Hcl).
    apply (keyof_inj Hn) in Hk as <-. repeat split; try assumption. intro Hd. apply Hcl, Hd.
Qed.

Lemma ver_log_step : forall sg o,
  let sg' := gstep_full kdf hmac sg o in
  (exists m u p salt' x, o = OLogin m u p /\
     login (s_srv (fst sg)) (s_salt (fst sg)) (sel (fst sg) m) u p = (RSome true, EvOnlineOk, x, salt') /\
     g_ver (snd sg') = (m, u, p) :: g_ver (snd sg))
  \/ g_ver (snd sg') = g_ver (snd sg).
Proof.
  intros [st g] o. cbn zeta. unfold gstep_full. cbn [fst snd].
  destruct o as [u [p|]|m b|m|m|m|u|m u|m u p]; cbn [step gstep]; try (right; reflexivity).
  - destruct (aget u (m_cache (s_m0 st))), (aget u (m_cache (s_m1 st))); right; reflexivity.
  - destruct (aget u (m_cache (sel st m))), (aget u (m_cache (sel st (negb m)))); right; reflexivity.
  - pose proof (login_contract (s_srv st) (s_salt st) (sel st m) u p) as Hc.
    destruct (login (s_srv st) (s_salt st) (sel st m) u p) as [[[r ev] x] salt'] eqn:El.
    destruct ev; cbn [gstep]; try (right; reflexivity).
    left. destruct Hc as [-> _]. exists m, u, p, salt', x. auto.
Qed.

End Keys.
End Crypto.
