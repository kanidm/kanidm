(* C44: while the identity server is unreachable, the client resolver accepts a password for a
   user only if it equals the most recent password verified online for that user on this
   machine, and only if the cached credential was sealed with this machine's hardware-bound key.

   * [kdf salt pw] = Argon2id, [hmac key d] = the TPM's HMAC-SHA256; the soundness theorems take
     their injectivity ([key_inj_kdf]: in the password at a fixed salt; [key_inj_hmac]: jointly in
     key and message) as explicit premises (a modelling assumption about the primitives); the
     completeness theorems need nothing.
   * [reach kdf hmac k0 k1 ops] = the state of two machines (HMAC keys k0, k1) and the server
     after ANY finite history [ops] of: server password changes / account removals, network
     down/up per machine, mark_offline, mark_next_check_now, invalidate, logins, and the two
     TAMPER ops that move a user's cached credential between the machines' cache databases;
     together with the ghost log [g_ver] of online verifications (machine, user, password; newest
     first — it grows exactly when the server itself verified the password, [C44_ver_log]) and
     the set [g_dirty] of slots a tamper op wrote since their last online verification.
   * [offline_accepts st m u p] = the decision kanidm_check_cached_password takes for the cached
     credential of user u on machine m; by [C44_login_accept] every accepted login that the server
     did not verify was accepted by it. *)
From Coq Require Import List NArith Bool.
Import ListNotations.
Require Import KV.C44.Model KV.C44.Proofs.
Open Scope N_scope.

(* A credential sealed by kanidm_update_cached_password with key k' for
   password p' verifies under key k for candidate p exactly when k = k', p = p' and p is not
   longer than 512 bytes. *)
Theorem C44_check_sealed_iff : forall kdf hmac, key_inj_kdf kdf -> key_inj_hmac hmac ->
  forall k k' s p p',
  check_cached kdf hmac k (Some (seal kdf hmac k' s p')) p = true
  <-> k = k' /\ p = p' /\ too_long p = false.
Proof. intros kdf hmac H1 H2. exact (check_seal_iff kdf hmac H1 H2). Qed.

(* Machine binding, function level: under any other key the credential verifies for NO password. *)
Theorem C44_other_key_rejects : forall kdf hmac, key_inj_kdf kdf -> key_inj_hmac hmac ->
  forall k k' s p0 p, k <> k' -> check_cached kdf hmac k (Some (seal kdf hmac k' s p0)) p = false.
Proof. intros kdf hmac H1 H2. exact (check_other_key kdf hmac H1 H2). Qed.

(* Function level, all op sequences (seal with any key, plant a plain / junk credential, move,
   clear, has, check): the observable answers are those of the symbolic content tracker
   [fspec_run]: a check succeeds iff the slot's content was sealed with the SAME key for the SAME
   password (<= 512 bytes) — or is a planted non-TPM credential for that password, which
   kanidm_check_cached_password also accepts (never written by the resolver itself). *)
Theorem C44_fn_refines_spec : forall kdf hmac, key_inj_kdf kdf -> key_inj_hmac hmac ->
  forall ops, frun kdf hmac ([], 0) ops = fspec_run [] ops.
Proof. intros kdf hmac H1 H2. exact (frun_spec kdf hmac H1 H2). Qed.

(* After any history, for a slot no tamper op wrote since its last online
   verification: if the offline check accepts p for user u on machine m, then p is the password
   of the MOST RECENT online verification of u on m. *)
Theorem C44_last_online : forall kdf hmac, key_inj_kdf kdf -> key_inj_hmac hmac ->
  forall k0 k1 ops st g m u p,
  reach kdf hmac k0 k1 ops = (st, g) ->
  is_dirty g m u = false ->
  offline_accepts kdf hmac st m u p = true ->
  lastv (g_ver g) m u = Some p.
Proof.
  intros kdf hmac H1 H2 k0 k1 ops st g m u p Hr Hd Ha.
  destruct (offline_accepted kdf hmac k0 k1 H1 H2 ops st g m u p Hr Ha) as (m' & s & _ & _ & _ & Hcl). apply Hcl, Hd.
Qed.

(* Tampering included: after any history — cached credentials swapped / copied
   between the machines at will — if the offline check accepts p for u on m, then p WAS verified
   online for u on THIS machine at some earlier point, and the credential in the slot is a
   sealing of p under this machine's key. *)
Theorem C44_offline_only_verified_here : forall kdf hmac, key_inj_kdf kdf -> key_inj_hmac hmac ->
  forall k0 k1, k0 <> k1 -> forall ops st g m u p,
  reach kdf hmac k0 k1 ops = (st, g) ->
  offline_accepts kdf hmac st m u p = true ->
  In (m, u, p) (g_ver g) /\
  exists s, cred_of (sel st m) u = Some (seal kdf hmac (keyof k0 k1 m) s p).
Proof.
  intros kdf hmac H1 H2 k0 k1 Hn ops st g m u p Hr Ha.
  destruct (offline_accepted kdf hmac k0 k1 H1 H2 ops st g m u p Hr Ha) as (m' & s & Hcr & Hk & Hin & _).
  apply (keyof_inj k0 k1 Hn) in Hk as <-. eauto.
Qed.

(* Machine binding, resolver level: if the slot of u on m holds a credential sealed by the OTHER
   machine (however it got there), the offline check on m rejects every password. *)
Theorem C44_machine_bound : forall kdf hmac, key_inj_kdf kdf -> key_inj_hmac hmac ->
  forall k0 k1, k0 <> k1 -> forall ops st g m u s p0,
  reach kdf hmac k0 k1 ops = (st, g) ->
  cred_of (sel st m) u = Some (seal kdf hmac (keyof k0 k1 (negb m)) s p0) ->
  forall p, offline_accepts kdf hmac st m u p = false.
Proof. intros kdf hmac H1 H2 k0 k1 Hn. exact (offline_machine_bound kdf hmac k0 k1 H1 H2 Hn). Qed.

(* Every accepted login, in every reachable state, is of one of two kinds: the server itself
   verified the password just now (it was reachable and holds exactly this password), or the
   login was decided by the offline check — and then the password was verified online for this
   user on this machine before, and is the most recent such password unless the slot was
   tampered with since. *)
Theorem C44_login_accept : forall kdf hmac, key_inj_kdf kdf -> key_inj_hmac hmac ->
  forall k0 k1, k0 <> k1 -> forall ops st g m u p r ev x salt',
  reach kdf hmac k0 k1 ops = (st, g) ->
  login kdf hmac (s_srv st) (s_salt st) (sel st m) u p = (r, ev, x, salt') ->
  r = RSome true ->
  (ev = EvOnlineOk /\ m_net (sel st m) = true /\ aget u (s_srv st) = Some p) \/
  (ev = EvOfflineOk /\ offline_accepts kdf hmac st m u p = true /\
   In (m, u, p) (g_ver g) /\ (is_dirty g m u = false -> lastv (g_ver g) m u = Some p)).
Proof. intros kdf hmac H1 H2 k0 k1 Hn. exact (login_accept kdf hmac k0 k1 H1 H2 Hn). Qed.

(* the ghost log is what it claims to be: one step extends it by (m, u, p) only if the step is a
   login of u with p on m that the SERVER verified (accepted, event EvOnlineOk); otherwise it is
   unchanged *)
Theorem C44_ver_log : forall kdf hmac sg o,
  let sg' := gstep_full kdf hmac sg o in
  (exists m u p salt' x, o = OLogin m u p /\
     login kdf hmac (s_srv (fst sg)) (s_salt (fst sg)) (sel (fst sg) m) u p = (RSome true, EvOnlineOk, x, salt') /\
     g_ver (snd sg') = (m, u, p) :: g_ver (snd sg))
  \/ g_ver (snd sg') = g_ver (snd sg).
Proof. exact ver_log_step. Qed.

(* Completeness (no assumption on the primitives): an untampered slot that still holds a
   credential accepts the most recent online-verified password, provided it is <= 512 bytes. *)
Theorem C44_offline_complete : forall kdf hmac k0 k1 ops st g m u c p,
  reach kdf hmac k0 k1 ops = (st, g) ->
  is_dirty g m u = false -> cred_of (sel st m) u = Some c ->
  lastv (g_ver g) m u = Some p -> too_long p = false ->
  offline_accepts kdf hmac st m u p = true.
Proof. intros kdf hmac k0 k1. exact (offline_complete kdf hmac k0 k1). Qed.

(* the symbolic instance used by the correspondence satisfies the premises *)
Theorem C44_ideal_instance : key_inj_kdf ideal_kdf /\ key_inj_hmac ideal_hmac.
Proof. split; [exact ideal_kdf_inj|exact ideal_hmac_inj]. Qed.

(* Function level: where the model agrees with the implementation, the implementation's
   answers are those of the symbolic content tracker. *)
Theorem C44_agree_implies_property_fn : forall ops impl,
  agree (CFn ops impl) = true -> pcheck (CFn ops impl) = true.
Proof.
  intros ops impl H. cbn [agree pcheck] in *.
  rewrite (frun_spec ideal_kdf ideal_hmac ideal_kdf_inj ideal_hmac_inj) in H. exact H.
Qed.
