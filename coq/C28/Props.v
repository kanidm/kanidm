(* Time is in nanoseconds (a Rust Duration); `secs t = t / G` is Duration::as_secs.
   `exec s l` is the list of observations (outcome, lock state, last_expire_at) the server's
   consultation discipline produces on lock s for the consultations l; an event
   `Ev ct exp bad` is one consultation at instant ct with the account's soft-lock expiry
   attribute exp, presenting a wrong (bad = true) or right credential.
   "quiet" = no NEW administrator expiry (none, or the one the lock already consumed);
   "mono"  = the instants never go backwards. *)
From Coq Require Import List NArith Bool Lia.
Import ListNotations.
Require Import KV.C28.Model KV.C28.Proofs.
Open Scope N_scope.

(* Sentence 1 of the property, "after a failed attempt the credential is refused until its unlock
   time", in full, for EVERY lock state s (reachable or not) and every policy: if a
   consultation e fails and arms the lock with unlock time u, then u lies strictly after
   the attempt, not beyond reset_at, and every following consultation at an instant <= u
   (any number of them, wrong or right credential, no new administrator expiry) is refused
   without a credential check and leaves the lock exactly as it is. *)
Theorem C28_locked_until_unlock : forall s e s' c r u l, policy_ok (pol s) = true ->
  attempt s e = (s', Failed) -> st s' = Locked c r u ->
  (forall e2, In e2 l -> ev_ct e2 <= u /\ quiet_for (last_exp s') e2 = true) ->
  ev_ct e < u /\ u <= r /\
  forall ob, In ob (exec s' l) -> ob = (Refused, Locked c r u, last_exp s').
Proof.
  intros s e s' c r u l Hok Ha Hs Hl.
  pose proof (attempt_failed s e s' Hok Ha) as Hf. rewrite Hs in Hf.
  split; [apply Hf|]. split; [apply Hf|].
  apply (locked_until_min s' c r u l Hs). intros e2 He2. destruct (Hl e2 He2). split; [lia|assumption].
Qed.

(* Over reachable locks, in the shape of the original sentence: after any history l1 and a
   failing consultation e.  Of the conclusion above it keeps only that every following
   consultation is refused. *)
Definition C28_full_statement : Prop :=
  forall p l1 e s' c r u l2, policy_ok p = true ->
    attempt (final (new p) l1) e = (s', Failed) -> st s' = Locked c r u ->
    (forall e2, In e2 l2 -> ev_ct e2 <= u /\ quiet_for (last_exp s') e2 = true) ->
    forall ob, In ob (exec s' l2) -> fst (fst ob) = Refused.

Theorem C28_full_statement_holds : C28_full_statement.
Proof.
  intros p l1 e s' c r u l2 Hok Ha Hs Hl ob Hin.
  assert (Hp : policy_ok (pol (final (new p) l1)) = true) by (rewrite final_pol; exact Hok).
  destruct (C28_locked_until_unlock _ e s' c r u l2 Hp Ha Hs Hl) as (_ & _ & H).
  rewrite (H ob Hin). reflexivity.
Qed.

(* any locked state (also one whose reset_at an administrator expiry has pulled in) stays
   refused and unchanged up to min(unlock_at, reset_at) *)
Theorem C28_locked_state_stays_locked : forall s c r u l,
  st s = Locked c r u ->
  (forall e, In e l -> ev_ct e <= N.min u r /\ quiet_for (last_exp s) e = true) ->
  forall ob, In ob (exec s l) -> ob = (Refused, Locked c r u, last_exp s).
Proof. exact locked_until_min. Qed.

(* without administrator expiry, every lock that a history produces has unlock_at <= reset_at *)
Theorem C28_unlock_never_beyond_reset : forall p l, quiet_all 0 l = true ->
  lock_wf (st (final (new p) l)).
Proof. intros p l Hq. apply (final_lock_wf l (new p)); [exact I|exact Hq]. Qed.

(* THE DEFECT THIS CHECK FOUND (fixed in /repo commit 5cd0e73).  Before the fix reset_at was
   the bare window end (failure_next_state_prefix), and the same sentence was false: a lock
   whose unlock time lay beyond its window's reset time was re-opened by the window reset.
   Witness: a password credential with 3 failures in the day fails again 2 s before midnight
   UTC (3 s delay => unlock 1 s after midnight, reset at midnight); a consultation AT the
   unlock instant was let through.  Confirmed on the real server before the fix. *)
Definition C28_prefix_statement : Prop :=
  forall p l1 e s' c r u l2, policy_ok p = true ->
    attempt_prefix (final_prefix (new p) l1) e = (s', Failed) -> st s' = Locked c r u ->
    (forall e2, In e2 l2 -> ev_ct e2 <= u /\ quiet_for (last_exp s') e2 = true) ->
    forall ob, In ob (exec_prefix s' l2) -> fst (fst ob) = Refused.

Theorem C28_prefix_refuted : ~ C28_prefix_statement.
Proof.
  intros H.
  pose (t := fun s : N => s * G).
  specialize (H PPassword
    [Ev (t 86380) None true; Ev (t 86382) None true; Ev (t 86384) None true]
    (Ev (t 86398) None true)
    (mk (Locked 4 (t 86400) (t 86401)) PPassword 0) 4 (t 86400) (t 86401)
    [Ev (t 86401) None false] eq_refl).
  assert (H1 : fst (fst (Passed, Init, 0)) = Refused).
  { apply H.
    - vm_compute. reflexivity.
    - reflexivity.
    - intros e2 [<-|[]]. split; [vm_compute; discriminate|reflexivity].
    - vm_compute. left. reflexivity. }
  discriminate H1.
Qed.

(* a wrong credential always arms a lock that ends strictly later than the attempt
   (at least 1 s later below the cap, see C28_next_state_spec) — except for the
   unrestricted (anonymous) policy, which never locks.  The hypothesis is_valid s = true only
   names the situation in which the server records a failure; the proof does not use it. *)
Theorem C28_failure_locks : forall s ct, policy_ok (pol s) = true -> is_valid s = true ->
  (st (record_failure s ct) = Init /\ pol s = PUnrestricted) \/
  exists r u, st (record_failure s ct) = Locked (count_of (st s) + 1) r u /\ ct < u.
Proof. intros s ct Hok _. rewrite rf_st. apply fns_shape. exact Hok. Qed.

(* failure_next_state meets its specification (window end, delays, cap) for all inputs *)
Theorem C28_next_state_spec : forall p c ct, policy_ok p = true ->
  next_spec p c ct (failure_next_state p c ct) = true.
Proof. exact next_spec_ok. Qed.

(* "Further failures in the same window never shorten the lock", for two consecutive failures:
   the lock armed by a failure has unlock time u1; after any number of non-failing consultations
   during which the lock was never reset (no observed state is Init), a further failure that
   continues the count (c2 > 1: same window) arms a lock with u2 > u1.  Needs a monotone clock
   and no new administrator expiry; the clock may start at 0 because s1 is locked, so that the
   unlock time to compare with is the lock's own whatever the time is. *)
Theorem C28_never_shortens : forall s1 c1 r1 u1 l e2 c2 r2 u2 le2,
  policy_ok (pol s1) = true -> st s1 = Locked c1 r1 u1 ->
  mono 0 (l ++ [e2]) = true -> quiet_all (last_exp s1) (l ++ [e2]) = true ->
  (forall ob, In ob (exec s1 l) -> is_failed (fst (fst ob)) = false /\ snd (fst ob) <> Init) ->
  exec (final s1 l) [e2] = [(Failed, Locked c2 r2 u2, le2)] -> 1 < c2 ->
  u1 < u2.
Proof.
  intros s1 c1 r1 u1 l e2 c2 r2 u2 le2 Hok Hs Hm Hq Hob He2 Hc2.
  assert (HJ : J (st s1) 0 (Some u1)) by (rewrite Hs; reflexivity).
  pose proof (never_shorter_inv (l ++ [e2]) s1 0 (Some u1) Hok HJ Hm Hq) as Hns.
  rewrite exec_app, He2, (ns_skip l (exec s1 l) (Some u1) (exec_length l s1) Hob) in Hns.
  cbn [never_shorter is_failed] in Hns.
  destruct (N.leb_spec c2 1); [lia|]. rewrite andb_true_r in Hns. apply N.ltb_lt. exact Hns.
Qed.

(* the same over whole histories, in the executable form used on the implementation *)
Theorem C28_never_shortens_history : forall p l, policy_ok p = true ->
  mono 0 l = true -> quiet_all 0 l = true ->
  never_shorter None l (exec (new p) l) = true.
Proof. intros p l Hok Hm Hq. exact (never_shorter_inv l (new p) 0 None Hok I Hm Hq). Qed.

(* Sentence 2, "the count resets only after the window's reset time or an administrator-set
   expiry, never because of a successful login".  Never because of a success: a consultation
   with a RIGHT credential changes the lock exactly as the passage of time alone does (it is
   indistinguishable from a mere validity check) *)
Theorem C28_success_does_not_reset : forall s e, ev_bad e = false ->
  fst (attempt s e) = apply_time_step s (ev_ct e) (ev_exp e).
Proof.
  intros s e Hb. unfold attempt. rewrite Hb. destruct (is_valid _); reflexivity.
Qed.

(* whatever the outcome, the failure count decreases only if the instant is after the
   lock's reset_at, or after a new administrator expiry applied to a locked credential
   (the hypothesis policy_ok is not used by the proof) *)
Theorem C28_reset_only_after_window : forall s e,
  policy_ok (pol s) = true -> (pol s = PUnrestricted -> st s = Init) ->
  count_of (st (fst (attempt s e))) < count_of (st s) ->
  reset_cond (st s) (last_exp s) e = true.
Proof.
  intros s e _ Hun Hlt. destruct (attempt s e) as [s' o] eqn:Ha.
  destruct (attempt_count s e s' o Hun Ha) as (_ & [Hc|Hc] & _); [cbn [fst] in Hlt; lia|exact Hc].
Qed.

(* reset_at never lies before the end of the window (UTC day / TOTP step) of the failure,
   and at or beyond the cap the lock lasts exactly until that window end *)
Theorem C28_reset_at_covers_window : forall p P cap c ct, limit_of p = Some (P, cap) ->
  exists r u, failure_next_state p c ct = Locked c r u /\ (ct / P + 1) * P <= r /\ ct < u /\
              u <= r /\ (cap <= c -> u = (ct / P + 1) * P /\ r = u).
Proof. intros p P cap c ct H. destruct (fns_window p P cap c ct H) as (_ & _ & H'). exact H'. Qed.

(* Sentence 3, the rate limits.  First the index of the UTC day / TOTP step of an instant, as
   the limits below use it *)
Theorem C28_day_index : forall t, t / (ONEDAY * G) = secs t / ONEDAY.
Proof. intros t. apply step_index. reflexivity. Qed.
Theorem C28_step_index : forall step t, 0 < step -> t / (step * G) = secs t / step.
Proof. exact step_index. Qed.

(* password-only credential: for EVERY history of consultations (any length, any instants
   that do not go backwards, wrong and right credentials in any order, no new
   administrator expiry) at most 100 failures are recorded in any UTC day *)
Theorem C28_password_100_per_day : forall l day,
  mono 0 l = true -> quiet_all 0 l = true ->
  failed_in (ONEDAY * G) day l (exec (new PPassword) l) <= 100.
Proof. intros l day. exact (rate_new PPassword (ONEDAY * G) 100 eq_refl day l). Qed.

(* TOTP-protected credential with step `step` seconds: at most 3 failures per TOTP step *)
Theorem C28_totp_3_per_step : forall step l k, 0 < step ->
  mono 0 l = true -> quiet_all 0 l = true ->
  failed_in (step * G) k l (exec (new (PTotp step)) l) <= 3.
Proof.
  intros step l k Hs. apply (rate_new (PTotp step) (step * G) 3).
  cbn [limit_of]. replace (step =? 0) with false by (symmetry; apply N.eqb_neq; lia). reflexivity.
Qed.

(* Which policy a credential gets (Credential::softlock_policy): any credential that offers a
   TOTP factor — whatever else it carries: security keys, backup codes — gets the per-step
   policy, with the SMALLEST step of its TOTPs. *)
Theorem C28_totp_factor_gets_totp_policy : forall s r keys backup,
  exists m, softlock_policy (SMfa (s :: r) keys backup) = PTotp m /\
            In m (s :: r) /\ forall x, In x (s :: r) -> m <= x.
Proof.
  intros s r keys backup. exists (min_step (s :: r)). split; [reflexivity|apply min_step_spec].
Qed.

(* a credential whose only factor is a password (typed, generated, or an MFA shell without
   TOTP and security key) gets the per-day policy *)
Theorem C28_password_only_gets_password : forall backup,
  softlock_policy SPassword = PPassword /\ softlock_policy SGenerated = PPassword /\
  softlock_policy (SMfa [] 0 backup) = PPassword.
Proof. intros backup. repeat split; reflexivity. Qed.

(* the 1 s webauthn policy is given only to credentials without a TOTP factor that have a
   security key, and to passkeys *)
Theorem C28_webauthn_policy_only_without_totp : forall c,
  softlock_policy c = PWebauthn ->
  (exists n, c = SPasskey n) \/ (exists keys backup, c = SMfa [] keys backup /\ 0 < keys).
Proof.
  intros [| |steps keys b|n] H; try discriminate; [|left; eexists; reflexivity].
  cbn [softlock_policy] in H. destruct steps as [|s r]; cbn [negb] in H; [|discriminate].
  destruct (keys =? 0) eqn:E; [discriminate|]. apply N.eqb_neq in E.
  right. exists keys, b. split; [reflexivity|lia].
Qed.

(* the selected policy meets the selection spec for every shape *)
Theorem C28_policy_selection_spec : forall c, policy_spec c (softlock_policy c) = true.
Proof. exact policy_spec_ok. Qed.

(* hence: a credential offering a TOTP factor (all steps > 0) records at most 3 failures in
   any window of its smallest TOTP step, and a password-only credential at most 100 per UTC
   day — for the lock that the server creates with the SELECTED policy *)
Theorem C28_totp_credential_3_per_step : forall s r keys backup l k,
  (forall x, In x (s :: r) -> 0 < x) ->
  mono 0 l = true -> quiet_all 0 l = true ->
  failed_in (min_step (s :: r) * G) k l
    (exec (new (softlock_policy (SMfa (s :: r) keys backup))) l) <= 3.
Proof.
  intros s r keys backup l k Hpos Hm Hq.
  change (softlock_policy (SMfa (s :: r) keys backup)) with (PTotp (min_step (s :: r))).
  apply C28_totp_3_per_step; [|exact Hm|exact Hq].
  apply Hpos. apply min_step_spec.
Qed.

Theorem C28_password_credential_100_per_day : forall c l day,
  c = SPassword \/ c = SGenerated \/ (exists b, c = SMfa [] 0 b) ->
  mono 0 l = true -> quiet_all 0 l = true ->
  failed_in (ONEDAY * G) day l (exec (new (softlock_policy c)) l) <= 100.
Proof.
  intros c l day [->|[->|[b ->]]] Hm Hq; apply C28_password_100_per_day; assumption.
Qed.

(* Bridge: a run without disagreements transfers everything to the observed cases whose policy
   is a real one (case_ok: every TOTP step is positive) *)
Theorem C28_agree_implies_property : forall c, case_ok c = true -> agree c = true ->
  pcheck c = true.
Proof. exact agree_property. Qed.
