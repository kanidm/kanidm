(* failure_next_state against its specification next_spec, one consultation (attempt), then one
   invariant per sentence of the property over histories of consultations: a lock is kept up to
   min unlock_at reset_at (P1), the count covers the failures of a window (P2), the remembered
   unlock time lies behind (P3), the count drops only on a reset condition (P4). *)
From Coq Require Import List NArith PeanoNat Bool Lia.
Import ListNotations.
Require Import KV.C28.Model.
Open Scope N_scope.

Arguments N.add : simpl never.
Arguments N.sub : simpl never.
Arguments N.mul : simpl never.
Arguments N.div : simpl never.
Arguments N.modulo : simpl never.
Arguments N.ltb : simpl never.
Arguments N.leb : simpl never.
Arguments N.eqb : simpl never.
Arguments N.min : simpl never.

#[local] Hint Rewrite andb_true_iff N.eqb_eq N.ltb_lt N.leb_le : b2p.

Lemma G_pos : 0 < G. Proof. reflexivity. Qed.

Lemma div_eq_iff : forall t P k, 0 < P -> (t / P = k <-> k * P <= t /\ t < (k + 1) * P).
Proof.
  intros t P k HP. split.
  - intros <-. rewrite !(N.mul_comm _ P), N.add_1_r.
    split; [apply N.mul_div_le|apply N.mul_succ_div_gt]; lia.
  - intros [H1 H2]. symmetry. apply (N.div_unique t P k (t - k * P)); lia.
Qed.

Lemma div_hi : forall t P, 0 < P -> t < (t / P + 1) * P.
Proof. intros t P HP. apply (div_eq_iff t P (t / P) HP). reflexivity. Qed.

Lemma step_index : forall step t, 0 < step -> t / (step * G) = secs t / step.
Proof.
  intros step t H. unfold secs. rewrite N.div_div; [| compute; discriminate | lia].
  rewrite (N.mul_comm G step). reflexivity.
Qed.

Lemma wend_eq : forall w ct, 0 < w -> window_end w ct = wend w ct.
Proof.
  intros w ct Hw. unfold window_end, wend, of_secs. cbv zeta. set (s := secs ct).
  replace ((s + w) mod w) with (s mod w) by (rewrite <- (N.mod_add s 1 w), N.mul_1_l; [reflexivity|lia]).
  pose proof (N.div_mod s w ltac:(lia)) as Hs.
  pose proof (N.mod_le s w ltac:(lia)) as Hle.
  nia.
Qed.

Lemma wend_index : forall w ct, 0 < w -> wend w ct = (ct / (w * G) + 1) * (w * G).
Proof. intros w ct Hw. unfold wend. rewrite (step_index w ct Hw). reflexivity. Qed.

Lemma wend_gt : forall w ct, 0 < w -> ct < wend w ct.
Proof. intros w ct Hw. rewrite (wend_index w ct Hw). apply div_hi. pose proof G_pos. lia. Qed.

Definition policy_ok (p : policy) : bool :=
  match p with PTotp step => 0 <? step | _ => true end.

Lemma slock_eta : forall s, s = mk (st s) (pol s) (last_exp s).
Proof. intros [x p le]. reflexivity. Qed.

Definition step_state (x : lstate) (ct : N) : lstate :=
  match x with
  | Init => Init
  | Locked c r u => if r <? ct then Init else if u <? ct then Unlocked c r else Locked c r u
  | Unlocked c r => if r <? ct then Init else Unlocked c r
  end.

Lemma ts_none : forall s ct,
  apply_time_step s ct None = mk (step_state (st s) ct) (pol s) (last_exp s).
Proof.
  intros [x p le] ct. unfold apply_time_step. cbn [st pol last_exp].
  destruct x as [|c r u|c r]; cbn [step_state]; try reflexivity.
  destruct (r <? ct); reflexivity.
Qed.

Lemma ts_quiet : forall s e, quiet_for (last_exp s) e = true ->
  apply_time_step s (ev_ct e) (ev_exp e) = apply_time_step s (ev_ct e) None.
Proof.
  intros [x p le] e Hq. unfold quiet_for in Hq. cbn [last_exp] in Hq.
  destruct (ev_exp e) as [y|]; [|reflexivity].
  apply N.eqb_eq in Hq. subst y.
  unfold apply_time_step. cbn [st pol last_exp]. destruct x; try reflexivity.
  rewrite N.eqb_refl. reflexivity.
Qed.

Lemma ts_pol : forall s ct e, pol (apply_time_step s ct e) = pol s.
Proof.
  intros [x p le] ct e. unfold apply_time_step. cbn [st pol last_exp].
  destruct x as [|c r u|c r]; try reflexivity.
  - destruct e as [y|]; [destruct (negb (le =? y))|]; reflexivity.
  - destruct (r <? ct); reflexivity.
Qed.

Lemma ts_init : forall s ct e, st s = Init -> apply_time_step s ct e = s.
Proof. intros [x p le] ct e H. cbn [st] in H. subst x. reflexivity. Qed.

Lemma ts_locked : forall s c r u e, st s = Locked c r u -> ev_ct e <= N.min u r ->
  quiet_for (last_exp s) e = true -> apply_time_step s (ev_ct e) (ev_exp e) = s.
Proof.
  intros s c r u e Hs Hle Hq. rewrite (ts_quiet s e Hq), ts_none, Hs. cbn [step_state].
  destruct (N.ltb_spec r (ev_ct e)); [lia|]. destruct (N.ltb_spec u (ev_ct e)); [lia|].
  rewrite <- Hs. symmetry. apply slock_eta.
Qed.

Lemma rf_st : forall s ct,
  st (record_failure s ct) = failure_next_state (pol s) (count_of (st s) + 1) ct.
Proof. intros s ct. unfold record_failure. cbn [st]. destruct (st s); reflexivity. Qed.

Lemma fns_le : forall p c ct c' r u, failure_next_state p c ct = Locked c' r u -> u <= r.
Proof.
  intros p c ct c' r u H. destruct p as [|step| |]; cbn [failure_next_state] in H; cbv zeta in H;
    try discriminate; injection H as _ <- <-; try apply N.le_max_r. apply N.le_refl.
Qed.

Lemma fns_count : forall p c ct,
  p = PUnrestricted /\ failure_next_state p c ct = Init \/
  p <> PUnrestricted /\ count_of (failure_next_state p c ct) = c.
Proof. intros [|step| |] c ct; [right|right|right|left]; split; (reflexivity || discriminate). Qed.

Lemma rf_pol : forall s ct, pol (record_failure s ct) = pol s.
Proof. reflexivity. Qed.

(* the specification of a windowed policy (window end we, cap) read as a proposition *)
Lemma spec_window : forall cap c c' ct we r u rest,
  (c' =? c) && (ct <? u) && (u <=? r) && (r =? N.max we u) && (if cap <=? c then u =? we else rest) = true <->
  c' = c /\ ct < u /\ u <= r /\ r = N.max we u /\ (cap <= c -> u = we) /\ (c < cap -> rest = true).
Proof.
  intros cap c c' ct we r u rest. destruct (N.leb_spec cap c); autorewrite with b2p; intuition lia.
Qed.

Lemma next_spec_ok : forall p c ct, policy_ok p = true ->
  next_spec p c ct (failure_next_state p c ct) = true.
Proof.
  intros p c ct Hok. pose proof G_pos as HG.
  destruct p as [|step| |]; cbn [failure_next_state next_spec policy_ok] in *; cbv zeta; unfold of_secs.
  - pose proof (wend_gt ONEDAY ct eq_refl) as Hw. rewrite wend_eq by reflexivity. apply spec_window.
    destruct (N.leb_spec 100 c).
    + rewrite !(proj2 (N.ltb_ge c _)) by lia. lia.
    + destruct (N.ltb_spec c 3); [|destruct (N.ltb_spec c 9); [|destruct (N.ltb_spec c 25);
        [|rewrite (proj2 (N.ltb_lt c 100)) by lia]]]; rewrite andb_true_iff, !N.leb_le; lia.
  - apply N.ltb_lt in Hok. pose proof (wend_gt step ct Hok) as Hw. rewrite wend_eq by exact Hok.
    apply spec_window. destruct (N.leb_spec 3 c); rewrite ?N.eqb_eq; lia.
  - rewrite !N.eqb_refl. reflexivity.
  - reflexivity.
Qed.

Lemma fns_window : forall p P cap c ct, limit_of p = Some (P, cap) ->
  0 < P /\ 1 <= cap /\
  exists r u, failure_next_state p c ct = Locked c r u /\ (ct / P + 1) * P <= r /\ ct < u /\
              u <= r /\ (cap <= c -> u = (ct / P + 1) * P /\ r = u).
Proof.
  intros p P cap c ct Hl.
  destruct p as [|step| |]; cbn [limit_of] in Hl; try discriminate;
    [|destruct (N.eqb_spec step 0) as [|Hs]; [discriminate|]]; injection Hl as <- <-.
  (* Hw: the window length in seconds is positive; H: the specification *)
  1: assert (Hw : 0 < ONEDAY) by reflexivity; pose proof (next_spec_ok PPassword c ct eq_refl) as H.
  2: assert (Hw : 0 < step) by lia; pose proof (next_spec_ok (PTotp step) c ct (proj2 (N.ltb_lt 0 step) Hw)) as H.
  all: split; [apply N.mul_pos_pos; [exact Hw|reflexivity]|]; split; [lia|];
    destruct (failure_next_state _ c ct) as [|c' r u|c' r]; try discriminate;
    cbn [next_spec] in H; rewrite wend_index in H by exact Hw; apply spec_window in H as (-> & H);
    exists r, u; split; [reflexivity|lia].
Qed.

Lemma fns_shape : forall p c ct, policy_ok p = true ->
  failure_next_state p c ct = Init /\ p = PUnrestricted \/
  exists r u, failure_next_state p c ct = Locked c r u /\ ct < u.
Proof.
  intros p c ct Hok. destruct (limit_of p) as [[P cap]|] eqn:El.
  - right. destruct (fns_window p P cap c ct El) as (_ & _ & r & u & E & _ & Hu & _).
    exists r, u. split; assumption.
  - destruct p as [|step| |]; cbn [limit_of policy_ok] in El, Hok; try discriminate.
    + apply N.ltb_lt in Hok. destruct (N.eqb_spec step 0); [lia|discriminate].
    + right. eexists _, _. split; [reflexivity|]. unfold of_secs. pose proof G_pos. lia.
    + left. split; reflexivity.
Qed.

Lemma attempt_cases : forall s e,
  let s1 := apply_time_step s (ev_ct e) (ev_exp e) in
  (attempt s e = (s1, Refused) /\ is_valid s1 = false) \/
  (attempt s e = (s1, Passed) /\ is_valid s1 = true) \/
  (attempt s e = (record_failure s1 (ev_ct e), Failed) /\ is_valid s1 = true).
Proof.
  intros s e s1. unfold attempt. fold s1. destruct (is_valid s1); [|left; split; reflexivity].
  right. destruct (ev_bad e); [right|left]; split; reflexivity.
Qed.

Lemma attempt_pol : forall s e, pol (fst (attempt s e)) = pol s.
Proof.
  intros s e. destruct (attempt_cases s e) as [[-> _]|[[-> _]|[-> _]]]; apply ts_pol.
Qed.

Lemma attempt_locked : forall s c r u e, st s = Locked c r u -> ev_ct e <= N.min u r ->
  quiet_for (last_exp s) e = true -> attempt s e = (s, Refused).
Proof.
  intros s c r u e Hs Hle Hq. unfold attempt. rewrite (ts_locked s c r u e Hs Hle Hq).
  unfold is_valid. rewrite Hs. reflexivity.
Qed.

Lemma attempt_failed : forall s e s', policy_ok (pol s) = true -> attempt s e = (s', Failed) ->
  match st s' with Init => True | Locked _ r u => ev_ct e < u <= r | Unlocked _ _ => False end.
Proof.
  intros s e s' Hok Ha.
  destruct (attempt_cases s e) as [[Ha' _]|[[Ha' _]|[Ha' _]]]; rewrite Ha in Ha'; try discriminate.
  injection Ha' as ->. rewrite rf_st, ts_pol.
  destruct (fns_shape (pol s) (count_of (st (apply_time_step s (ev_ct e) (ev_exp e))) + 1) (ev_ct e) Hok)
    as [[-> _]|(r & u & E & Hu)]; [exact I|].
  rewrite E. split; [exact Hu|exact (fns_le _ _ _ _ _ _ E)].
Qed.

Lemma locked_until_min : forall s c r u l, st s = Locked c r u ->
  (forall e, In e l -> ev_ct e <= N.min u r /\ quiet_for (last_exp s) e = true) ->
  forall ob, In ob (exec s l) -> ob = (Refused, Locked c r u, last_exp s).
Proof.
  intros s c r u l Hs. induction l as [|e l IH]; intros Hl ob Hin; [destruct Hin|].
  destruct (Hl e (or_introl eq_refl)) as [H1 H2].
  cbn [exec] in Hin. rewrite (attempt_locked s c r u e Hs H1 H2), Hs in Hin.
  destruct Hin as [<-|Hin]; [reflexivity|].
  apply IH; [|exact Hin]. intros e' He'. apply Hl. right. exact He'.
Qed.

Lemma refused_partial : forall s c r u lim l, st s = Locked c r u -> lim <= N.min u r ->
  refused_while (last_exp s) lim l (exec s l) = true.
Proof.
  intros s c r u lim l Hs Hlim. induction l as [|e l IH]; [reflexivity|].
  cbn [exec]. destruct ((ev_ct e <=? lim) && quiet_for (last_exp s) e) eqn:Ec.
  - pose proof Ec as [E1 E2]%andb_true_iff. apply N.leb_le in E1.
    rewrite (attempt_locked s c r u e Hs ltac:(lia) E2). cbn [refused_while]. rewrite Ec. exact IH.
  - destruct (attempt s e) as [s' o]. cbn [refused_while]. rewrite Ec. reflexivity.
Qed.

Lemma locked_full : forall l s, policy_ok (pol s) = true ->
  locked_ok l (exec s l) = true.
Proof.
  induction l as [|e l IH]; intros s Hok; [reflexivity|].
  cbn [exec]. pose proof (attempt_failed s e) as Hf. pose proof (attempt_pol s e) as Hp.
  destruct (attempt s e) as [s' o]. cbn [locked_ok fst] in *.
  rewrite IH by (rewrite Hp; exact Hok). rewrite andb_true_r.
  destruct o; try reflexivity. specialize (Hf s' Hok eq_refl).
  destruct (st s') as [|c r u|c r] eqn:Es; [reflexivity| |destruct Hf].
  rewrite (refused_partial s' c r u u l Es) by lia. autorewrite with b2p. lia.
Qed.

Definition reset_of (x : lstate) : N :=
  match x with Init => 0 | Locked _ r _ | Unlocked _ r => r end.

Section Rate.
  Variables (p : policy) (P cap : N).
  Hypothesis Hlim : limit_of p = Some (P, cap).

  Variable k : N.   (* the window under consideration: [k*P, (k+1)*P) *)

  (* the count stays within the cap, and a lock at the cap lasts to its reset time, so that the
     count of an Unlocked state is below the cap *)
  Definition wf_st (x : lstate) : Prop :=
    match x with
    | Init => True
    | Locked c r u => c <= cap /\ (cap <= c -> r <= u)
    | Unlocked c r => c < cap
    end.

  (* n = number of failures recorded so far at instants of window k; now = latest instant:
     while window k lasts, the count covers n and is kept until the window's end *)
  Definition Inv (x : lstate) (now n : N) : Prop :=
    n <= cap /\ wf_st x /\
    (n = 0 \/ k * P <= now /\ ((k + 1) * P < now \/ n <= count_of x /\ (k + 1) * P <= reset_of x)).

  Lemma step_inv : forall x now n ct, Inv x now n -> now <= ct -> Inv (step_state x ct) ct n.
  Proof.
    intros x now n ct (Hn & Hwf & Hc) Hle. unfold Inv.
    destruct x as [|c r u|c r]; cbn [step_state wf_st count_of reset_of] in *.
    - lia.
    - destruct (N.ltb_spec r ct); [|destruct (N.ltb_spec u ct)]; cbn [wf_st count_of reset_of]; lia.
    - destruct (N.ltb_spec r ct); cbn [wf_st count_of reset_of]; lia.
  Qed.

  Lemma fail_inv : forall s ct n, pol s = p -> Inv (st s) ct n -> is_valid s = true ->
    Inv (st (record_failure s ct)) ct (n + (if ct / P =? k then 1 else 0)).
  Proof.
    intros s ct n Hp (Hn & Hwf & Hc) Hv. rewrite rf_st, Hp. unfold is_valid in Hv.
    destruct (fns_window p P cap (count_of (st s) + 1) ct Hlim)
      as (HP & Hcap & r & u & -> & Hr & Hu & Hur & Hcu).
    pose proof (div_hi ct P HP) as Hhi. pose proof (div_eq_iff ct P k HP) as Hk.
    assert (Hx : count_of (st s) < cap).
    { destruct (st s); cbn [wf_st count_of] in *; [lia|discriminate|lia]. }
    unfold Inv. cbn [wf_st count_of reset_of].
    destruct (N.eqb_spec (ct / P) k) as [<-|Ek]; lia.
  Qed.

  Lemma rate_inv : forall l s now n, pol s = p -> Inv (st s) now n -> mono now l = true ->
    quiet_all (last_exp s) l = true ->
    n + failed_in P k l (exec s l) <= cap.
  Proof.
    induction l as [|e l IH]; intros s now n Hp HI Hm Hq.
    - destruct HI as (Hn & _). cbn [exec failed_in]. lia.
    - cbn [mono quiet_all] in Hm, Hq. autorewrite with b2p in Hm, Hq.
      destruct Hm as [Hm1 Hm2], Hq as [Hq1 Hq2].
      apply (step_inv _ _ _ _ HI) in Hm1 as HI1.
      cbn [exec]. unfold attempt. rewrite (ts_quiet s e Hq1), ts_none.
      set (s1 := mk (step_state (st s) (ev_ct e)) (pol s) (last_exp s)).
      pose proof (IH s1 _ _ Hp HI1 Hm2 Hq2) as H1.
      destruct (is_valid s1) eqn:Ev; [destruct (ev_bad e)|]; cbn [failed_in is_failed andb]; [|lia..].
      pose proof (IH (record_failure s1 (ev_ct e)) _ _ Hp (fail_inv s1 _ n Hp HI1 Ev) Hm2 Hq2). lia.
  Qed.

  Lemma rate_new : forall l, mono 0 l = true -> quiet_all 0 l = true ->
    failed_in P k l (exec (new p) l) <= cap.
  Proof.
    intros l Hm Hq. apply (rate_inv l (new p) 0 0 eq_refl); [|exact Hm|exact Hq].
    unfold Inv. cbn [new st wf_st]. lia.
  Qed.
End Rate.

Lemma failed_idx_eq : forall P k l os,
  failed_idx k (map (fun e => ev_ct e / P) l) os = failed_in P k l os.
Proof.
  induction l as [|e l IH]; intros os; [reflexivity|].
  cbn [map failed_idx failed_in]. destruct os as [|[[o x] le] os]; [reflexivity|].
  rewrite IH. reflexivity.
Qed.

Lemma rate_ok_new : forall p l, rate_ok p l (exec (new p) l) = true.
Proof.
  intros p l. unfold rate_ok. destruct (limit_of p) as [[P cap]|] eqn:El; [|reflexivity].
  destruct (mono 0 l && quiet_all 0 l) eqn:E; [|reflexivity].
  apply andb_true_iff in E as [Em Eq]. cbv zeta.
  apply forallb_forall. intros k _. rewrite failed_idx_eq. apply N.leb_le.
  exact (rate_new p P cap El k l Em Eq).
Qed.

Lemma ns_pass : forall h e l o x le os, is_failed o = false ->
  never_shorter h (e :: l) ((o, x, le) :: os)
  = never_shorter (match x with Init => None | _ => h end) l os.
Proof. intros h e l o x le os Ho. cbn [never_shorter]. rewrite Ho. destruct x; reflexivity. Qed.

(* the unlock time that never_shorter remembers is that of the lock while it holds, and lies
   in the past once the lock is open *)
Definition J (x : lstate) (now : N) (h : option N) : Prop :=
  match h with
  | None => True
  | Some u0 => match x with Init => True | Locked _ _ u => u0 = u | Unlocked _ _ => u0 < now end
  end.

Lemma J_step : forall x now h ct, J x now h -> now <= ct -> J (step_state x ct) ct h.
Proof.
  intros x now [u0|] ct HJ Hle; [|exact I]. destruct x as [|c r u|c r]; cbn [J step_state] in *.
  - exact I.
  - destruct (r <? ct); [exact I|]. destruct (N.ltb_spec u ct); cbn [J]; [lia|exact HJ].
  - destruct (r <? ct); [exact I|]. cbn [J]. lia.
Qed.

Lemma never_shorter_inv : forall l s now h, policy_ok (pol s) = true ->
  J (st s) now h -> mono now l = true -> quiet_all (last_exp s) l = true ->
  never_shorter h l (exec s l) = true.
Proof.
  induction l as [|e l IH]; intros s now h Hok HJ Hm Hq; [reflexivity|].
  cbn [mono quiet_all] in Hm, Hq. autorewrite with b2p in Hm, Hq.
  destruct Hm as [Hm1 Hm2], Hq as [Hq1 Hq2].
  pose proof (J_step (st s) now h (ev_ct e) HJ Hm1) as HJ1.
  pose proof (attempt_cases s e) as Hc. cbv zeta in Hc. rewrite (ts_quiet s e Hq1), ts_none in Hc.
  set (s1 := mk (step_state (st s) (ev_ct e)) (pol s) (last_exp s)) in *.
  change (step_state (st s) (ev_ct e)) with (st s1) in HJ1.
  cbn [exec]. destruct Hc as [[-> _]|[[-> _]|[-> Hv]]].
  1, 2: rewrite ns_pass by reflexivity; apply (IH s1 (ev_ct e)); try assumption;
    destruct (st s1); (exact I || exact HJ1).
  cbn [never_shorter]. rewrite rf_st.
  destruct (fns_shape (pol s1) (count_of (st s1) + 1) (ev_ct e) Hok) as [[E _]|(r & u & E & Hu)]; rewrite E.
  - exact (IH (record_failure s1 (ev_ct e)) (ev_ct e) None Hok I Hm2 Hq2).
  - cbn [is_failed]. apply andb_true_iff. split.
    + (* a failure is only recorded once the earlier lock has run out, and locks beyond now *)
      destruct (N.leb_spec (count_of (st s1) + 1) 1); [reflexivity|].
      destruct h as [u0|]; [|reflexivity]. apply N.ltb_lt. unfold is_valid in Hv.
      destruct (st s1); cbn [J count_of] in *; [lia|discriminate|lia].
    + apply (IH (record_failure s1 (ev_ct e)) (ev_ct e) (Some u)); try assumption.
      rewrite rf_st, E. reflexivity.
Qed.

Lemma ts_count : forall s e,
  count_of (st s) <= count_of (st (apply_time_step s (ev_ct e) (ev_exp e))) \/
  reset_cond (st s) (last_exp s) e = true.
Proof.
  intros [x p le] e. unfold apply_time_step, reset_cond. cbn [st pol last_exp].
  destruct x as [|c r u|c r]; [left; apply N.le_refl| |].
  - (* the reset time in force is r, or a new expiry y < r; if it has passed, reset_cond holds,
       otherwise the count is kept *)
    destruct (ev_exp e) as [y|]; [rewrite (N.eqb_sym y le); destruct (le =? y); [|destruct (y <? r)]|];
      cbn [negb andb st]; (destruct (_ <? ev_ct e) eqn:E;
        [right; first [reflexivity|apply orb_true_r]|left; destruct (u <? ev_ct e); apply N.le_refl]).
  - destruct (r <? ev_ct e); [right; reflexivity|left; apply N.le_refl].
Qed.

(* an Unrestricted lock is never armed *)
Definition idle (s : slock) : Prop := pol s = PUnrestricted -> st s = Init.

Lemma attempt_count : forall s e s' o, idle s -> attempt s e = (s', o) ->
  idle s' /\
  (count_of (st s) <= count_of (st s') \/ reset_cond (st s) (last_exp s) e = true) /\
  (o = Failed -> pol s = PUnrestricted \/ 1 <= count_of (st s')).
Proof.
  intros s e s' o Hun Ha. pose proof (ts_count s e) as Hc. pose proof (ts_pol s (ev_ct e) (ev_exp e)) as Hp.
  set (s1 := apply_time_step s (ev_ct e) (ev_exp e)) in *.
  assert (Hun1 : idle s1).
  { intros H. rewrite Hp in H. unfold s1. rewrite (ts_init s _ _ (Hun H)). exact (Hun H). }
  destruct (attempt_cases s e) as [[Ha' _]|[[Ha' _]|[Ha' _]]]; rewrite Ha in Ha'; fold s1 in Ha';
    injection Ha' as -> ->; [split; [exact Hun1|split; [exact Hc|discriminate]]..|].
  unfold idle. rewrite rf_pol, rf_st, Hp.
  destruct (fns_count (pol s) (count_of (st s1) + 1) (ev_ct e)) as [[Hu ->]|[Hu ->]].
  - split; [reflexivity|]. split; [left; rewrite (Hun Hu); apply N.le_0_l|left; exact Hu].
  - split; [intros H; destruct (Hu H)|]. split; [destruct Hc; [left; lia|right; assumption]|right; lia].
Qed.

Lemma count_inv : forall l s, idle s ->
  count_ok (is_unrestricted (pol s)) (st s) (last_exp s) l (exec s l) = true.
Proof.
  induction l as [|e l IH]; intros s Hun; [reflexivity|].
  cbn [exec]. pose proof (attempt_pol s e) as Hp. destruct (attempt s e) as [s' o] eqn:Ha.
  destruct (attempt_count s e s' o Hun Ha) as (Hun' & Hc & Hf).
  cbn [fst count_ok] in *. rewrite <- Hp, (IH s' Hun'), andb_true_r. apply andb_true_iff. split.
  - destruct Hc as [Hc%N.leb_le|Hc]; rewrite Hc; [reflexivity|apply orb_true_r].
  - destruct o; try reflexivity. destruct (Hf eq_refl) as [H|H%N.leb_le]; rewrite <- ?Hp in H; rewrite H;
      [reflexivity|apply orb_true_r].
Qed.

Fixpoint final (s : slock) (l : list ev) : slock :=
  match l with [] => s | e :: r => final (fst (attempt s e)) r end.

Lemma exec_app : forall l1 l2 s, exec s (l1 ++ l2) = exec s l1 ++ exec (final s l1) l2.
Proof.
  induction l1 as [|e l1 IH]; intros l2 s; [reflexivity|].
  cbn [app exec final]. destruct (attempt s e) as [s' o]. cbn [fst app]. rewrite IH. reflexivity.
Qed.

Lemma final_pol : forall l s, pol (final s l) = pol s.
Proof.
  induction l as [|e l IH]; intros s; [reflexivity|]. cbn [final]. rewrite IH. apply attempt_pol.
Qed.

Lemma ns_skip : forall l os h, length os = length l ->
  (forall ob, In ob os -> is_failed (fst (fst ob)) = false /\ snd (fst ob) <> Init) ->
  forall l2 os2, never_shorter h (l ++ l2) (os ++ os2) = never_shorter h l2 os2.
Proof.
  induction l as [|e l IH]; intros [|[[o x] le] os] h Hlen Hob l2 os2; try discriminate; [reflexivity|].
  destruct (Hob _ (or_introl eq_refl)) as [H1 H2]. cbn [app fst snd length] in *.
  rewrite (ns_pass _ _ _ _ _ _ _ H1). destruct x; [destruct (H2 eq_refl)|..];
    (apply IH; [congruence|intros ob Hin; apply Hob; right; exact Hin]).
Qed.

(* without administrator expiry every lock a history produces has unlock_at <= reset_at *)
Definition lock_wf (x : lstate) : Prop :=
  match x with Locked _ r u => u <= r | _ => True end.

Lemma step_lock_wf : forall x ct, lock_wf x -> lock_wf (step_state x ct).
Proof.
  intros [|c r u|c r] ct H; cbn [step_state]; [exact I| |destruct (r <? ct); exact I].
  destruct (r <? ct); [exact I|]. destruct (u <? ct); [exact I|exact H].
Qed.

Lemma final_lock_wf : forall l s, lock_wf (st s) -> quiet_all (last_exp s) l = true ->
  lock_wf (st (final s l)).
Proof.
  induction l as [|e l IH]; intros s Hw Hq; [exact Hw|].
  cbn [quiet_all] in Hq. apply andb_true_iff in Hq as [Hq1 Hq2]. cbn [final].
  pose proof (attempt_cases s e) as Hc. cbv zeta in Hc. rewrite (ts_quiet s e Hq1), ts_none in Hc.
  apply (step_lock_wf _ (ev_ct e)) in Hw.
  destruct Hc as [[-> _]|[[-> _]|[-> _]]]; cbn [fst]; apply IH; try assumption.
  rewrite rf_st. destruct (failure_next_state _ _ _) eqn:E; try exact I. exact (fns_le _ _ _ _ _ _ E).
Qed.

Lemma lstate_eqb_refl : forall x, lstate_eqb x x = true.
Proof. destruct x; cbn [lstate_eqb]; rewrite ?N.eqb_refl; reflexivity. Qed.

Lemma raw_ok_run : forall ops s,
  raw_ok (st s) (last_exp s) ops (map slock_obs (run_ops s ops)) = true.
Proof.
  induction ops as [|o ops IH]; intros s; [reflexivity|].
  cbn [run_ops map raw_ok slock_obs]. rewrite IH, andb_true_r.
  destruct o as [ct exp|ct]; [|reflexivity]. cbn [apply_op].
  destruct (st s) as [|c r u|c r] eqn:Es; try reflexivity.
  destruct (_ && _) eqn:Ec; [|reflexivity].
  apply andb_true_iff in Ec as [E1 E2]. apply N.leb_le in E1.
  pose proof (ts_locked s c r u (Ev ct exp false) Es E1 E2) as Ht. cbn [ev_ct ev_exp] in Ht.
  rewrite Ht, Es. apply lstate_eqb_refl.
Qed.

Lemma lstate_eqb_eq : forall a b, lstate_eqb a b = true -> a = b.
Proof.
  intros [|c r u|c r] [|c' r' u'|c' r'] H; cbn [lstate_eqb] in H; try discriminate; try reflexivity.
  - apply andb_true_iff in H as [[->%N.eqb_eq ->%N.eqb_eq]%andb_true_iff ->%N.eqb_eq]. reflexivity.
  - apply andb_true_iff in H as [->%N.eqb_eq ->%N.eqb_eq]. reflexivity.
Qed.

Lemma obs_eqb_eq : forall a b, obs_eqb a b = true -> a = b.
Proof.
  intros [[o x] le] [[o' x'] le'] H. cbn [obs_eqb] in H.
  apply andb_true_iff in H as [[Ho Hx%lstate_eqb_eq]%andb_true_iff Hle%N.eqb_eq].
  destruct o, o'; try discriminate; congruence.
Qed.

Lemma sobs_eqb_eq : forall a b, sobs_eqb a b = true -> a = b.
Proof.
  intros [x le] [x' le'] [Hx%lstate_eqb_eq Hle%N.eqb_eq]%andb_true_iff. cbn [fst snd] in *. congruence.
Qed.

Lemma policy_eqb_eq : forall a b, policy_eqb a b = true -> a = b.
Proof.
  intros [|x| |] [|y| |]; cbn [policy_eqb]; try discriminate; try reflexivity.
  intros ->%N.eqb_eq. reflexivity.
Qed.

Lemma list_eqb_eq : forall A (f : A -> A -> bool), (forall a b, f a b = true -> a = b) ->
  forall a b, list_eqb f a b = true -> a = b.
Proof.
  intros A f Hf. induction a as [|x a IH]; intros [|y b] H; cbn [list_eqb] in H; try discriminate; [reflexivity|].
  apply andb_true_iff in H as [H1 H2]. apply Hf in H1. apply IH in H2. subst. reflexivity.
Qed.

Lemma exec_length : forall l s, length (exec s l) = length l.
Proof.
  induction l as [|e l IH]; intros s; [reflexivity|]. cbn [exec].
  destruct (attempt s e) as [s' o]. cbn [length]. rewrite IH. reflexivity.
Qed.

(* the model has the executable form of the property (pcheck on event cases) on every history *)
Lemma events_ok : forall p l, policy_ok p = true ->
  locked_ok l (exec (new p) l) && rest_ok p l (exec (new p) l) = true.
Proof.
  intros p l Hok. unfold rest_ok.
  rewrite (locked_full l (new p) Hok), exec_length, Nat.eqb_refl, rate_ok_new. cbn [andb].
  assert (Hc : count_ok (is_unrestricted p) Init 0 l (exec (new p) l) = true)
    by (apply (count_inv l (new p)); intros _; reflexivity).
  rewrite Hc, andb_true_r.
  destruct (mono 0 l && quiet_all 0 l) eqn:E; [|reflexivity].
  apply andb_true_iff in E as [Em Eq].
  apply (never_shorter_inv l (new p) 0 None Hok I Em Eq).
Qed.

Lemma min_step_spec : forall s r, In (min_step (s :: r)) (s :: r) /\
  forall x, In x (s :: r) -> min_step (s :: r) <= x.
Proof.
  intros s r. revert s. induction r as [|y r IH]; intros s.
  - split; [left; reflexivity|intros x [<-|[]]; apply N.le_refl].
  - change (min_step (s :: y :: r)) with (min_step (N.min s y :: r)).
    destruct (IH (N.min s y)) as [Hin Hle]. split.
    + destruct Hin as [<-|Hin]; [|right; right; exact Hin].
      destruct (N.min_spec s y) as [[_ ->]|[_ ->]]; [left|right; left]; reflexivity.
    + intros x Hx. pose proof (Hle _ (or_introl eq_refl)) as H0.
      destruct Hx as [<-|[<-|Hx]]; [lia|lia|apply Hle; right; exact Hx].
Qed.

Lemma policy_spec_ok : forall c, policy_spec c (softlock_policy c) = true.
Proof.
  intros [| |steps keys b|n]; try reflexivity. cbn [softlock_policy policy_spec].
  destruct steps as [|s r]; cbn [negb].
  - destruct (keys =? 0); reflexivity.
  - destruct (min_step_spec s r) as [Hin Hle]. apply andb_true_iff. split.
    + apply existsb_exists. exists (min_step (s :: r)). split; [exact Hin|apply N.eqb_refl].
    + apply forallb_forall. intros x Hx. apply N.leb_le. apply Hle. exact Hx.
Qed.

(* the policy that pcheck demands for a credential shape *)
Definition required_policy (c : cshape) : policy :=
  match c with
  | SMfa (s :: r) _ _ => PTotp (fold_left N.min r s)
  | SMfa [] 0 _ | SPassword | SGenerated => PPassword
  | _ => PWebauthn
  end.

Lemma required_policy_eq : forall c, required_policy c = softlock_policy c.
Proof. intros [| |[|s r] [|k] b|n]; reflexivity. Qed.

Definition case_ok (c : case) : bool :=
  match c with
  | CPolicy _ _ => true
  | CShapeEvents _ c _ _ => policy_ok (softlock_policy c)
  | CNext p _ _ _ => policy_ok p
  | CRaw p _ _ _ _ => policy_ok p
  | CEvents _ p _ _ => policy_ok p
  end.

Lemma agree_property : forall c, case_ok c = true -> agree c = true ->
  pcheck c = true.
Proof.
  intros [c impl|src c evs impl|p count ct impl|p s0 le0 ops impl|src p evs impl] Hok Ha; cbn [case_ok agree pcheck] in *.
  - apply policy_eqb_eq in Ha. subst impl. apply policy_spec_ok.
  - apply (list_eqb_eq _ _ obs_eqb_eq) in Ha. subst impl.
    change (locked_ok evs (exec (new (softlock_policy c)) evs) &&
            rest_ok (required_policy c) evs (exec (new (softlock_policy c)) evs) = true).
    rewrite required_policy_eq. apply events_ok. exact Hok.
  - apply lstate_eqb_eq in Ha. subst impl. apply next_spec_ok. exact Hok.
  - apply (list_eqb_eq _ _ sobs_eqb_eq) in Ha. subst impl.
    apply (raw_ok_run ops (mk s0 p le0)).
  - apply (list_eqb_eq _ _ obs_eqb_eq) in Ha. subst impl.
    apply events_ok. exact Hok.
Qed.
