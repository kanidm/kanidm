(* Non-vacuity: concrete values meet the hypotheses of the implication theorems; plus the
   refutation witness as a checked case. *)
From Coq Require Import List NArith Bool.
Import ListNotations.
Require Import KV.C28.Model KV.C28.Proofs.
Open Scope N_scope.

Definition t (s : N) : N := s * G.

(* n wrong passwords, 11 s apart, starting at instant t0 (seconds) *)
Fixpoint wrongs (n : nat) (t0 : N) : list ev :=
  match n with O => [] | S n' => Ev (t t0) None true :: wrongs n' (t0 + 11) end.

(* C28_password_100_per_day: a monotone quiet history with 130 wrong passwords inside one
   UTC day (day 19700): exactly 100 are recorded as failures, the rest is refused unchecked *)
Example C28_witness_password_cap :
  let l := wrongs 130 (19700 * 86400 + 1000) in
  mono 0 l = true /\ quiet_all 0 l = true /\
  failed_in (ONEDAY * G) 19700 l (exec (new PPassword) l) = 100 /\
  nth 129 (exec (new PPassword) l) (Passed, Init, 0)
    = (Refused, Locked 100 (t (19701 * 86400)) (t (19701 * 86400)), 0).
Proof.
  (* the run is named so that coqchk's lazy evaluation goes through it once (DESIGN.md, "Long test
     vectors") *)
  intros l. set (os := exec (new PPassword) l).
  vm_compute. repeat split; reflexivity.
Qed.

(* C28_totp_3_per_step: 6 wrong codes 2 s apart inside one 30 s step: 3 failures, then refused *)
Example C28_witness_totp_cap :
  let l := [Ev (t 3002) None true; Ev (t 3004) None true; Ev (t 3006) None true;
            Ev (t 3008) None true; Ev (t 3010) None false; Ev (t 3029) None true] in
  mono 0 l = true /\ quiet_all 0 l = true /\
  failed_in (30 * G) 100 l (exec (new (PTotp 30)) l) = 3 /\
  map (fun ob => fst (fst ob)) (exec (new (PTotp 30)) l)
    = [Failed; Failed; Failed; Refused; Refused; Refused].
Proof. vm_compute. repeat split; reflexivity. Qed.

(* C28_locked_until_unlock: a wrong password arms a lock (3rd failure: 3 s), which is then
   consulted three times up to and including its unlock instant (sub-second instant included) *)
Example C28_witness_locked :
  let s := mk (Unlocked 2 (t 86400)) PPassword 0 in
  let e := Ev (t 500) None true in
  let l := [Ev (t 502) None true; Ev (t 502 + 500000000) (Some 0) false; Ev (t 503) None true] in
  attempt s e = (mk (Locked 3 (t 86400) (t 503)) PPassword 0, Failed) /\
  forallb (fun e2 => (ev_ct e2 <=? t 503) && quiet_for 0 e2) l = true /\
  map (fun ob => fst (fst ob)) (exec (fst (attempt s e)) l) = [Refused; Refused; Refused].
Proof. vm_compute. repeat split; reflexivity. Qed.

(* hypotheses of C28_locked_state_stays_locked: a lock whose reset_at an administrator expiry
   pulled in, consulted up to that reset_at *)
Example C28_witness_capped_lock :
  let s := mk (Locked 2 (t 400) (t 503)) PPassword (t 400) in
  let l := [Ev (t 399) (Some (t 400)) true; Ev (t 400) None false] in
  forallb (fun e => (ev_ct e <=? N.min (t 503) (t 400)) && quiet_for (last_exp s) e) l = true /\
  length (exec s l) = 2%nat.
Proof. vm_compute. split; reflexivity. Qed.

(* C28_never_shortens: failure (count 1, unlock 501 s), a right credential at 502 s
   (Passed, lock becomes Unlocked), a wrong one at 503 s (count 2, unlock 504 s > 501 s) *)
Example C28_witness_never_shortens :
  let s1 := mk (Locked 1 (t 86400) (t 501)) PPassword 0 in
  let l := [Ev (t 502) None false] in
  let e2 := Ev (t 503) None true in
  mono 0 (l ++ [e2]) = true /\ quiet_all (last_exp s1) (l ++ [e2]) = true /\
  exec s1 l = [(Passed, Unlocked 1 (t 86400), 0)] /\
  exec (final s1 l) [e2] = [(Failed, Locked 2 (t 86400) (t 504), 0)].
Proof. vm_compute. repeat split; reflexivity. Qed.

(* C28_reset_only_after_window: the count does drop (2 -> 0) once reset_at has passed, and
   (second example) when a new administrator expiry in the past is applied to a locked credential *)
Example C28_witness_reset :
  let s := mk (Unlocked 2 (t 86400)) PPassword 0 in
  let e := Ev (t 86400 + 1) None false in
  count_of (st (fst (attempt s e))) <? count_of (st s) = true /\
  reset_cond (st s) (last_exp s) e = true.
Proof. vm_compute. split; reflexivity. Qed.
Example C28_witness_admin_reset :
  let s := mk (Locked 100 (t 86400) (t 86400)) PPassword 0 in
  let e := Ev (t 5000) (Some (t 4999)) false in
  attempt s e = (mk Init PPassword (t 4999), Passed) /\
  reset_cond (st s) (last_exp s) e = true.
Proof. vm_compute. split; reflexivity. Qed.

(* the day-end history of C28_prefix_refuted: the FIXED model keeps the credential refused up
   to and including the unlock instant (reset_at is pushed out to unlock_at) and the case
   passes pcheck; the PRE-FIX model let the right password through at the unlock instant *)
Definition dayend_history : list ev :=
  [Ev (t 86380) None true; Ev (t 86382) None true; Ev (t 86384) None true;
   Ev (t 86398) None true; Ev (t 86400 + 500000000) None false; Ev (t 86401) None false;
   Ev (t 86401 + 1) None false].
Example C28_witness_dayend_fixed :
  let c := CEvents 0 PPassword dayend_history (exec (new PPassword) dayend_history) in
  agree c = true /\ pcheck c = true /\
  skipn 3 (exec (new PPassword) dayend_history)
    = [(Failed, Locked 4 (t 86401) (t 86401), 0); (Refused, Locked 4 (t 86401) (t 86401), 0);
       (Refused, Locked 4 (t 86401) (t 86401), 0); (Passed, Init, 0)].
Proof. vm_compute. repeat split; reflexivity. Qed.
Example C28_witness_dayend_prefix :
  skipn 3 (exec_prefix (new PPassword) dayend_history)
    = [(Failed, Locked 4 (t 86400) (t 86401), 0); (Passed, Init, 0); (Passed, Init, 0); (Passed, Init, 0)] /\
  pcheck (CEvents 0 PPassword dayend_history (exec_prefix (new PPassword) dayend_history)) = false.
Proof. vm_compute. split; reflexivity. Qed.

(* the same at sub-second scale for TOTP: failure 0.5 s before the step ends *)
Example C28_witness_stepend :
  let l := [Ev (t 29 + 500000000) None true; Ev (t 30 + 200000000) None false] in
  exec (new (PTotp 30)) l
  = [(Failed, Locked 1 (t 30 + 500000000) (t 30 + 500000000), 0);
     (Refused, Locked 1 (t 30 + 500000000) (t 30 + 500000000), 0)] /\
  exec_prefix (new (PTotp 30)) l
  = [(Failed, Locked 1 (t 30) (t 30 + 500000000), 0); (Passed, Init, 0)].
Proof. vm_compute. split; reflexivity. Qed.

(* policy selection: a credential with TOTPs of steps 60 and 30, two security keys and backup
   codes is limited per 30 s step; hypotheses of C28_totp_credential_3_per_step are met *)
Example C28_witness_policy_selection :
  softlock_policy (SMfa [60; 30] 2 true) = PTotp 30 /\
  forallb (N.ltb 0) [60; 30] = true /\
  softlock_policy (SMfa [] 2 true) = PWebauthn /\
  policy_spec (SMfa [60; 30] 2 true) PWebauthn = false /\
  policy_spec (SMfa [60; 30] 2 true) (PTotp 60) = false.
Proof. vm_compute. repeat split; reflexivity. Qed.

(* a lock that behaves like the webauthn policy on a TOTP+security-key credential (what a wrong
   policy selection would give: 6 wrong codes accepted in one step) is flagged by pcheck *)
Example C28_witness_wrong_policy_flagged :
  let l := [Ev (t 3002) None true; Ev (t 3004) None true; Ev (t 3006) None true;
            Ev (t 3008) None true; Ev (t 3010) None true; Ev (t 3012) None true] in
  pcheck (CShapeEvents 4 (SMfa [30] 1 false) l (exec (new PWebauthn) l)) = false /\
  pcheck (CShapeEvents 4 (SMfa [30] 1 false) l (exec (new (PTotp 30)) l)) = true.
Proof. vm_compute. split; reflexivity. Qed.

(* C28_agree_implies_property: case_ok holds of real policies *)
Example C28_witness_case_ok :
  case_ok (CEvents 1 (PTotp 30) [] []) = true /\ case_ok (CNext PPassword 100 5 Init) = true /\
  case_ok (CShapeEvents 4 (SMfa [60; 30] 1 true) [] []) = true.
Proof. vm_compute. repeat split; reflexivity. Qed.
