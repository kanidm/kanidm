(* `steps_tree = steps_fixed` is the commit order since 953436b (every in-memory publication after the
   database commit); `steps_head` is the order before it, and the `C04_prefix_*` theorems say what holds
   and what fails under that one.
   Vocabulary (KV.C04.Proofs): [coherent s]: s is what loading its database gives, i.e. backend view and
   published settings all reflect the database; [be_coherent s]: the backend's view is the database (the
   settings may be anything). [atomic_for steps s ops o]: after the transaction, a reader and a reopened
   server observe what they did before, or commit reported success and they observe the effect of ops.
   [run_hist]: a list of transactions, each with its outcome and an optional restart after it;
   [spec_hist]: the content after applying exactly those that committed without fault and whose
   operations all succeed. *)
From Coq Require Import List NArith Bool.
Import ListNotations.
Require Import KV.C04.Model KV.C04.Proofs.
Open Scope N_scope.

(* A write transaction that is dropped (at any operation boundary j, whatever it did before)
   leaves every server state exactly as it was. This holds by construction of the model: operations act
   on a private copy and `run_txn` ignores j and ops; that the real operations write nothing before
   commit is what `optrace_ok` checks on every recorded case. *)
Theorem C04_abandon_noop : forall steps s ops j,
  run_txn steps s ops (TAbandon j) = (s, false).
Proof. reflexivity. Qed.

(* A transaction one of whose operations fails (and is therefore dropped by its caller)
   leaves every server state exactly as it was, whatever fault is armed (by construction, as above). *)
Theorem C04_op_failure_noop : forall steps s ops f,
  apply_ops (m_be s) ops = None -> run_txn steps s ops (TCommit f) = (s, false).
Proof. exact op_failure_noop. Qed.

(* FULL STATEMENT, commit order of the tree at HEAD. For every server whose memory reflects its
   database, every list of operations and every outcome (abandon anywhere; commit with a storage
   failure at ANY storage call; commit without failure): what a later read transaction AND a
   reopened server observe is either exactly what they observed before, or the commit reported
   success and they observe exactly the transaction's effect. *)
Definition C04_full_statement : Prop :=
  forall s ops o, coherent s -> atomic_for steps_tree s ops o.
Theorem C04_commit_atomic : C04_full_statement.
Proof. intros s ops o Hc. rewrite Hc. apply expected_atomic, fixed_expected. Qed.

(* ... and memory keeps reflecting the database after every history of transactions with
   arbitrary abandons, faults and restarts, so the hypothesis `coherent` is an invariant. *)
Theorem C04_coherent_over_histories : forall h s, coherent s -> coherent (run_hist steps_tree s h).
Proof. exact fixed_hist_coherent. Qed.

(* The DATABASE is always before-or-after, from any server state whose backend view equals its database
   (published settings arbitrary) and over unbounded histories:
   what a reopened server is loaded from equals the effect of exactly those transactions whose
   operations all succeeded and whose commit ran without fault; the backend's view of the
   entries never differs from the database. (SQLite's rollback of a failed/dropped transaction
   is the assumed part.) *)
Theorem C04_database_exact_over_histories : forall h s, be_coherent s ->
  disk (run_hist steps_tree s h) = spec_hist (disk s) h /\ be_coherent (run_hist steps_tree s h).
Proof. exact (hist_disk_gen steps_fixed fixed_none fixed_fault_disk). Qed.

(* Soundness of the run-time tie: whenever the implementation's observations agree with the
   model of the tree, the property's executable predicate holds on them. *)
Theorem C04_agree_implies_property : forall c : case, agree c = true -> pcheck c = true.
Proof.
  intros [before ops ab hit ot ct res mem re] Hag.
  apply (bridge steps_fixed fixed_none (fault_fails _ fixed_fault_disk) (fun _ _ _ => true)); [|exact Hag|reflexivity].
  intros d o k _. rewrite fixed_fault_noop. reflexivity.
Qed.

(* The same statement for the commit order before 953436b ... *)
Definition C04_prefix_full_statement : Prop :=
  forall s ops o, coherent s -> atomic_for steps_head s ops o.
(* ... is false in the model: domain display name change, COMMIT fails. *)
Theorem C04_prefix_refuted : ~ C04_prefix_full_statement.
Proof.
  intros H.
  specialize (H (of_disk (mkcells [] false 0 [])) [ODomain 5] (TCommit (Some SDbCommit)) (coherent_of_disk _)).
  destruct H as [H|[H _]]; vm_compute in H; discriminate H.
Qed.
(* Outside the decidable class `exposed` (the failing storage call comes after a publication that
   changed a setting) that order is atomic too ... *)
Theorem C04_prefix_commit_atomic_partial : forall s ops o, coherent s ->
  match o with TCommit f => exposed s ops f = false | TAbandon _ => True end ->
  atomic_for steps_head s ops o.
Proof.
  intros s ops o Hc. rewrite Hc. intros Hx. apply expected_atomic, (run_txn_expected _ prefix_none).
  intros k ->. apply unexposed_iff. exact Hx.
Qed.
(* ... and inside it every case is a violation of this exact shape: commit reports failure, a
   reopened server and the entries readers see are as before, but readers are shown changed
   settings (access controls / domain info / OAuth2 clients) of the failed transaction. *)
Theorem C04_prefix_exposed_is_torn : forall s ops k, coherent s -> exposed s ops (Some k) = true ->
  let r := run_txn steps_head s ops (TCommit (Some k)) in
  snd r = false /\ read_view (fst r) <> read_view s /\
  read_view (reopen (fst r)) = read_view s /\ c_ents (read_view (fst r)) = c_ents (read_view s).
Proof. exact prefix_exposed_torn. Qed.
(* the database itself is exact under that order as well *)
Theorem C04_prefix_database_exact_over_histories : forall h s, be_coherent s ->
  disk (run_hist steps_head s h) = spec_hist (disk s) h /\ be_coherent (run_hist steps_head s h).
Proof. exact (hist_disk_gen steps_head prefix_none prefix_fault_disk). Qed.
(* the tie to a tree with that order needs the class *)
Theorem C04_prefix_agree_implies_property : forall c : case, agree_with steps_head c = true ->
  match c with CTxn before ops None true _ ct 1 _ _ =>
     match classify (last_label ct) with Some k => exposed (of_disk before) ops (Some k) | None => false end
   | _ => false end = false ->
  pcheck c = true.
Proof.
  intros [before ops ab hit ot ct res mem re] Hag Hk.
  apply (bridge steps_head prefix_none (fault_fails _ prefix_fault_disk)
                (fun d ops k => negb (exposed (of_disk d) ops (Some k)))); [|exact Hag|].
  - intros d o k H. apply negb_true_iff, unexposed_iff in H. rewrite H. reflexivity.
  - intros -> -> -> k Hc. rewrite Hc in Hk. rewrite Hk. reflexivity.
Qed.
