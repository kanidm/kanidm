(* Section Order proves everything about a commit order from two facts on its step list: Hn, without a
   fault everything is stored and published; Hf, a failing storage call leaves database and backend view
   as they were. Both orders of the model meet them by computation (the prefix_ and fixed_ lemmas); only the
   order since 953436b also leaves the published settings alone (fixed_fault), which is what atomicity needs. *)
From Coq Require Import List NArith Bool Lia.
Import ListNotations.
Require Import KV.C04.Model.
Open Scope N_scope.

Lemma ents_eqb_eq : forall a b, ents_eqb a b = true <-> a = b.
Proof.
  induction a as [|[e d] ta IH]; intros [|[e' d'] tb]; cbn;
    [split; reflexivity | split; discriminate | split; discriminate |].
  rewrite !andb_true_iff, !N.eqb_eq, IH. split; [intros [[-> ->] ->] | intros [= -> -> ->]]; auto.
Qed.
Lemma nl_eqb_eq : forall a b, nl_eqb a b = true <-> a = b.
Proof.
  induction a as [|x ta IH]; intros [|y tb]; cbn;
    [split; reflexivity | split; discriminate | split; discriminate |].
  rewrite andb_true_iff, N.eqb_eq, IH. split; [intros [-> ->] | intros [= -> ->]]; auto.
Qed.
Lemma cells_eqb_eq : forall a b, cells_eqb a b = true <-> a = b.
Proof.
  intros [ea aa da oa] [eb ab db ob]. unfold cells_eqb. cbn.
  rewrite !andb_true_iff, ents_eqb_eq, eqb_true_iff, N.eqb_eq, nl_eqb_eq.
  split; [intros [[[-> ->] ->] ->] | intros [= -> -> -> ->]]; auto.
Qed.

Lemma nins_idem : forall c l, nins c (nins c l) = nins c l.
Proof.
  intros c. induction l as [|x t IH]; cbn.
  - rewrite N.ltb_irrefl, N.eqb_refl. reflexivity.
  - destruct (c <? x) eqn:E1.
    + cbn. rewrite N.ltb_irrefl, N.eqb_refl. reflexivity.
    + destruct (c =? x) eqn:E2.
      * cbn. rewrite E1, E2. reflexivity.
      * cbn. rewrite E1, E2, IH. reflexivity.
Qed.
Lemma nins_in : forall c x l, In x (nins c l) -> x = c \/ In x l.
Proof.
  intros c x. induction l as [|y t IH]; cbn; [intuition congruence|].
  destruct (c <? y); [|destruct (c =? y)]; cbn; intuition congruence.
Qed.

Lemma untouched : forall ops d pe, apply_ops d ops = Some pe ->
  (existsb touches_acp ops = false -> c_acp pe = c_acp d) /\
  (existsb touches_dom ops = false -> c_dom pe = c_dom d) /\
  (existsb touches_o2 ops = false -> c_o2 pe = c_o2 d).
Proof.
  induction ops as [|o r IH]; cbn; intros d pe Ha.
  - injection Ha as <-. auto.
  - destruct (op_ok d o); [|discriminate]. destruct (IH _ _ Ha) as (I1 & I2 & I3).
    rewrite !orb_false_iff.
    destruct o as [e v|e v|e|b|v|k b]; cbn in *; try destruct (ehas e (c_ents d));
      repeat split; intros [Ho Hr]; try discriminate; auto.
Qed.

Definition coherent (s : server) : Prop := s = of_disk (disk s).
Definition be_coherent (s : server) : Prop := m_be s = disk s.

Lemma coherent_of_disk : forall d, coherent (of_disk d).
Proof. intros d. reflexivity. Qed.
Lemma coherent_be : forall s, coherent s -> be_coherent s.
Proof. intros s H. unfold be_coherent. rewrite H. reflexivity. Qed.
Lemma reopen_coherent : forall s, coherent s -> reopen s = s.
Proof. intros s H. unfold reopen. symmetry. exact H. Qed.

Lemma prepare_coherent : forall d ops pe,
  apply_ops d ops = Some pe ->
  prepare (of_disk d) ops pe = mktxn pe (c_acp pe) (c_dom pe) (c_o2 pe).
Proof.
  intros d ops pe Ha. destruct (untouched _ _ _ Ha) as (U1 & U2 & U3). unfold prepare. cbn.
  destruct (existsb touches_acp ops); [|rewrite U1 by reflexivity];
    (destruct (existsb touches_dom ops); [|rewrite U2 by reflexivity]);
    (destruct (existsb touches_o2 ops); [|rewrite U3 by reflexivity]); reflexivity.
Qed.

Lemma read_view_of_disk : forall d, read_view (of_disk d) = d.
Proof. intros [e a m o]. reflexivity. Qed.
Lemma observe_of_disk : forall d, observe (of_disk d) = (d, d).
Proof. intros [e a m o]. reflexivity. Qed.
Lemma of_disk_view : forall s d, disk s = d -> m_be s = d -> read_view s = d -> s = of_disk d.
Proof. intros [d' b a m o] [e a0 m0 o0]. cbn. intros -> -> [= -> -> ->]. reflexivity. Qed.

Lemma op_failure_noop : forall steps s ops f, apply_ops (m_be s) ops = None -> run_txn steps s ops (TCommit f) = (s, false).
Proof. intros steps s ops f H. unfold run_txn. rewrite H. reflexivity. Qed.

Definition atomic_for (steps : list cstep) (s : server) (ops : list op) (o : outcome) : Prop :=
  observe (fst (run_txn steps s ops o)) = observe s \/
  (snd (run_txn steps s ops o) = true /\
   exists s2, after s ops = Some s2 /\ observe (fst (run_txn steps s ops o)) = observe s2).

Definition expected (d : cells) (ops : list op) (o : outcome) : server * bool :=
  match o, apply_ops d ops with
  | TCommit None, Some pe => (of_disk pe, true)
  | _, _ => (of_disk d, false)
  end.

Lemma expected_atomic : forall steps d ops o,
  run_txn steps (of_disk d) ops o = expected d ops o -> atomic_for steps (of_disk d) ops o.
Proof.
  intros steps d ops o E. unfold atomic_for. rewrite E. unfold expected.
  destruct o as [j|[k|]]; try (left; reflexivity).
  destruct (apply_ops d ops) as [pe|] eqn:Ha; [right | left; reflexivity].
  split; [reflexivity|]. exists (of_disk pe). split; [|reflexivity].
  unfold after. cbn [disk of_disk]. rewrite Ha. reflexivity.
Qed.
Lemma expected_coherent : forall d ops o, coherent (fst (expected d ops o)).
Proof. intros d ops o. unfold expected. destruct o as [j|[k|]]; try destruct (apply_ops d ops); reflexivity. Qed.

Definition hstep := (list op * outcome * bool)%type.
Fixpoint run_hist (steps : list cstep) (s : server) (h : list hstep) : server :=
  match h with
  | [] => s
  | (ops, o, re) :: r =>
      let s1 := fst (run_txn steps s ops o) in
      run_hist steps (if re then reopen s1 else s1) r
  end.
Fixpoint spec_hist (d : cells) (h : list hstep) : cells :=
  match h with
  | [] => d
  | (ops, TCommit None, _) :: r => match apply_ops d ops with Some d1 => spec_hist d1 r | None => spec_hist d r end
  | _ :: r => spec_hist d r
  end.

Lemma spec_hist_cons : forall d ops o re r,
  spec_hist d ((ops, o, re) :: r) = spec_hist (disk (fst (expected d ops o))) r.
Proof. intros d ops o re r. unfold expected. destruct o as [j|[k|]]; cbn; try destruct (apply_ops d ops); reflexivity. Qed.

Definition rolled_back (s : server) (r : server * bool) : Prop :=
  disk (fst r) = disk s /\ m_be (fst r) = m_be s /\ snd r = false.

Section Order.
  Variable steps : list cstep.
  Hypothesis Hn : forall t s, run_steps t None steps s = (mksrv (p_be t) (p_be t) (p_acp t) (p_dom t) (p_o2 t), true).

  Lemma success_coherent : forall d ops pe,
    apply_ops d ops = Some pe ->
    run_txn steps (of_disk d) ops (TCommit None) = (of_disk pe, true).
  Proof.
    intros d ops pe Ha. unfold run_txn. cbn [m_be of_disk]. rewrite Ha.
    rewrite (prepare_coherent _ _ _ Ha). rewrite Hn. reflexivity.
  Qed.

  Lemma run_txn_expected : forall d ops o,
    (forall k, o = TCommit (Some k) -> run_txn steps (of_disk d) ops o = (of_disk d, false)) ->
    run_txn steps (of_disk d) ops o = expected d ops o.
  Proof.
    intros d ops o Hk. destruct o as [j|[k|]]; [reflexivity | exact (Hk k eq_refl) |].
    unfold expected. destruct (apply_ops d ops) as [pe|] eqn:Ha.
    - exact (success_coherent _ _ _ Ha).
    - apply op_failure_noop. exact Ha.
  Qed.

  Hypothesis Hf : forall t k s, rolled_back s (run_steps t (Some k) steps s).

  Lemma fault_db : forall s ops k, rolled_back s (run_txn steps s ops (TCommit (Some k))).
  Proof. intros s ops k. unfold run_txn. destruct (apply_ops (m_be s) ops); [apply Hf | repeat split]. Qed.
  Lemma fault_fails : forall s ops k, snd (run_txn steps s ops (TCommit (Some k))) = false.
  Proof. intros s ops k. apply fault_db. Qed.

  Lemma txn_db : forall s ops o, be_coherent s ->
    disk (fst (run_txn steps s ops o)) = disk (fst (expected (disk s) ops o))
    /\ be_coherent (fst (run_txn steps s ops o)).
  Proof.
    intros s ops o Hb. unfold be_coherent, expected in *. destruct o as [j|[k|]].
    - auto.
    - destruct (fault_db s ops k) as (D & B & _). rewrite D, B. auto.
    - unfold run_txn. rewrite Hb. destruct (apply_ops (disk s) ops); [rewrite Hn|]; auto.
  Qed.

  Lemma hist_disk_gen : forall h s, be_coherent s ->
    disk (run_hist steps s h) = spec_hist (disk s) h /\ be_coherent (run_hist steps s h).
  Proof.
    induction h as [|[[ops o] re] r IH]; intros s Hb; [auto|].
    cbn [run_hist]. rewrite spec_hist_cons. destruct (txn_db s ops o Hb) as [<- Hb1].
    destruct re; [apply (IH (reopen _)); reflexivity | apply IH; exact Hb1].
  Qed.
End Order.

Lemma prefix_none : forall t s, run_steps t None steps_head s = (mksrv (p_be t) (p_be t) (p_acp t) (p_dom t) (p_o2 t), true).
Proof. intros t s. reflexivity. Qed.
Lemma fixed_none : forall t s, run_steps t None steps_fixed s = (mksrv (p_be t) (p_be t) (p_acp t) (p_dom t) (p_o2 t), true).
Proof. intros t s. reflexivity. Qed.

Lemma prefix_fault : forall t k s,
  run_steps t (Some k) steps_head s =
  (mksrv (disk s) (m_be s)
         (if after_qs k then p_acp t else m_acp s)
         (if after_qs k then p_dom t else m_dom s)
         (if after_idm k then p_o2 t else m_o2 s), false).
Proof. intros t k [d b a m o]. destruct k; reflexivity. Qed.
Lemma fixed_fault : forall t k s, run_steps t (Some k) steps_fixed s = (s, false).
Proof. intros t k [d b a m o]. destruct k; reflexivity. Qed.

Lemma prefix_fault_disk : forall t k s, rolled_back s (run_steps t (Some k) steps_head s).
Proof. intros. rewrite prefix_fault. repeat split. Qed.
Lemma fixed_fault_disk : forall t k s, rolled_back s (run_steps t (Some k) steps_fixed s).
Proof. intros. rewrite fixed_fault. repeat split. Qed.

Lemma fixed_fault_noop : forall s ops k, run_txn steps_fixed s ops (TCommit (Some k)) = (s, false).
Proof. intros s ops k. unfold run_txn. destruct (apply_ops (m_be s) ops); [apply fixed_fault | reflexivity]. Qed.

Lemma fixed_expected : forall d ops o, run_txn steps_fixed (of_disk d) ops o = expected d ops o.
Proof. intros d ops o. apply (run_txn_expected _ fixed_none). intros k ->. apply fixed_fault_noop. Qed.

Lemma fixed_coherent : forall s ops o, coherent s -> coherent (fst (run_txn steps_fixed s ops o)).
Proof. intros s ops o Hc. rewrite Hc, fixed_expected. apply expected_coherent. Qed.

Lemma fixed_hist_coherent : forall h s, coherent s -> coherent (run_hist steps_fixed s h).
Proof.
  induction h as [|[[ops o] re] r IH]; intros s Hc; [exact Hc|].
  cbn [run_hist]. apply IH. pose proof (fixed_coherent s ops o Hc) as H.
  destruct re; [apply coherent_of_disk | exact H].
Qed.

Lemma andb_negb_false : forall a b, a && negb b = false -> a = true -> b = true.
Proof. intros [] []; cbn; congruence. Qed.

Lemma unexposed_iff : forall d ops k,
  exposed (of_disk d) ops (Some k) = false <->
  run_txn steps_head (of_disk d) ops (TCommit (Some k)) = (of_disk d, false).
Proof.
  intros d ops k. unfold exposed, run_txn. cbn [m_be of_disk].
  destruct (apply_ops d ops) as [pe|]; [|split; reflexivity].
  rewrite prefix_fault. generalize (prepare (of_disk d) ops pe). intros t.
  unfold of_disk. cbn [m_acp m_dom m_o2 disk m_be].
  rewrite orb_false_iff, !andb_false_iff, orb_false_iff, !negb_false_iff, nl_eqb_eq, eqb_true_iff, N.eqb_eq.
  destruct (after_idm k), (after_qs k); intuition congruence.
Qed.

Lemma prefix_exposed_torn : forall s ops k, coherent s -> exposed s ops (Some k) = true ->
  let r := run_txn steps_head s ops (TCommit (Some k)) in
  snd r = false /\ read_view (fst r) <> read_view s /\
  read_view (reopen (fst r)) = read_view s /\ c_ents (read_view (fst r)) = c_ents (read_view s).
Proof.
  intros s ops k Hc. rewrite Hc. generalize (disk s). clear s Hc. intros d Hx r.
  destruct (fault_db _ prefix_fault_disk (of_disk d) ops k) as (D & B & F). fold r in D, B, F.
  cbn [disk m_be of_disk] in D, B. rewrite read_view_of_disk.
  split; [exact F|]. split; [|split].
  - intros E. apply not_false_iff_true in Hx. apply Hx, unexposed_iff. fold r.
    rewrite (surjective_pairing r), F, (of_disk_view _ _ D B E). reflexivity.
  - unfold reopen. rewrite D. apply read_view_of_disk.
  - unfold read_view. cbn [c_ents]. rewrite B. reflexivity.
Qed.

Lemma pcheck_of_disk : forall before ops ab hit ot ct r x,
  (if r =? 0 then apply_ops before ops = Some x else x = before) ->
  pcheck (CTxn before ops ab hit ot ct r (read_view (of_disk x)) (read_view (reopen (of_disk x)))) = true.
Proof.
  intros before ops ab hit ot ct r x H. cbn [pcheck].
  change (reopen (of_disk x)) with (of_disk x). rewrite read_view_of_disk.
  destruct (r =? 0); rewrite H, (proj2 (cells_eqb_eq _ _) eq_refl); reflexivity.
Qed.

Section Bridge.
  Variable steps : list cstep.
  Hypothesis Hn : forall t s, run_steps t None steps s = (mksrv (p_be t) (p_be t) (p_acp t) (p_dom t) (p_o2 t), true).
  Hypothesis Hff : forall s ops k, snd (run_txn steps s ops (TCommit (Some k))) = false.
  (* when does a faulted commit leave a coherent server as it was *)
  Variable safe : cells -> list op -> sstep -> bool.
  Hypothesis Hsafe : forall d ops k, safe d ops k = true ->
    fst (run_txn steps (of_disk d) ops (TCommit (Some k))) = of_disk d.

  Lemma bridge : forall before ops ab hit ot ct res mem re,
    agree_with steps (CTxn before ops ab hit ot ct res mem re) = true ->
    (ab = None -> hit = true -> res = 1 -> forall k, classify (last_label ct) = Some k -> safe before ops k = true) ->
    pcheck (CTxn before ops ab hit ot ct res mem re) = true.
  Proof.
    intros before ops ab hit ot ct res mem re Hag Hk.
    unfold agree_with in Hag.
    destruct (predict steps (CTxn before ops ab hit ot ct res mem re)) as [[r s1]|] eqn:Hp; [|discriminate].
    rewrite !andb_true_iff, N.eqb_eq, !cells_eqb_eq in Hag. destruct Hag as [[-> ->] ->].
    (* every accepted trace predicts a server loaded from the effect (code 0) or from the content before *)
    enough (exists x, s1 = of_disk x /\ if r =? 0 then apply_ops before ops = Some x else x = before)
      as (x & -> & Hx) by exact (pcheck_of_disk _ _ _ _ _ _ _ _ Hx).
    unfold predict in Hp. destruct ab as [j|].
    - destruct (optrace_ok ot && negb hit && match ct with [] => true | _ => false end); [|discriminate].
      injection Hp as <- <-. exists before. split; reflexivity.
    - destruct hit; cbn [negb] in Hp.
      + destruct ct as [|l ct'].
        * destruct (optrace_ok ot); [|discriminate].
          injection Hp as <- <-. exists before. split; [|destruct (only_begin ot)]; reflexivity.
        * destruct (classify (last_label (l :: ct'))) as [k|] eqn:Hc; [|discriminate].
          cbn [m_be of_disk] in Hp. destruct (apply_ops before ops) as [pe|]; [|discriminate].
          destruct (optrace_ok ot && ctrace_ok false (l :: ct')); [|discriminate].
          pose proof (Hff (of_disk before) ops k) as Hok. pose proof (Hsafe before ops k) as Hs.
          destruct (run_txn steps (of_disk before) ops (TCommit (Some k))) as [s1' ok].
          cbn [fst snd] in Hok, Hs. subst ok. injection Hp as <- <-.
          exists before. split; [exact (Hs (Hk eq_refl eq_refl eq_refl k eq_refl)) | reflexivity].
      + cbn [m_be of_disk] in Hp. destruct (apply_ops before ops) as [pe|] eqn:Ha.
        * destruct (optrace_ok ot && ctrace_ok true ct); [|discriminate].
          rewrite (success_coherent steps Hn _ _ _ Ha) in Hp. injection Hp as <- <-.
          exists pe. split; reflexivity.
        * destruct (optrace_ok ot && match ct with [] => true | _ => false end); [|discriminate].
          injection Hp as <- <-. exists before. split; reflexivity.
  Qed.
End Bridge.
