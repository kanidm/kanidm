(* KV.C09.Proofs — what one transaction can do to the state of one uuid on one replica (change, step_change), lifted
   to runs; lag detection on top of C10. *)
From Coq Require Import List NArith Bool.
Import ListNotations.
Require Import KV.C09.Model.
Require KV.C10.Model KV.C10.Proofs.
Open Scope N_scope.
Arguments N.add : simpl never.
Arguments N.sub : simpl never.
Arguments N.ltb : simpl never.
Arguments N.leb : simpl never.
Arguments N.eqb : simpl never.

Lemma find_put : forall l u v s, find u (put v s l) = if v =? u then Some s else find u l.
Proof.
  induction l as [|[w s'] l IH]; intros u v s; cbn [put]; [reflexivity|].
  destruct (v <? w); [reflexivity|].
  destruct (N.eqb_spec v w) as [->|Hvw]; cbn [find]; [destruct (w =? u); reflexivity|].
  rewrite IH. destruct (N.eqb_spec w u) as [->|]; [|reflexivity].
  rewrite (proj2 (N.eqb_neq v u) Hvw). reflexivity.
Qed.

Lemma find_del : forall us l u, find u (del us l) = if mem u us then None else find u l.
Proof.
  intros us. unfold del. induction l as [|[w s] l IH]; intros u; cbn [filter find fst].
  - destruct (mem u us); reflexivity.
  - destruct (N.eqb_spec w u) as [->|Hne].
    + destruct (mem u us) eqn:Eu; cbn [negb find]; [rewrite IH, Eu | rewrite N.eqb_refl]; reflexivity.
    + destruct (mem w us); cbn [negb find]; [|rewrite (proj2 (N.eqb_neq w u) Hne)]; apply IH.
Qed.

(* the map of do_purge_rec *)
Lemma find_relabel (p : N -> bool) (s0 : est) : forall l u,
  find u (map (fun e : ent => if p (fst e) then (fst e, s0) else e) l) =
  match find u l with Some s => Some (if p u then s0 else s) | None => None end.
Proof.
  induction l as [|[w s] l IH]; intros u; cbn [map find fst]; [reflexivity|].
  destruct (p w) eqn:Ew; cbn [find]; (destruct (N.eqb_spec w u) as [->|]; [rewrite Ew; reflexivity | apply IH]).
Qed.

Lemma find_In : forall l u s, find u l = Some s -> In (u, s) l.
Proof.
  induction l as [|[w s'] l IH]; intros u s H; cbn [find] in H; [discriminate|].
  destruct (w =? u) eqn:E.
  - apply N.eqb_eq in E. injection H as ->. subst w. left. reflexivity.
  - right. apply IH. exact H.
Qed.

Definition is_tomb (s : option est) : bool := match s with Some (ETomb _) => true | _ => false end.

Lemma not_live_iff a : is_live_state a = false <-> is_tomb a = true \/ a = None.
Proof. destruct a as [[|]|]; cbn; intuition discriminate. Qed.

(* C: the condition under which a uuid the replica holds nothing for may get a live change state *)
Definition change (C : Prop) (a b : option est) : Prop :=
  match a with
  | Some (ETomb _) => is_tomb b = true \/ b = None
  | Some (ELive _ _ _) => True
  | None => is_live_state b = true -> C
  end.

Lemma change_refl (C : Prop) a : change C a a.
Proof. destruct a as [[|]|]; cbn; [exact I | left; reflexivity | discriminate]. Qed.

Lemma change_gone (C : Prop) a : change C a None.
Proof. destruct a as [[|]|]; cbn; [exact I | right; reflexivity | discriminate]. Qed.

Lemma change_impl (C C' : Prop) a b : (C -> C') -> change C a b -> change C' a b.
Proof. destruct a as [[|]|]; cbn; auto. Qed.

Lemma change_put (C : Prop) l v m u :
  is_tomb (find v l) = false -> (find v l = None -> u = v -> C) ->
  change C (find u l) (find u (put v m l)).
Proof.
  intros Ht Hc. rewrite find_put. destruct (N.eqb_spec v u) as [->|]; [|apply change_refl].
  destruct (find u l) as [[|]|]; cbn; [exact I | discriminate Ht | intros _; apply Hc; reflexivity].
Qed.

Lemma merge_tomb_left a d m : merge_state (ITomb a) d = Some m -> exists b, m = ETomb b.
Proof. destruct d; cbn; intros [= <-]; eexists; reflexivity. Qed.

Lemma merge_tomb_right i b m : merge_state i (ETomb b) = Some m -> exists c, m = ETomb c.
Proof. destruct i; cbn; intros [= <-]; eexists; reflexivity. Qed.

(* as change, but a batch never removes a tombstone, and the cause is an entry of the batch *)
Lemma apply_entries_change : forall inc es rv es' rv',
  apply_entries inc es rv = Some (es', rv') -> forall u,
  match find u es with
  | Some (ETomb _) => is_tomb (find u es') = true
  | Some (ELive _ _ _) => True
  | None => is_live_state (find u es') = true -> exists a k ch, In (u, ILive a k ch) inc
  end.
Proof.
  induction inc as [|[v i] inc IH]; intros es rv es' rv' H u; cbn [apply_entries] in H.
  - injection H as <- <-. destruct (find u es) as [[|]|]; [exact I | reflexivity | discriminate].
  - destruct (merge_state i (match find v es with Some d => d | None => stub i end)) as [m|] eqn:Em; [|discriminate].
    specialize (IH _ _ _ _ H u). rewrite find_put in IH.
    destruct (N.eqb_spec v u) as [->|_].
    + (* the slot of u is merged: IH speaks about the merged state m *)
      destruct (find u es) as [[|b]|]; [exact I | |destruct i as [a k ch|a]].
      * apply merge_tomb_right in Em as [c ->]. exact IH.
      * intros _. exists a, k, ch. left. reflexivity.
      * apply merge_tomb_left in Em as [c ->]. cbn in IH.
        intros Hl. destruct (find u es') as [[|]|]; discriminate.
    + destruct (find u es) as [[|]|]; [exact I | exact IH |].
      intros Hl. destruct (IH Hl) as [a [k [ch Hin]]]. exists a, k, ch. right. exact Hin.
Qed.

Lemma consume_change me t x c k c' u :
  consume me t x c = Some (k, c') ->
  change (k = R_V1 /\ exists ranges entries a1 k1 c1, x = CtxV1 ranges entries /\ In (u, ILive a1 k1 c1) entries)
         (find u (ents c)) (find u (ents c')).
Proof.
  unfold consume. destruct x as [ranges entries| | |]; try (intros [= <- <-]; apply change_refl).
  match goal with |- context [if ?b then _ else _] => destruct b end; [intros [= <- <-]; apply change_refl|].
  destruct (apply_entries entries (ents c) (ruv c)) as [[es rv]|] eqn:Ea; [|discriminate].
  match goal with |- context [if ?b then _ else _] => destruct b end; intros [= <- <-]; [apply change_refl|].
  pose proof (apply_entries_change _ _ _ _ _ Ea u) as Hu. cbn [ents].
  destruct (find u (ents c)) as [[|]|]; cbn; [exact I | left; exact Hu |].
  intros Hl. destruct (Hu Hl) as [a1 [k1 [c1 Hin]]].
  split; [reflexivity|]. exists ranges, entries, a1, k1, c1. split; [reflexivity | exact Hin].
Qed.

Lemma provide_live cns s ranges entries u a k ch :
  provide cns s = CtxV1 ranges entries -> In (u, ILive a k ch) entries ->
  exists ch0, In (u, ELive a k ch0) (ents s).
Proof.
  unfold provide. destruct (R.range_diff cns _) as [d| | | |]; try discriminate.
  destruct d as [|d0 dl]; [discriminate|]. intros [= _ <-] Hin.
  apply in_map_iff in Hin as [[v st] [Heq Hin]]. cbn [fst snd] in Heq.
  apply filter_In in Hin as [Hin _].
  destruct st as [a0 k0 c0|a0]; cbn [inc_of] in Heq; [|discriminate].
  injection Heq as -> -> -> _. exists c0. exact Hin.
Qed.

Lemma nth_setn (x d : rep) : forall s n m,
  nth m (setn n x s) d = nth m s d \/ (m = n /\ nth m (setn n x s) d = x).
Proof.
  induction s as [|h s IH]; intros [|n] [|m]; cbn [setn nth]; auto.
  destruct (IH n m) as [E|[-> E]]; auto.
Qed.

Lemma getr_setr : forall s r x r',
  getr (setr s r x) r' = getr s r' \/ (r' = r /\ getr (setr s r x) r' = x).
Proof.
  intros s r x r'. unfold getr, setr.
  destruct (nth_setn x rep0 s (N.to_nat r) (N.to_nat r')) as [E|[E1 E]]; [left; exact E|].
  right. split; [apply N2Nat.inj; exact E1 | exact E].
Qed.

Definition local (s : sys) (o : op) : option (N * rep) :=
  match o with
  | OCreate r t u => do_create (t, r) u (getr s r)
  | OMod r t u => Some (do_mod (t, r) u (getr s r))
  | ODelete r t u => Some (do_delete (t, r) u (getr s r))
  | OPurgeRec r t => Some (do_purge_rec (t, r) (getr s r))
  | OPurgeTomb r t => Some (do_purge_tomb (t, r) (getr s r))
  | ORepl to from t => consume to t (provide (cur_range (ruv (getr s to))) (getr s from)) (getr s to)
  end.

Lemma step_local s o :
  step s o = match local s o with Some (k, x) => Some (k, setr s (op_rep o) x) | None => None end.
Proof. destruct o; reflexivity. Qed.

(* Model.causeb is its decidable form; the statement of C09_entry_appears_only_by_create_or_supply spells it out *)
Definition Cause (s : sys) (o : op) (k : N) (r u : N) : Prop :=
  (exists t, o = OCreate r t u) \/
  (exists from t a c ch, o = ORepl r from t /\ k = R_V1 /\ In (u, ELive a c ch) (ents (getr s from))).

Lemma local_change s o k x u :
  local s o = Some (k, x) ->
  change (Cause s o k (op_rep o) u) (find u (ents (getr s (op_rep o)))) (find u (ents x)).
Proof.
  destruct o as [r t v|r t v|r t v|r t|r t|to from t]; cbn [local op_rep]; intros H.
  - (* create: the slot was empty *)
    unfold do_create in H. destruct (find v (ents (getr s r))) eqn:E; [discriminate|]. injection H as <- <-.
    apply change_put; [rewrite E; reflexivity | intros _ ->; left; exists t; reflexivity].
  - (* modify: rewrites a live entry or does nothing *)
    injection H as H. unfold do_mod in H.
    destruct (find v (ents (getr s r))) as [[a [|p] ch|a]|] eqn:E; injection H as <- <-; try apply change_refl.
    apply change_put; rewrite E; [reflexivity | discriminate].
  - (* delete: likewise *)
    injection H as H. unfold do_delete in H.
    destruct (find v (ents (getr s r))) as [[a [|p] ch|a]|] eqn:E; injection H as <- <-; try apply change_refl.
    apply change_put; rewrite E; [reflexivity | discriminate].
  - (* purge_recycled: some entries become tombstones in place *)
    injection H as H. unfold do_purge_rec in H.
    destruct (map fst (filter (rec_due (fst (t, r))) (ents (getr s r)))) as [|d0 dl];
      injection H as <- <-; [apply change_refl|].
    cbn [ents]. rewrite (find_relabel (fun w => mem w (d0 :: dl))).
    destruct (find u (ents (getr s r))) as [[|]|]; cbn [change is_live_state]; [exact I | | discriminate].
    left. destruct (mem u (d0 :: dl)); reflexivity.
  - (* purge_tombstones: refuses, or removes entries *)
    injection H as H. unfold do_purge_tomb in H.
    match type of H with context [if ?b then _ else _] => destruct b end; [injection H as <- <-; apply change_refl|].
    match type of H with context [if ?b then _ else _] => destruct b end; injection H as <- <-; [apply change_refl|].
    cbn [ents]. rewrite find_del.
    match goal with |- context [if ?b then _ else _] => destruct b end; [apply change_gone | apply change_refl].
  - (* replication: a live change state that appears was supplied, so the supplier holds it *)
    eapply change_impl; [|exact (consume_change _ _ _ _ _ _ u H)].
    intros [-> [ranges [entries [a1 [k1 [c1 [Hp Hin]]]]]]].
    destruct (provide_live _ _ _ _ _ _ _ _ Hp Hin) as [ch0 Hs].
    right. exists from, t, a1, k1, ch0. repeat split; try reflexivity. exact Hs.
Qed.

Theorem step_change s o k s1 r u :
  step s o = Some (k, s1) ->
  change (Cause s o k r u) (find u (ents (getr s r))) (find u (ents (getr s1 r))).
Proof.
  rewrite step_local. destruct (local s o) as [[k0 x]|] eqn:E; [|discriminate]. intros [= <- <-].
  destruct (getr_setr s (op_rep o) x r) as [->|[-> ->]]; [apply change_refl | exact (local_change s o k0 x u E)].
Qed.

Lemma step_pres s o k s1 r u :
  step s o = Some (k, s1) ->
  is_tomb (find u (ents (getr s r))) = true ->
  is_tomb (find u (ents (getr s1 r))) = true \/ find u (ents (getr s1 r)) = None.
Proof.
  intros H Ht. pose proof (step_change s o k s1 r u H) as Hc.
  destruct (find u (ents (getr s r))) as [[|]|]; [discriminate Ht | exact Hc | discriminate Ht].
Qed.

Lemma step_appear s o k s1 r u :
  step s o = Some (k, s1) ->
  find u (ents (getr s r)) = None -> is_live_state (find u (ents (getr s1 r))) = true ->
  Cause s o k r u.
Proof. intros H Hn. pose proof (step_change s o k s1 r u H) as Hc. rewrite Hn in Hc. exact Hc. Qed.

Lemma causeb_complete s o k r u : Cause s o k r u -> causeb s o k r u = true.
Proof.
  intros [[t ->]|[from [t [a [c [ch [-> [-> Hin]]]]]]]]; cbn [causeb].
  - rewrite !N.eqb_refl. reflexivity.
  - rewrite !N.eqb_refl. cbn [andb]. apply existsb_exists. exists (u, ELive a c ch). split; [exact Hin|].
    cbn [fst snd]. rewrite N.eqb_refl. reflexivity.
Qed.

Lemma run_not_live : forall ops s s' r u,
  run s ops = Some s' -> guardedb s ops r u = true ->
  is_live_state (find u (ents (getr s r))) = false ->
  is_live_state (find u (ents (getr s' r))) = false.
Proof.
  induction ops as [|o ops IH]; intros s s' r u Hrun Hg Hq; cbn [run guardedb] in Hrun, Hg.
  - injection Hrun as <-. exact Hq.
  - destruct (step s o) as [[k s1]|] eqn:Es; [|discriminate].
    apply andb_true_iff in Hg as [Hc Hg]. apply (IH s1 s' r u Hrun Hg).
    apply not_live_iff in Hq as [Ht|Hn].
    + apply not_live_iff. exact (step_pres _ _ _ _ _ _ Es Ht).
    + rewrite Hn in Hc. destruct (is_live_state (find u (ents (getr s1 r)))) eqn:El; [|reflexivity].
      rewrite (causeb_complete _ _ _ _ _ (step_appear _ _ _ _ _ _ Es Hn El)) in Hc. discriminate.
Qed.

Lemma run_tomb_until_reaped : forall ops s s' r u,
  run s ops = Some s' -> is_tomb (find u (ents (getr s r))) = true ->
  is_tomb (find u (ents (getr s' r))) = true \/
  exists pre post sm, ops = pre ++ post /\ run s pre = Some sm /\ find u (ents (getr sm r)) = None.
Proof.
  induction ops as [|o ops IH]; intros s s' r u Hrun Ht; cbn [run] in Hrun.
  - injection Hrun as <-. left. exact Ht.
  - destruct (step s o) as [[k s1]|] eqn:Es; [|discriminate].
    destruct (step_pres _ _ _ _ _ _ Es Ht) as [Ht1|Hn1].
    + destruct (IH s1 s' r u Hrun Ht1) as [H|[pre [post [sm [-> [Hr Hn]]]]]]; [left; exact H|].
      right. exists (o :: pre), post, sm. split; [reflexivity|]. split; [|exact Hn].
      cbn [run]. rewrite Es. exact Hr.
    + right. exists [o], ops, s1. split; [reflexivity|]. split; [|exact Hn1].
      cbn [run]. rewrite Es. reflexivity.
Qed.

Lemma provide_lagging cns s e cmin cmx :
  In e (view_range (cmax s - W) (ruv s)) -> R.lookup (fst e) cns = Some (cmin, cmx) -> cmx < fst (snd e) ->
  provide cns s = CtxRefresh \/ provide cns s = CtxUnwilling.
Proof.
  intros Hin Hl Hlt. unfold provide.
  assert (Hb : existsb (R.behind cns) (view_range (cmax s - W) (ruv s)) = true).
  { apply existsb_exists. exists e. split; [exact Hin|]. unfold R.behind. rewrite Hl. cbn [snd].
    apply N.ltb_lt. exact Hlt. }
  pose proof (KV.C10.Proofs.behind_refused _ _ Hb) as H.
  destruct (R.range_diff cns _) as [d| | | |]; try contradiction; [left | right]; reflexivity.
Qed.
