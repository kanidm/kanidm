From Coq Require Import List NArith Bool.
Import ListNotations.
Require Import KV.C09.Model KV.C09.Proofs.
Require KV.C10.Model.
Open Scope N_scope.

(* merge_state: as soon as one side is a tombstone the result is a tombstone, whichever side it is and whatever
   the other side holds (any concurrent edits) *)
Theorem C09_tombstone_absorbing : forall i d m,
  merge_state i d = Some m ->
  (exists a, i = ITomb a) \/ (exists b, d = ETomb b) ->
  exists c, m = ETomb c.
Proof.
  intros i d m H [[a ->]|[b ->]]; [eapply merge_tomb_left | eapply merge_tomb_right]; exact H.
Qed.

(* two tombstones merge to the earlier one *)
Theorem C09_tombstone_merge_min : forall a b,
  merge_state (ITomb a) (ETomb b) = Some (ETomb (if cid_ltb a b then a else b)).
Proof. reflexivity. Qed.

(* ANY transaction of the modelled system (create, modify, delete, purge_recycled, purge_tombstones, incremental
   replication with any outcome), on ANY state: a uuid that a replica holds as a tombstone is afterwards still a
   tombstone there, or the replica holds nothing for it (it was reaped).  No transaction turns a held tombstone
   back into an entry. *)
Theorem C09_tombstone_never_revived_in_place : forall s o k s1 r u,
  step s o = Some (k, s1) ->
  is_tomb (find u (ents (getr s r))) = true ->
  is_tomb (find u (ents (getr s1 r))) = true \/ find u (ents (getr s1 r)) = None.
Proof. exact step_pres. Qed.

(* ... over whole histories of any length: at the end the tombstone is still there, or at some point of the
   history the replica had forgotten the uuid completely. *)
Theorem C09_tombstone_until_reaped : forall ops s s' r u,
  run s ops = Some s' ->
  is_tomb (find u (ents (getr s r))) = true ->
  is_tomb (find u (ents (getr s' r))) = true \/
  exists pre post sm, ops = pre ++ post /\ run s pre = Some sm /\ find u (ents (getr sm r)) = None.
Proof. exact run_tomb_until_reaped. Qed.

(* The ONLY transactions after which a replica holds a (live-state) entry for a uuid it held nothing for are:
   a create request for that uuid on that replica, or an APPLIED incremental replication into that replica whose
   supplier holds the uuid in a live change state at that moment. *)
Theorem C09_entry_appears_only_by_create_or_supply : forall s o k s1 r u,
  step s o = Some (k, s1) ->
  find u (ents (getr s r)) = None ->
  is_live_state (find u (ents (getr s1 r))) = true ->
  (exists t, o = OCreate r t u) \/
  (exists from t a c ch, o = ORepl r from t /\ k = R_V1 /\ In (u, ELive a c ch) (ents (getr s from))).
Proof. exact step_appear. Qed.

(* PARTIAL no-resurrection theorem (histories of any length, any schedule, any times): if the uuid is never
   created again by a request and no replication is applied at a moment when the consumer holds nothing for the
   uuid while the supplier still holds it live — i.e. whenever the refusal the property demands actually
   happens —, then a uuid that is a tombstone (or already forgotten) on a replica is not an entry there at the end
   of the history, nor at any point of it (guardedb is a conjunction over the steps, so it holds of every prefix).
   What is missing for the full statement: the premise on replication steps is NOT enforced by the code
   (C09_refuted). *)
Theorem C09_no_resurrection_partial : forall ops s s' r u,
  run s ops = Some s' ->
  guardedb s ops r u = true ->
  is_tomb (find u (ents (getr s r))) = true \/ find u (ents (getr s r)) = None ->
  is_live_state (find u (ents (getr s' r))) = false.
Proof.
  intros ops s s' r u Hrun Hg Hq. apply not_live_iff in Hq. exact (run_not_live ops s s' r u Hrun Hg Hq).
Qed.

(* Lag detection as far as the code has it (on top of C10): if the consumer lists a server and its newest change
   of that server is older than the oldest change of that server in the supplier's (trim-filtered) view, the
   supplier never supplies changes: it answers RefreshRequired or UnwillingToSupply. *)
Theorem C09_lagging_refused : forall cns s e cmin cmx,
  In e (view_range (cmax s - W) (ruv s)) ->
  KV.C10.Model.lookup (fst e) cns = Some (cmin, cmx) ->
  cmx < fst (snd e) ->
  provide cns s = CtxRefresh \/ provide cns s = CtxUnwilling.
Proof. exact provide_lagging. Qed.

(* The full statement of the property for the model: from the warmed-up three-replica system, for every history,
   the observations the model makes of itself satisfy the property's predicate (no uuid once held as a tombstone
   is visible again on that replica; no replication is accepted while one side has reaped a deletion the other
   side has never seen). *)
Definition C09_full_statement : Prop :=
  forall ops steps, model_obs sys0 ops = Some steps -> pcheck (CHist sys0 steps) = true.

(* replica 1 creates u1, u2 and later falls silent; replica 2 deletes u1, purges it to a tombstone and reaps it
   (which trims replica 1 out of its RUV); replica 0 still holds u1 live and last wrote less than a window ago *)
Definition stale_clock_history : list op :=
  [OCreate 1 604874 1; OCreate 1 604915 2; ORepl 0 1 604956; ORepl 2 1 604997; ODelete 2 611045 1;
   OPurgeTomb 1 913445; ORepl 2 1 913486; OMod 1 1203790 2; ORepl 0 1 1203831; ORepl 2 1 1203872;
   OPurgeRec 2 1215968; OMod 0 1228064 2; ORepl 2 0 1228105; OPurgeTomb 2 1826815; ORepl 2 0 1826856].

Theorem C09_refuted : ~ C09_full_statement.
Proof.
  intros H.
  assert (Hf : match model_obs sys0 stale_clock_history with
               | Some l => pcheck (CHist sys0 l) | None => true end = false) by (vm_compute; reflexivity).
  destruct (model_obs sys0 stale_clock_history) as [steps|] eqn:E; [|discriminate Hf].
  rewrite (H _ _ E) in Hf. discriminate Hf.
Qed.

(* and it is a resurrection in the strict sense: after the last step u1, a tombstone reaped on replica 2, is a
   live (visible, not recycled, not conflict) entry of replica 2 again *)
Theorem C09_resurrection_witness :
  exists s', run sys0 stale_clock_history = Some s' /\
             is_visible (find 1 (ents (getr s' 2))) = true /\
  exists pre post sm a, stale_clock_history = pre ++ post /\ run sys0 pre = Some sm /\
             find 1 (ents (getr sm 2)) = Some (ETomb a).
Proof.
  assert (Hc : match run sys0 (firstn 11 stale_clock_history), run sys0 stale_clock_history with
               | Some sm, Some s' => (find 1 (ents (getr sm 2)), is_visible (find 1 (ents (getr s' 2))))
               | _, _ => (None, false) end = (Some (ETomb (1215968, 2)), true)) by (vm_compute; reflexivity).
  destruct (run sys0 (firstn 11 stale_clock_history)) as [sm|] eqn:Em; [|discriminate Hc].
  destruct (run sys0 stale_clock_history) as [s'|]; [|discriminate Hc]. injection Hc as Ht Hv.
  exists s'. split; [reflexivity|]. split; [exact Hv|].
  exists (firstn 11 stale_clock_history), (skipn 11 stale_clock_history), sm, (1215968, 2).
  split; [reflexivity|]. split; [exact Em | exact Ht].
Qed.

(* the no-resurrection half of the executable predicate means what it says at the first step: if pcheck accepts a
   recorded history, then after the first recorded transaction no uuid the touched replica had held as a
   tombstone is visible on it *)
Theorem C09_pcheck_sound_first_step : forall init o code snap rest,
  pcheck (CHist init (Obs o code snap :: rest)) = true ->
  forall u, In u (snd (pget (map (fun r => (r, tombs_of r)) init) (op_rep o))) ->
  is_visible (find u (ents snap)) = false.
Proof.
  intros init o code snap rest H u Hu. cbn [pcheck pcheck_steps] in H.
  apply andb_true_iff in H as [H _]. apply andb_true_iff in H as [_ H].
  unfold no_resurrection in H. rewrite forallb_forall in H.
  specialize (H u Hu). destruct (is_visible (find u (ents snap))); [discriminate | reflexivity].
Qed.
