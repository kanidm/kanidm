From Coq Require Import List NArith Bool.
Import ListNotations.
Require Import KV.C09.Model KV.C09.Proofs KV.C09.Props.
Open Scope N_scope.

(* one-way break: replica 1 stops hearing replica 0; replica 0 keeps pulling from 1; both keep purging *)
Definition round (t : N) : list op := [OPurgeRec 0 t; OPurgeTomb 0 (t + 1); OPurgeTomb 1 (t + 2); ORepl 0 1 (t + 3)].
Definition oneway_prefix : list op :=
  [OCreate 0 604855 1; OCreate 0 604856 2; ORepl 1 0 604866; OMod 0 604876 1; ODelete 0 604886 1]
  ++ round 756086 ++ round 907289 ++ round 1058492 ++ round 1209695.
Definition oneway_history : list op :=
  oneway_prefix ++ round 1360898 ++ round 1512101 ++ round 1663304 ++ round 1814507
  ++ [OMod 1 1814520 2; ORepl 0 1 1814530; ORepl 1 0 1814540; OMod 1 1814550 1; ORepl 0 1 1814560].

Definition st_after (ops : list op) (r u : N) : option est :=
  match run sys0 ops with Some s => find u (ents (getr s r)) | None => None end.

(* C09_tombstone_absorbing / C09_tombstone_never_revived_in_place / C09_tombstone_until_reaped: a real tombstone
   exists (u1 on replica 0 after the fourth housekeeping round), made from an entry with a modified attribute *)
Example C09_witness_tombstone : st_after oneway_prefix 0 1 = Some (ETomb (1209695, 0)).
Proof. vm_compute. reflexivity. Qed.
(* ... the live-vs-tombstone arm is met with concurrent edits on the live side *)
Example C09_witness_absorbing :
  merge_state (ILive (604855, 0) 0 [(3, (1814550, 1), true); (4, (1814550, 1), true)]) (ETomb (1209695, 0))
  = Some (ETomb (1209695, 0)).
Proof. vm_compute. reflexivity. Qed.
(* ... and it is reaped four rounds later (second disjunct of C09_tombstone_until_reaped) *)
Example C09_witness_reaped :
  st_after (oneway_prefix ++ round 1360898 ++ round 1512101 ++ round 1663304 ++ round 1814507) 0 1 = None.
Proof. vm_compute. reflexivity. Qed.

(* C09_no_resurrection_partial: the premises hold on a non-trivial history (healthy_history below, from the moment
   u1 is a tombstone on replica 0): the tombstone is reaped, replication is still applied afterwards (the last
   step, ORepl 2 1, is answered with changes), and u1 stays gone on replica 0 *)
Definition hk (t : N) : list op :=
  [OPurgeTomb 0 t; OPurgeTomb 1 (t + 1); OPurgeTomb 2 (t + 2);
   ORepl 1 0 (t + 10); ORepl 2 0 (t + 11); ORepl 0 1 (t + 12); ORepl 0 2 (t + 13); ORepl 1 2 (t + 14); ORepl 2 1 (t + 15)].
Definition healthy_history : list op :=
  [OCreate 0 604855 1; ORepl 1 0 604866; ORepl 2 0 604867; ODelete 0 604886 1; ORepl 1 0 604890; ORepl 2 1 604891]
  ++ hk 907000 ++ [OPurgeRec 0 1209695] ++ hk 1209700 ++ hk 1512100 ++ hk 1814508.
Example C09_witness_partial_premises :
  guardedb (match run sys0 (firstn 16 healthy_history) with Some s => s | None => sys0 end)
           (skipn 16 healthy_history) 0 1 = true
  /\ is_tomb (st_after (firstn 16 healthy_history) 0 1) = true
  /\ st_after healthy_history 0 1 = None
  /\ match model_obs sys0 healthy_history with
     | Some l => match last l (Obs (OPurgeRec 0 0) 0 rep0) with Obs _ k _ => k end | None => 99 end = R_V1.
Proof. vm_compute. repeat split; reflexivity. Qed.

(* the guard is not vacuous: it fails on the full one-way history, where replica 1 finally modifies u1 and
   replica 0 (which has reaped u1) applies that change: u1 is back on replica 0 as a conflict entry *)
Example C09_witness_guard_fails :
  guardedb (match run sys0 oneway_prefix with Some s => s | None => sys0 end)
           (skipn (length oneway_prefix) oneway_history) 0 1 = false
  /\ st_after oneway_history 0 1 = Some (ELive (604855, 0) 2 [(3, (1814550, 1), true); (4, (1814550, 1), true)]).
Proof. vm_compute. split; reflexivity. Qed.

(* C09_entry_appears_only_by_create_or_supply: the supply cause occurs (third step, ORepl 1 0); the create cause is
   the first step of oneway_prefix *)
Example C09_witness_appears_by_supply :
  st_after (firstn 2 oneway_prefix) 1 1 = None /\ is_live_state (st_after (firstn 3 oneway_prefix) 1 1) = true.
Proof. vm_compute. split; reflexivity. Qed.

(* C09_lagging_refused: a consumer that still lists the supplier's server with an old newest change is told to
   refresh (a one-way history in which replica 1 does not purge: it keeps its old rows of server 0) *)
Definition lagging_history : list op :=
  [OCreate 0 604855 1; ORepl 1 0 604866; ODelete 0 604886 1; OPurgeRec 0 1209695; OPurgeTomb 0 1209696;
   OPurgeTomb 0 1814508; ORepl 1 0 1814540].
Example C09_witness_lagging_refused :
  match model_obs sys0 lagging_history with
  | Some l => match last l (Obs (OPurgeRec 0 0) 0 rep0) with Obs _ k _ => k end
  | None => 0 end = R_REFRESH.
Proof. vm_compute. reflexivity. Qed.

(* the one-way history up to the point where the silent link has come back *)
Definition oneway_guarded : list op :=
  oneway_prefix ++ round 1360898 ++ round 1512101 ++ round 1663304 ++ round 1814507
  ++ [OMod 1 1814520 2; ORepl 0 1 1814530; ORepl 1 0 1814540].

(* (1) dropped deletion: in the one-way history the step `repl 1<-0` at 1814540 is ACCEPTED although replica 0 has
   reaped u1 and replica 1 has never seen the deletion: replica 1 keeps u1 live for ever *)
Example C09_refuted_dropped_deletion :
  match model_obs sys0 oneway_guarded with
  | Some l => (pcheck (CHist sys0 l), known (CHist sys0 l),
               match last l (Obs (OPurgeRec 0 0) 0 rep0) with Obs _ k _ => k end)
  | None => (true, false, 99) end = (false, true, R_V1)
  /\ is_visible (st_after oneway_guarded 1 1) = true.
Proof. vm_compute. split; reflexivity. Qed.

(* (2) resurrection: Props.stale_clock_history; the failing history lies in the known class *)
Example C09_refuted_resurrection :
  match model_obs sys0 stale_clock_history with
  | Some l => (pcheck (CHist sys0 l), known (CHist sys0 l)) | None => (true, false) end = (false, true).
Proof. vm_compute. reflexivity. Qed.

(* the known class is not everything: an ordinary history with deletion, purge, reaping and replication inside
   the window is outside it and satisfies the property *)
Example C09_witness_healthy :
  match model_obs sys0 healthy_history with
  | Some l => (pcheck (CHist sys0 l), known (CHist sys0 l), agree (CHist sys0 l)) | None => (false, true, false) end
  = (true, false, true)
  /\ st_after healthy_history 0 1 = None /\ st_after healthy_history 1 1 = None /\ st_after healthy_history 2 1 = None.
Proof. vm_compute. repeat split; reflexivity. Qed.
