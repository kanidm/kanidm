From Coq Require Import List NArith Bool Sorted.
Import ListNotations.
Require Import KV.C07.Model KV.C07.Proofs.
Open Scope N_scope.

(* A fresh change id is strictly above the maximum it was derived from, whatever the clock says. *)
Theorem C07_lamport_gt : forall ct mx, mx < lamport ct mx.
Proof. exact lamport_gt. Qed.

(* For every op list (commits, aborted transactions, restarts with any number of start-up
   commits, ARBITRARY clock readings incl. repeats and regressions) and every well-formed
   starting state, the committed change ids are strictly increasing and all above the last
   change id persisted before. *)
Theorem C07_strict : forall (s : st) (ops : list mop),
  dbv s <= mem s -> StronglySorted N.lt (dbv s :: run s ops).
Proof. exact run_strict. Qed.

(* The (timestamp, server) order is a strict total order (this and C07_cid_order_trans). *)
Theorem C07_cid_order_total : forall a b : cid,
  (cid_cmp a b = Eq <-> a = b) /\ cid_cmp b a = CompOpp (cid_cmp a b).
Proof.
  intros a b. split; [split; [apply cid_cmp_eq | intros ->; apply cid_cmp_refl] | apply cid_cmp_antisym].
Qed.
Theorem C07_cid_order_trans : forall a b c : cid,
  cid_cmp a b = Lt -> cid_cmp b c = Lt -> cid_cmp a c = Lt.
Proof. exact cid_lt_trans. Qed.
(* On one server it is the timestamp order. *)
Theorem C07_cid_same_server : forall t1 t2 sid, cid_ltb (t1, sid) (t2, sid) = (t1 <? t2).
Proof. exact same_server_order. Qed.

(* Soundness of the run-time tie: whenever the implementation's observations agree with the
   model, the property's executable predicate holds on those observations. *)
Theorem C07_agree_implies_property : forall c : case, agree c = true -> pcheck c = true.
Proof. exact agree_pcheck. Qed.
