From Coq Require Import List NArith Bool Sorted.
Import ListNotations.
Require Import KV.C07.Model.
Open Scope N_scope.

(* a clock that goes backwards across a restart, with an abort in between *)
Example C07_witness_regressing_clock :
  run (mkst 100 (Some 90)) [MCommit 50; MAbort 10; MRestart 5 2; MCommit 5; MCommit 7]
  = [101; 103; 104; 105; 106] /\ dbv (mkst 100 (Some 90)) <= mem (mkst 100 (Some 90)).
Proof. vm_compute. split; [reflexivity | discriminate]. Qed.

(* agree met by a history with an abort and a restart *)
Example C07_witness_agree :
  agree (CHist 10 11 13 13 [OCommit 3 14 14; OAbort 99 99; ORestart 1 15 16 16; OCommit 1 17 17]) = true.
Proof. vm_compute. reflexivity. Qed.
