(* Strictness: every operation issues a chain of ids that leads from the persisted id before it to the persisted id
   after it, and keeps wf; chains concatenate. *)
From Coq Require Import List NArith Bool Lia Sorted.
Import ListNotations.
Require Import KV.C07.Model.
Open Scope N_scope.
Arguments lamport : simpl never.
Arguments N.add : simpl never.
Arguments N.ltb : simpl never.
Arguments N.leb : simpl never.
Arguments N.eqb : simpl never.
Arguments N.sub : simpl never.

Definition wf (s : st) : Prop := dbv s <= mem s.

Lemma lamport_gt ct mx : mx < lamport ct mx.
Proof. unfold lamport. destruct (N.ltb_spec mx ct); lia. Qed.

Lemma lamport_ge_ct ct mx : ct <= lamport ct mx.
Proof. unfold lamport. destruct (N.ltb_spec mx ct); lia. Qed.

Lemma commit1_spec ct s :
  let '(s1, c) := commit1 ct s in
  mem s < c /\ mem s1 = c /\ db s1 = Some c.
Proof. unfold commit1; cbn. split; [apply lamport_gt | split; reflexivity]. Qed.

Fixpoint chain (lo : N) (l : list N) (hi : N) : Prop :=
  match l with
  | [] => lo <= hi
  | c :: r => lo < c /\ chain c r hi
  end.

Lemma chain_le l : forall lo hi, chain lo l hi -> lo <= hi.
Proof.
  induction l as [|c r IH]; cbn; intros lo hi H; [exact H|].
  destruct H as [Hlt Hc]. apply IH in Hc. lia.
Qed.

Lemma chain_app l1 : forall lo mid l2 hi, chain lo l1 mid -> chain mid l2 hi -> chain lo (l1 ++ l2) hi.
Proof.
  induction l1 as [|c r IH]; cbn; intros lo mid l2 hi H1 H2.
  - destruct l2 as [|c r]; cbn in *; [lia | split; [lia | apply H2]].
  - split; [apply H1 | apply (IH c mid); [apply H1 | exact H2]].
Qed.

Lemma chain_sorted l : forall lo hi, chain lo l hi -> StronglySorted N.lt (lo :: l).
Proof.
  intros lo hi H. apply Sorted_StronglySorted; [exact N.lt_trans|].
  revert lo H. induction l as [|c r IH]; intros lo H.
  - repeat constructor.
  - destruct H as [Hlt Hc]. constructor; [exact (IH c Hc) | constructor; exact Hlt].
Qed.

Lemma commit1_dbv ct s : wf s ->
  let '(s1, c) := commit1 ct s in dbv s < c /\ dbv s1 = c /\ wf s1.
Proof.
  intros W. pose proof (commit1_spec ct s) as H. destruct (commit1 ct s) as [s1 c].
  destruct H as (Hlt & Hm & Hdb).
  assert (Hd : dbv s1 = c) by (unfold dbv; rewrite Hdb; reflexivity).
  unfold wf in *. lia.
Qed.

Lemma commits_chain fuel : forall ct s, wf s ->
  let '(s1, l) := commits fuel ct s in chain (dbv s) l (dbv s1) /\ wf s1.
Proof.
  induction fuel as [|f IH]; intros ct s W; cbn [commits].
  - split; [apply N.le_refl | exact W].
  - pose proof (commit1_dbv ct s W) as H. destruct (commit1 ct s) as [s1 c].
    destruct H as (Hlt & Hd & W1). specialize (IH ct s1 W1).
    destruct (commits f ct s1) as [s2 l]. destruct IH as [Hc W2]. rewrite Hd in Hc.
    split; [split|]; assumption.
Qed.

Lemma restart0_spec ct s : dbv (restart0 ct s) = dbv s /\ dbv s < mem (restart0 ct s).
Proof.
  unfold restart0, dbv; cbn. split; [reflexivity|].
  destruct (db s) as [d|]; [apply lamport_gt|].
  pose proof (lamport_gt ct ct). lia.
Qed.

Lemma startup_chain ct n s : wf s ->
  let '(s1, l) := commits n ct (restart0 ct s) in chain (dbv s) l (dbv s1) /\ wf s1.
Proof.
  intros W. destruct (restart0_spec ct s) as [Hd Hm]. rewrite <- Hd.
  apply commits_chain. unfold wf. lia.
Qed.

Lemma step_chain s o : wf s -> let '(s1, l) := step s o in chain (dbv s) l (dbv s1) /\ wf s1.
Proof.
  intros W. destruct o as [ct|ct|ct k]; cbn [step].
  - pose proof (commit1_dbv ct s W) as H. destruct (commit1 ct s) as [s1 c].
    destruct H as (Hlt & Hd & W1). split; [cbn; lia | exact W1].
  - split; [apply N.le_refl | exact W].
  - apply startup_chain. exact W.
Qed.

Lemma run_chain : forall ops s, wf s -> exists hi, chain (dbv s) (run s ops) hi.
Proof.
  induction ops as [|o r IH]; intros s W; cbn [run].
  - exists (dbv s). apply N.le_refl.
  - pose proof (step_chain s o W) as H. destruct (step s o) as [s1 l]. destruct H as [Hc W1].
    destruct (IH s1 W1) as [hi H2]. exists hi. exact (chain_app _ _ _ _ _ Hc H2).
Qed.

Lemma run_strict s ops : wf s -> StronglySorted N.lt (dbv s :: run s ops).
Proof. intros W. destruct (run_chain ops s W) as [hi H]. exact (chain_sorted _ _ _ H). Qed.

Lemma cid_cmp_refl a : cid_cmp a a = Eq.
Proof. unfold cid_cmp. rewrite N.compare_refl. apply N.compare_refl. Qed.

Lemma cid_cmp_eq a b : cid_cmp a b = Eq -> a = b.
Proof.
  destruct a as [t1 s1], b as [t2 s2]. unfold cid_cmp; cbn.
  destruct (t1 ?= t2) eqn:E; try discriminate. intros E2.
  apply N.compare_eq in E. apply N.compare_eq in E2. subst. reflexivity.
Qed.

Lemma cid_cmp_antisym a b : cid_cmp b a = CompOpp (cid_cmp a b).
Proof.
  destruct a as [t1 s1], b as [t2 s2]. unfold cid_cmp; cbn.
  rewrite (N.compare_antisym t1 t2). destruct (t1 ?= t2); cbn; try reflexivity.
  apply N.compare_antisym.
Qed.

Lemma cid_lt_trans a b c : cid_cmp a b = Lt -> cid_cmp b c = Lt -> cid_cmp a c = Lt.
Proof.
  destruct a as [t1 s1], b as [t2 s2], c as [t3 s3]. unfold cid_cmp; cbn.
  destruct (N.compare_spec t1 t2), (N.compare_spec t2 t3); try discriminate; subst; intros H1 H2.
  - rewrite N.compare_refl. rewrite N.compare_lt_iff in *. lia.
  - apply N.compare_lt_iff in H0 as ->. reflexivity.
  - apply N.compare_lt_iff in H as ->. reflexivity.
  - assert (t1 < t3) as ->%N.compare_lt_iff by lia. reflexivity.
Qed.

Lemma same_server_order t1 t2 sid : cid_ltb (t1, sid) (t2, sid) = (t1 <? t2).
Proof.
  unfold cid_ltb, cid_cmp; cbn. rewrite N.compare_refl. unfold N.ltb.
  destruct (t1 ?= t2); reflexivity.
Qed.

Lemma hist_agree_strict : forall ops s,
  wf s -> hist_agree s ops = true -> obs_strict (dbv s) ops = true.
Proof.
  induction ops as [|o r IH]; intros s W H; [reflexivity|].
  destruct o as [ct c at_|ct c|ct a b c]; cbn [hist_agree obs_strict] in *.
  - pose proof (commit1_dbv ct s W) as Hs. destruct (commit1 ct s) as [s1 m].
    destruct Hs as (Hlt & Hd & W1).
    rewrite !andb_true_iff, !N.eqb_eq in H. destruct H as ((-> & ->) & Hr).
    rewrite N.eqb_refl, (proj2 (N.ltb_lt _ _) Hlt), <- Hd. exact (IH _ W1 Hr).
  - rewrite andb_true_iff in H. apply IH; [exact W | apply H].
  - unfold restart_agree in H. pose proof (startup_chain ct (N.to_nat (b - a)) s W) as Hs.
    destruct (commits (N.to_nat (b - a)) ct (restart0 ct s)) as [s1 l].
    destruct Hs as [Hc W1]. apply chain_le, N.leb_le in Hc.
    destruct (restart0_spec ct s) as [_ Hm]. apply N.ltb_lt in Hm.
    apply andb_prop in H as [H Hr]. apply andb_prop in H as [H Hcd]. apply andb_prop in H as [H Hb].
    apply andb_prop in H as [H _]. apply andb_prop in H as [Ha _].
    apply N.eqb_eq in Ha, Hb, Hcd. subst a b c.
    rewrite Hc, Hm. exact (IH (mkst (mem s1) (Some (dbv s1))) W1 Hr).
Qed.

Lemma agree_pcheck c : agree c = true -> pcheck c = true.
Proof.
  destruct c as [ct mx out|t1 s1 t2 s2 res|t0 a b c ops]; cbn [agree pcheck].
  - rewrite N.eqb_eq. intros ->. apply N.ltb_lt, lamport_gt.
  - reflexivity.
  - apply (hist_agree_strict _ (mkst 0 None)). apply N.le_refl.
Qed.
