(* KV.C08.Proofs — ejoin is decided by rank (ejoin_rank), which gives its semilattice laws; convergence is proved once for
   an abstract join (Section Converge) and carried over uuid by uuid (proj); sys_wf is the invariant under which the
   join is commutative. *)
From Coq Require Import List NArith Bool Lia PeanoNat Arith Permutation.
Import ListNotations.
Require Import KV.C08.Model.
Open Scope N_scope.

Arguments N.ltb : simpl never.
Arguments N.leb : simpl never.
Arguments N.eqb : simpl never.

Lemma cid_eqb_eq : forall a b, cid_eqb a b = true <-> a = b.
Proof.
  intros [a1 a2] [b1 b2]; unfold cid_eqb; cbn [fst snd].
  rewrite andb_true_iff, !N.eqb_eq. split; [intros [-> ->]; reflexivity | intros [= -> ->]; auto].
Qed.

Lemma cid_eqb_refl : forall a, cid_eqb a a = true.
Proof. intros; apply cid_eqb_eq; reflexivity. Qed.

Lemma cid_ltb_spec : forall a b,
  cid_ltb a b = true <-> (fst a < fst b \/ (fst a = fst b /\ snd a < snd b)).
Proof.
  intros [a1 a2] [b1 b2]; unfold cid_ltb; cbn [fst snd].
  rewrite orb_true_iff, andb_true_iff, !N.ltb_lt, N.eqb_eq. tauto.
Qed.

Lemma cid_ltb_false : forall a b,
  cid_ltb a b = false <-> (fst b < fst a \/ (fst a = fst b /\ snd b <= snd a)).
Proof. intros a b. rewrite <- not_true_iff_false, cid_ltb_spec. lia. Qed.

Lemma cid_ltb_irrefl : forall a, cid_ltb a a = false.
Proof. intros; apply cid_ltb_false; lia. Qed.

Lemma cid_ltb_trans : forall a b c, cid_ltb a b = true -> cid_ltb b c = true -> cid_ltb a c = true.
Proof. intros a b c H1 H2. apply cid_ltb_spec in H1, H2. apply cid_ltb_spec. lia. Qed.

Lemma cid_ltb_asym : forall a b, cid_ltb a b = true -> cid_ltb b a = false.
Proof. intros a b H. apply cid_ltb_spec in H. apply cid_ltb_false. lia. Qed.

Lemma cid_total : forall a b, cid_ltb a b = false -> cid_ltb b a = false -> a = b.
Proof.
  intros [a1 a2] [b1 b2] H1 H2. apply cid_ltb_false in H1, H2. cbn [fst snd] in *.
  f_equal; lia.
Qed.

Lemma cid_nlt_trans : forall a b c, cid_ltb a b = false -> cid_ltb b c = false -> cid_ltb a c = false.
Proof. intros a b c H1 H2. apply cid_ltb_false in H1, H2. apply cid_ltb_false. lia. Qed.

Lemma cid_lt_nlt : forall a b c, cid_ltb a b = true -> cid_ltb c b = false -> cid_ltb a c = true.
Proof. intros a b c H1 H2. apply cid_ltb_spec in H1. apply cid_ltb_false in H2. apply cid_ltb_spec. lia. Qed.

Lemma cid_nlt_lt : forall a b c, cid_ltb b a = false -> cid_ltb b c = true -> cid_ltb a c = true.
Proof. intros a b c H1 H2. apply cid_ltb_spec in H2. apply cid_ltb_false in H1. apply cid_ltb_spec. lia. Qed.

Inductive cid_cases (a b : cid) : bool -> bool -> bool -> Prop :=
| cid_cases_lt : cid_cases a b true false false
| cid_cases_gt : cid_cases a b false true false
| cid_cases_eq : a = b -> cid_cases a b false false true.

Lemma cid_cases_spec : forall a b, cid_cases a b (cid_ltb a b) (cid_ltb b a) (cid_eqb a b).
Proof.
  intros a b. destruct (cid_eqb a b) eqn:E.
  - apply cid_eqb_eq in E. subst b. rewrite cid_ltb_irrefl. constructor. reflexivity.
  - destruct (cid_ltb a b) eqn:E1; [rewrite (cid_ltb_asym _ _ E1); constructor|].
    destruct (cid_ltb b a) eqn:E2; [constructor|].
    rewrite (cid_total _ _ E1 E2), cid_eqb_refl in E. discriminate.
Qed.

Lemma cmerge_idem : forall x, cmerge x x = x.
Proof. intros [[c v]|]; cbn; [rewrite cid_ltb_irrefl|]; reflexivity. Qed.

Lemma cmerge_assoc : forall x y z, cmerge x (cmerge y z) = cmerge (cmerge x y) z.
Proof.
  intros [[a va]|] [[b vb]|] [[c vc]|]; cbn; try reflexivity.
  - destruct (cid_ltb c b) eqn:E1; destruct (cid_ltb b a) eqn:E2; cbn; rewrite ?E1, ?E2; try reflexivity.
    + rewrite (cid_ltb_trans _ _ _ E1 E2). reflexivity.
    + rewrite (cid_nlt_trans _ _ _ E1 E2). reflexivity.
  - destruct (cid_ltb b a); reflexivity.
Qed.

Lemma cmerge_either : forall x y, cmerge x y = x \/ cmerge x y = y.
Proof. intros [[a va]|] [[b vb]|]; cbn; auto. destruct (cid_ltb b a); auto. Qed.

Lemma zipw_nil_r : forall l, zipw l [] = l.
Proof. destruct l; reflexivity. Qed.

Lemma zipw_idem : forall l, zipw l l = l.
Proof. induction l as [|x l IH]; cbn; [reflexivity | rewrite cmerge_idem, IH; reflexivity]. Qed.

Lemma zipw_assoc : forall l m n, zipw l (zipw m n) = zipw (zipw l m) n.
Proof.
  induction l as [|x l IH]; intros m n; [reflexivity|].
  destruct m as [|y m]; [reflexivity|].
  destruct n as [|z n]; [reflexivity|].
  cbn. rewrite cmerge_assoc, IH. reflexivity.
Qed.

Definition cell_at' (i : nat) (m : amap) : cell := nth i m None.

Lemma cmerge_none_r : forall x, cmerge x None = x.
Proof. intros [[c v]|]; reflexivity. Qed.

Lemma nth_zipw : forall l m i, nth i (zipw l m) None = cmerge (nth i l None) (nth i m None).
Proof.
  induction l as [|x l IH]; intros [|y m] [|i]; cbn [zipw nth]; rewrite ?cmerge_none_r; try reflexivity.
  apply IH.
Qed.

(* "one change id names one write": a table of what was written to attribute i at change id c; an entry is
   consistent with the table when every attribute it records as changed at c holds what was written at c *)
Definition wtab := nat -> cid -> option N.
Definition cwf (w : wtab) (i : nat) (x : cell) : Prop :=
  match x with Some (c, v) => w i c = v | None => True end.
Definition mwf (w : wtab) (m : amap) : Prop := forall i, cwf w i (nth i m None).
Definition ewf (w : wtab) (e : est) : Prop :=
  match e with Live _ m => mwf w m | Tomb _ => True end.

Lemma mwf_nil : forall w, mwf w [].
Proof. intros w [|i]; exact I. Qed.

Lemma mwf_cons : forall w x m, mwf w (x :: m) <-> cwf w 0 x /\ mwf (fun i => w (S i)) m.
Proof.
  intros w x m. split.
  - intros H. split; [exact (H O) | intro i; exact (H (S i))].
  - intros [Hx Hm] [|i]; [exact Hx | exact (Hm i)].
Qed.

(* ties keep the database side, so the sides may be swapped only because equal change ids carry equal values *)
Lemma cmerge_comm : forall w i x y, cwf w i x -> cwf w i y -> cmerge x y = cmerge y x.
Proof.
  intros w i [[a va]|] [[b vb]|] Hx Hy; cbn in *; try reflexivity.
  destruct (cid_cases_spec a b) as [| | E]; try reflexivity.
  subst b. congruence.
Qed.

Lemma zipw_comm : forall l w m, mwf w l -> mwf w m -> zipw l m = zipw m l.
Proof.
  induction l as [|x l IH]; intros w m Hl Hm.
  - symmetry. apply zipw_nil_r.
  - destruct m as [|y m]; [reflexivity|].
    apply mwf_cons in Hl, Hm. destruct Hl as [Hx Hl], Hm as [Hy Hm]. cbn.
    rewrite (cmerge_comm w O x y Hx Hy), (IH _ m Hl Hm). reflexivity.
Qed.

Lemma mwf_zipw : forall w l m, mwf w l -> mwf w m -> mwf w (zipw l m).
Proof.
  intros w l m Hl Hm i. rewrite nth_zipw.
  destruct (cmerge_either (nth i l None) (nth i m None)) as [-> | ->]; auto.
Qed.

(* What the consumer writes back is decided by rank: a tombstone ranks before a live entry, then the earlier
   deletion / creation ranks first.  The version that ranks first survives whole; only versions of equal rank
   (same creation, or two tombstones of one instant) are merged. *)
Definition rank (e : est) : bool * cid :=
  match e with Tomb a => (false, a) | Live a _ => (true, a) end.
Definition rlt (p q : bool * cid) : bool :=
  match fst p, fst q with
  | false, true => true
  | true, false => false
  | _, _ => cid_ltb (snd p) (snd q)
  end.

Lemma rlt_irrefl : forall p, rlt p p = false.
Proof. intros [[] a]; apply cid_ltb_irrefl. Qed.

Lemma rlt_trans : forall p q r, rlt p q = true -> rlt q r = true -> rlt p r = true.
Proof. intros [[] a] [[] b] [[] c]; cbn; try easy; apply cid_ltb_trans. Qed.

Lemma rlt_asym : forall p q, rlt p q = true -> rlt q p = false.
Proof. intros [[] a] [[] b]; cbn; try easy; apply cid_ltb_asym. Qed.

Lemma rlt_cases : forall p q, rlt p q = true \/ rlt q p = true \/ p = q.
Proof.
  intros [[] a] [[] b]; cbn; auto; destruct (cid_cases_spec a b) as [| | E]; auto; subst b; auto.
Qed.

Lemma ejoin_rank : forall x y,
  ejoin x y = if rlt (rank x) (rank y) then x else if rlt (rank y) (rank x) then y else merge_state x y.
Proof.
  intros [a m|a] [b n|b]; try reflexivity; unfold ejoin, add_conflict, resolve; cbn;
    destruct (cid_cases_spec a b); reflexivity.
Qed.

Lemma ejoin_l : forall x y, rlt (rank x) (rank y) = true -> ejoin x y = x.
Proof. intros x y H. rewrite ejoin_rank, H. reflexivity. Qed.

Lemma ejoin_r : forall x y, rlt (rank y) (rank x) = true -> ejoin x y = y.
Proof. intros x y H. rewrite ejoin_rank, (rlt_asym _ _ H), H. reflexivity. Qed.

Lemma ejoin_tie : forall x y, rank x = rank y -> ejoin x y = merge_state x y.
Proof. intros x y E. rewrite ejoin_rank, E, rlt_irrefl. reflexivity. Qed.

Lemma rank_ejoin_tie : forall x y, rank x = rank y -> rank (ejoin x y) = rank y.
Proof.
  intros x y E. rewrite (ejoin_tie x y E).
  destruct x as [a m|a], y as [b n|b]; try discriminate E; [exact E|].
  cbn. destruct (cid_ltb a b); [exact E | reflexivity].
Qed.

Lemma merge_state_assoc : forall x y z, rank x = rank y -> rank y = rank z ->
  merge_state x (merge_state y z) = merge_state (merge_state x y) z.
Proof.
  intros [a m|a] [b n|b] [c k|c] [= ->] [= ->]; cbn.
  - rewrite zipw_assoc. reflexivity.
  - rewrite cid_ltb_irrefl. cbn. rewrite cid_ltb_irrefl. reflexivity.
Qed.

Lemma ejoin_idem : forall e, ejoin e e = e.
Proof.
  intros e. rewrite ejoin_tie by reflexivity.
  destruct e as [a m|a]; cbn; [rewrite zipw_idem | rewrite cid_ltb_irrefl]; reflexivity.
Qed.

(* by the order of the three ranks; on ties the rank of the merged version is that of its parts *)
Lemma ejoin_assoc : forall x y z, ejoin x (ejoin y z) = ejoin (ejoin x y) z.
Proof.
  intros x y z.
  destruct (rlt_cases (rank x) (rank y)) as [Hxy | [Hyx | Exy]];
    destruct (rlt_cases (rank y) (rank z)) as [Hyz | [Hzy | Eyz]].
  - (* x, y, z *) rewrite (ejoin_l y z Hyz), (ejoin_l x y Hxy), (ejoin_l x z (rlt_trans _ _ _ Hxy Hyz)). reflexivity.
  - (* x and z before y *) rewrite (ejoin_r y z Hzy), (ejoin_l x y Hxy). reflexivity.
  - (* x, y = z *) rewrite (ejoin_l x y Hxy), (ejoin_l x z), (ejoin_l x (ejoin y z));
      rewrite ?(rank_ejoin_tie y z Eyz); congruence.
  - (* y before x and z *) rewrite (ejoin_l y z Hyz), (ejoin_r x y Hyx), (ejoin_l y z Hyz). reflexivity.
  - (* z, y, x *) rewrite (ejoin_r y z Hzy), (ejoin_r x y Hyx), (ejoin_r y z Hzy), (ejoin_r x z (rlt_trans _ _ _ Hzy Hyx)).
    reflexivity.
  - (* y = z, x *) rewrite (ejoin_r x y Hyx), (ejoin_r x (ejoin y z)); rewrite ?(rank_ejoin_tie y z Eyz); congruence.
  - (* x = y, z *) rewrite (ejoin_l y z Hyz), (ejoin_l (ejoin x y) z); rewrite ?(rank_ejoin_tie x y Exy); congruence.
  - (* z, x = y *) rewrite (ejoin_r y z Hzy), (ejoin_r x z), (ejoin_r (ejoin x y) z);
      rewrite ?(rank_ejoin_tie x y Exy); congruence.
  - (* x = y = z *) pose proof (rank_ejoin_tie x y Exy) as Em. pose proof (rank_ejoin_tie y z Eyz) as Em'.
    rewrite (ejoin_tie x (ejoin y z)), (ejoin_tie (ejoin x y) z), (ejoin_tie x y Exy), (ejoin_tie y z Eyz) by congruence.
    apply merge_state_assoc; assumption.
Qed.

Lemma ewf_ejoin : forall w x y, ewf w x -> ewf w y -> ewf w (ejoin x y).
Proof.
  intros w x y Hx Hy. rewrite ejoin_rank.
  destruct (rlt (rank x) (rank y)); [exact Hx|]. destruct (rlt (rank y) (rank x)); [exact Hy|].
  destruct x as [a m|a], y as [b n|b]; cbn; try exact I; [apply mwf_zipw; assumption | destruct (cid_ltb a b); exact I].
Qed.

Lemma ejoin_comm : forall w x y, ewf w x -> ewf w y -> ejoin x y = ejoin y x.
Proof.
  intros w x y Hx Hy. destruct (rlt_cases (rank x) (rank y)) as [H | [H | E]].
  - rewrite (ejoin_l x y H), (ejoin_r y x H). reflexivity.
  - rewrite (ejoin_r x y H), (ejoin_l y x H). reflexivity.
  - rewrite (ejoin_tie x y E), (ejoin_tie y x (eq_sym E)).
    destruct x as [a m|a], y as [b n|b]; try discriminate E; injection E as ->; [|reflexivity].
    cbn. rewrite (zipw_comm m w n Hx Hy). reflexivity.
Qed.

Definition owf (w : wtab) (o : option est) : Prop := match o with Some e => ewf w e | None => True end.

Lemma ojoin_idem : forall x, ojoin x x = x.
Proof. intros [e|]; cbn; [rewrite ejoin_idem|]; reflexivity. Qed.

Lemma ojoin_assoc : forall x y z, ojoin x (ojoin y z) = ojoin (ojoin x y) z.
Proof. intros [x|] [y|] [z|]; cbn; try reflexivity. rewrite ejoin_assoc. reflexivity. Qed.

Lemma ojoin_comm : forall w x y, owf w x -> owf w y -> ojoin x y = ojoin y x.
Proof. intros w [x|] [y|] Hx Hy; cbn; try reflexivity. f_equal. eapply ejoin_comm; eauto. Qed.

Lemma owf_ojoin : forall w x y, owf w x -> owf w y -> owf w (ojoin x y).
Proof. intros w [x|] [y|] Hx Hy; cbn in *; auto using ewf_ejoin. Qed.

Lemma length_setn : forall {A} n (x : A) s, length (setn n x s) = length s.
Proof. intros A n x s; revert n; induction s as [|h t IH]; intros [|n]; cbn; auto. Qed.

Lemma nth_setn_eq : forall {A} n (x d : A) s, (n < length s)%nat -> nth n (setn n x s) d = x.
Proof.
  intros A n x d s; revert n; induction s as [|h t IH]; intros [|n] H; cbn in *; try lia; auto.
  apply IH. lia.
Qed.

Lemma nth_setn_neq : forall {A} n m (x d : A) s, n <> m -> nth m (setn n x s) d = nth m s d.
Proof.
  intros A n m x d s; revert n m; induction s as [|h t IH]; intros [|n] [|m] H; cbn; auto; try congruence.
Qed.

Lemma nth_setn_all : forall {A} (Q : A -> Prop) n m (x d : A) s,
  Q x -> Q (nth m s d) -> Q (nth m (setn n x s) d).
Proof. intros A Q n m x d s Hx; revert n m; induction s as [|h t IH]; intros [|n] [|m]; cbn; auto. Qed.

Lemma map_setn : forall {A B} (f : A -> B) n x s, map f (setn n x s) = setn n (f x) (map f s).
Proof. intros A B f n x s; revert n; induction s as [|h t IH]; intros [|n]; cbn; auto. rewrite IH. reflexivity. Qed.

Lemma getk_kinit : forall n r, r < N.of_nat n -> getk (kinit n) r = [r].
Proof.
  intros n r H. unfold getk, kinit.
  rewrite (nth_indep _ [] ((fun i => [N.of_nat i]) O)) by (rewrite map_length, seq_length; lia).
  rewrite (map_nth (fun i => [N.of_nat i])), seq_nth by lia. cbn. rewrite N2Nat.id. reflexivity.
Qed.

Lemma complete_spec : forall n l r i, complete n l = true -> r < N.of_nat n -> i < N.of_nat n ->
  memN i (getk (krun n l) r) = true.
Proof.
  intros n l r i H Hr Hi. unfold complete in H. rewrite forallb_forall in H.
  specialize (H (N.to_nat r)). rewrite forallb_forall in H.
  rewrite <- (N2Nat.id r), <- (N2Nat.id i). apply H; apply in_seq; lia.
Qed.

Section Converge.
  Variable A : Type.
  Variable join : A -> A -> A.     (* join incoming database-side *)
  Variable P : A -> Prop.          (* consistency with the write table *)
  Variable dflt : A.
  Hypothesis join_idem : forall x, join x x = x.
  Hypothesis join_assoc : forall x y z, join x (join y z) = join (join x y) z.
  Hypothesis join_comm : forall x y, P x -> P y -> join x y = join y x.
  Hypothesis P_join : forall x y, P x -> P y -> P (join x y).

  Definition sle (x y : A) : Prop := join x y = y.

  Lemma sle_refl : forall x, sle x x.
  Proof. intro; apply join_idem. Qed.
  Lemma sle_trans : forall x y z, sle x y -> sle y z -> sle x z.
  Proof. unfold sle; intros x y z H1 H2. rewrite <- H2, join_assoc, H1. reflexivity. Qed.
  Lemma sle_join_l : forall x y, sle x (join x y).
  Proof. unfold sle; intros. rewrite join_assoc, join_idem. reflexivity. Qed.
  Lemma sle_join_r : forall x y, P x -> P y -> sle y (join x y).
  Proof.
    unfold sle; intros x y Hx Hy. rewrite join_assoc, (join_comm y x Hy Hx), <- join_assoc, join_idem. reflexivity.
  Qed.
  Lemma sle_lub : forall x y z, sle x z -> sle y z -> sle (join x y) z.
  Proof. unfold sle; intros x y z H1 H2. rewrite <- join_assoc, H2, H1. reflexivity. Qed.
  Lemma sle_antisym : forall x y, P x -> P y -> sle x y -> sle y x -> x = y.
  Proof.
    unfold sle; intros x y Hx Hy H1 H2.
    transitivity (join x y); [rewrite (join_comm x y Hx Hy); symmetry; exact H2 | exact H1].
  Qed.

  Definition aget (s : list A) (r : N) : A := nth (N.to_nat r) s dflt.
  Definition astep (s : list A) (o : rop) : list A :=
    match o with
    | RRepl to from => setn (N.to_nat to) (join (aget s from) (aget s to)) s
    | RRefresh to from => setn (N.to_nat to) (aget s from) s
    end.
  Definition arun (s : list A) (l : list rop) : list A := fold_left astep l s.

  Lemma P_astep : forall s o, (forall r, P (aget s r)) -> forall r, P (aget (astep s o) r).
  Proof. intros s [to from | to from] H r; unfold aget at 1; cbn [astep]; apply nth_setn_all; auto; apply H. Qed.

  Variable s0 : list A.
  Hypothesis P_s0 : forall r, P (aget s0 r).

  Definition ub (U : A) : Prop := forall i, i < N.of_nat (length s0) -> sle (aget s0 i) U.

  Definition between (a : A) (ks : list N) : Prop :=
    (forall i, memN i ks = true -> sle (aget s0 i) a) /\ (forall U, ub U -> P U -> sle a U).

  Lemma between_join : forall a ka b kb, P a -> P b ->
    between a ka -> between b kb -> between (join a b) (ka ++ kb).
  Proof.
    intros a ka b kb Pa Pb [Ka Ba] [Kb Bb]. split.
    - intros i Hm. unfold memN in Hm. rewrite existsb_app in Hm. apply orb_true_iff in Hm. destruct Hm as [Hm|Hm].
      + eapply sle_trans; [apply Ka, Hm | apply sle_join_l].
      + eapply sle_trans; [apply Kb, Hm | apply sle_join_r; assumption].
    - intros U HU PU. apply sle_lub; auto.
  Qed.

  (* every replica lies between the starting states it has heard of and their common upper bounds *)
  Record Inv (s : list A) (k : kmap) : Prop := {
    inv_P : forall r, P (aget s r);
    inv_len_s : length s = length s0;
    inv_len_k : length k = length s0;
    inv_between : forall r, r < N.of_nat (length s0) -> between (aget s r) (getk k r) }.

  Lemma Inv_init : Inv s0 (kinit (length s0)).
  Proof.
    constructor; auto.
    - unfold kinit. rewrite map_length, seq_length. reflexivity.
    - intros r Hr. rewrite getk_kinit by assumption. split.
      + intros i Hm. cbn in Hm. rewrite orb_false_r in Hm. apply N.eqb_eq in Hm. subst i. apply sle_refl.
      + intros U HU _. apply HU, Hr.
  Qed.

  Lemma Inv_setn : forall s k n x kx, Inv s k -> n < N.of_nat (length s0) -> P x -> between x kx ->
    Inv (setn (N.to_nat n) x s) (setn (N.to_nat n) kx k).
  Proof.
    intros s k n x kx [HP Ls Lk HB] Hn Px Bx. constructor; rewrite ?length_setn; auto.
    - intros r. unfold aget. apply nth_setn_all; auto; apply HP.
    - intros r Hr. unfold aget, getk. destruct (N.eq_dec n r) as [<- | E].
      + rewrite !nth_setn_eq by lia. exact Bx.
      + rewrite !nth_setn_neq by (intros H; apply E, N2Nat.inj, H). apply HB, Hr.
  Qed.

  Lemma Inv_step : forall s k o, rop_ok (length s0) o = true -> Inv s k -> Inv (astep s o) (kstep k o).
  Proof.
    intros s k o Hok HI. pose proof HI as [HP _ _ HB].
    destruct o as [to from | to from]; cbn [rop_ok] in Hok; apply andb_true_iff in Hok; destruct Hok as [Ht Hf];
      apply N.ltb_lt in Ht, Hf; apply Inv_setn; auto.
    apply between_join; auto.
  Qed.

  Lemma Inv_run : forall l s k, forallb (rop_ok (length s0)) l = true -> Inv s k ->
    Inv (fold_left astep l s) (fold_left kstep l k).
  Proof.
    induction l as [|o l IH]; intros s k Hok HI; [exact HI|].
    cbn in Hok. apply andb_true_iff in Hok. destruct Hok as [H1 H2].
    cbn [fold_left]. apply IH; [assumption | apply Inv_step; assumption].
  Qed.

  (* a replica that has (transitively) heard of every replica holds the least upper bound of the starting states *)
  Theorem arun_lub : forall l r,
    forallb (rop_ok (length s0)) l = true -> complete (length s0) l = true -> r < N.of_nat (length s0) ->
    P (aget (arun s0 l) r) /\ ub (aget (arun s0 l) r) /\ (forall U, ub U -> P U -> sle (aget (arun s0 l) r) U).
  Proof.
    intros l r Hok Hc Hr.
    destruct (Inv_run l s0 (kinit (length s0)) Hok Inv_init) as [HP _ _ HB].
    fold (arun s0 l) in *. fold (krun (length s0) l) in *.
    destruct (HB r Hr) as [HK HU]. repeat split; auto.
    intros i Hi. apply HK, complete_spec; assumption.
  Qed.

  Theorem converge_abstract : forall l r r',
    forallb (rop_ok (length s0)) l = true -> complete (length s0) l = true ->
    r < N.of_nat (length s0) -> r' < N.of_nat (length s0) ->
    aget (arun s0 l) r = aget (arun s0 l) r'.
  Proof.
    intros l r r' Hok Hc Hr Hr'.
    destruct (arun_lub l r Hok Hc Hr) as (Pr & Ur & Br), (arun_lub l r' Hok Hc Hr') as (Pr' & Ur' & Br').
    apply sle_antisym; auto.
  Qed.
End Converge.

Lemma lookup_app : forall u a b,
  lookup u (a ++ b) = match lookup u a with Some e => Some e | None => lookup u b end.
Proof.
  intros u a b; induction a as [|[k e] a IH]; cbn; [reflexivity|].
  destruct (k =? u); [reflexivity | exact IH].
Qed.

Lemma lookup_map : forall (f : N -> est -> est) u d,
  lookup u (map (fun ke => (fst ke, f (fst ke) (snd ke))) d) = option_map (f u) (lookup u d).
Proof.
  intros f u d; induction d as [|[k e] d IH]; cbn; [reflexivity|].
  destruct (k =? u) eqn:E; [|exact IH].
  apply N.eqb_eq in E; subst. reflexivity.
Qed.

Lemma lookup_filter_new : forall u inc d, lookup u d = None ->
  lookup u (filter (fun ke => negb (has (fst ke) d)) inc) = lookup u inc.
Proof.
  intros u inc d Hd; induction inc as [|[k e] inc IH]; cbn; [reflexivity|].
  destruct (k =? u) eqn:E.
  - apply N.eqb_eq in E; subst. unfold has. rewrite Hd. cbn. rewrite N.eqb_refl. reflexivity.
  - destruct (negb (has k d)); cbn; rewrite ?E; exact IH.
Qed.

Lemma lookup_join_db : forall u inc d, lookup u (join_db inc d) = ojoin (lookup u inc) (lookup u d).
Proof.
  intros u inc d. unfold join_db.
  rewrite lookup_app, (lookup_map (fun k e => match lookup k inc with Some i => ejoin i e | None => e end)).
  destruct (lookup u d) as [e|] eqn:Hd; cbn.
  - destruct (lookup u inc); reflexivity.
  - rewrite lookup_filter_new by assumption. destruct (lookup u inc); reflexivity.
Qed.

(* the system seen at one uuid is an instance of the abstract one *)
Definition proj (u : N) (s : dsys) : list (option est) := map (lookup u) s.

Lemma proj_getd : forall u s r, lookup u (getd s r) = aget (option est) None (proj u s) r.
Proof.
  intros u s r. unfold getd, aget, proj.
  change (@None est) with (lookup u []). rewrite map_nth. reflexivity.
Qed.

Lemma proj_rstep : forall u s o, proj u (rstep s o) = astep (option est) ojoin None (proj u s) o.
Proof.
  intros u s [to from | to from]; unfold rstep, astep, proj at 1; rewrite map_setn.
  - rewrite lookup_join_db, !proj_getd. reflexivity.
  - rewrite proj_getd. reflexivity.
Qed.

Lemma proj_rrun : forall u l s, proj u (rrun s l) = arun (option est) ojoin None (proj u s) l.
Proof.
  intros u l; induction l as [|o l IH]; intros s; [reflexivity|].
  unfold rrun, arun in *. cbn [fold_left]. rewrite IH, proj_rstep. reflexivity.
Qed.

(* "Consistent": one change id names one write — there is a table of writes (per uuid) that every entry of
   every replica agrees with *)
Definition sys_wf (s : dsys) : Prop :=
  exists W : N -> wtab, forall r u e, lookup u (getd s r) = Some e -> ewf (W u) e.

Lemma sys_wf_proj : forall W s,
  (forall r u e, lookup u (getd s r) = Some e -> ewf (W u) e) <->
  (forall u r, owf (W u) (aget (option est) None (proj u s) r)).
Proof.
  intros W s. split; intros H.
  - intros u r. rewrite <- proj_getd. destruct (lookup u (getd s r)) eqn:E; [exact (H r u _ E) | exact I].
  - intros r u e He. specialize (H u r). rewrite <- proj_getd, He in H. exact H.
Qed.

Lemma sys_wf_rstep : forall s o, sys_wf s -> sys_wf (rstep s o).
Proof.
  intros s o [W HW]. exists W. apply sys_wf_proj. intros u. rewrite proj_rstep.
  apply P_astep; [apply owf_ojoin | apply sys_wf_proj, HW].
Qed.

Lemma sys_wf_rrun : forall l s, sys_wf s -> sys_wf (rrun s l).
Proof.
  induction l as [|o l IH]; intros s H; [exact H|].
  unfold rrun in *. cbn [fold_left]. apply IH. apply sys_wf_rstep. exact H.
Qed.

Theorem converge : forall (s : dsys) (l : list rop) (r r' : N) (u : N),
  sys_wf s ->
  forallb (rop_ok (length s)) l = true ->
  complete (length s) l = true ->
  r < N.of_nat (length s) -> r' < N.of_nat (length s) ->
  lookup u (getd (rrun s l) r) = lookup u (getd (rrun s l) r').
Proof.
  intros s l r r' u [W HW] Hok Hc Hr Hr'.
  rewrite !proj_getd, proj_rrun. rewrite <- (map_length (lookup u) s) in Hok, Hc, Hr, Hr'.
  apply (converge_abstract (option est) ojoin (owf (W u)) None
           ojoin_idem ojoin_assoc (ojoin_comm (W u)) (owf_ojoin (W u)) (proj u s)); try assumption.
  apply sys_wf_proj, HW.
Qed.

Definition cell_cid_le (x y : cell) : Prop :=
  match x, y with
  | None, _ => True
  | Some _, None => False
  | Some (a, _), Some (b, _) => cid_ltb b a = false
  end.

Lemma cmerge_cfilter : forall w x y,
  (cfilter w x = None -> cell_cid_le x y) -> cmerge (cfilter w x) y = cmerge x y.
Proof.
  intros w [[c v]|] y H; cbn in *; [|reflexivity].
  destruct (within w c); [reflexivity|].
  specialize (H eq_refl). destruct y as [[b vb]|]; cbn in *; [|contradiction].
  rewrite H. reflexivity.
Qed.

Lemma nth_map_cfilter : forall w m i, nth i (map (cfilter w) m) None = cfilter w (nth i m None).
Proof. intros w m i. exact (map_nth (cfilter w) m None i). Qed.

Lemma rfilter_whole : forall w a m,
  (forall i c v, nth i m None = Some (c, v) -> within w c = true) ->
  rfilter w (Live a m) = Live a m.
Proof.
  intros w a m H. cbn. f_equal.
  induction m as [|x m IH]; [reflexivity|]. cbn. f_equal.
  - destruct x as [[c v]|]; cbn; [|reflexivity]. rewrite (H O c v eq_refl). reflexivity.
  - apply IH. intros i c v Hi. apply (H (S i) c v Hi).
Qed.

Lemma fold_right_perm : forall {A B} (f : A -> B -> B) (Q : A -> Prop),
  (forall x y e, Q x -> Q y -> f x (f y e) = f y (f x e)) ->
  forall l1 l2 e, Permutation l1 l2 -> Forall Q l1 -> fold_right f e l1 = fold_right f e l2.
Proof.
  intros A B f Q Hswap l1 l2 e HP.
  induction HP as [| x l l' HP IH | x y l | l l' l'' HP1 IH1 HP2 IH2]; intros HF.
  - reflexivity.
  - cbn. inversion HF; subst. rewrite IH by assumption. reflexivity.
  - cbn. inversion HF as [|? ? Hy HF']; subst. inversion HF' as [|? ? Hx HF'']; subst. auto.
  - rewrite IH1 by assumption. apply IH2. eapply Permutation_Forall; eauto.
Qed.

Lemma cell_eqb_refl : forall x, cell_eqb x x = true.
Proof.
  intros [[c [v|]]|]; cbn; rewrite ?cid_eqb_refl, ?N.eqb_refl; reflexivity.
Qed.

Lemma cell_eqb_eq : forall x y, cell_eqb x y = true -> x = y.
Proof.
  intros [[c v]|] [[c' v']|]; cbn; try discriminate; [|reflexivity].
  rewrite andb_true_iff, cid_eqb_eq. intros [-> H].
  destruct v, v'; try discriminate; [apply N.eqb_eq in H; subst|]; reflexivity.
Qed.

Lemma amap_eqb_refl : forall m, amap_eqb m m = true.
Proof. induction m as [|x m IH]; cbn; [reflexivity | rewrite cell_eqb_refl, IH; reflexivity]. Qed.

Lemma est_eqb_refl : forall e, est_eqb e e = true.
Proof. intros [a m|a]; cbn; rewrite cid_eqb_refl, ?amap_eqb_refl; reflexivity. Qed.

Lemma cell_cid_leb_refl : forall x, cell_cid_leb x x = true.
Proof. intros [[c v]|]; cbn; [unfold cid_leb; rewrite cid_ltb_irrefl|]; reflexivity. Qed.

Lemma cmerge_spec : forall x y,
  (cell_eqb (cmerge x y) x || cell_eqb (cmerge x y) y) = true /\
  cell_cid_leb x (cmerge x y) = true /\ cell_cid_leb y (cmerge x y) = true.
Proof.
  intros [[a va]|] [[b vb]|]; cbn -[cell_eqb]; unfold cid_leb.
  - destruct (cid_ltb b a) eqn:E; cbn -[cell_eqb]; unfold cid_leb;
      rewrite cell_eqb_refl, cid_ltb_irrefl, ?orb_true_r, ?E, ?(cid_ltb_asym _ _ E); auto.
  - rewrite cell_eqb_refl, cid_ltb_irrefl. auto.
  - rewrite cell_eqb_refl, cid_ltb_irrefl, orb_true_r. auto.
  - auto.
Qed.

Lemma lww_nil : forall m, lww_spec [] m m = true /\ lww_spec m [] m = true.
Proof.
  induction m as [|z m [IH1 IH2]]; [split; reflexivity|].
  cbn -[cell_eqb cell_cid_leb]. rewrite cell_eqb_refl, orb_true_r, cell_cid_leb_refl, IH1, IH2. split; reflexivity.
Qed.

Lemma lww_zipw : forall l r, lww_spec l r (zipw l r) = true.
Proof.
  induction l as [|x l IH]; intros r; [apply lww_nil|].
  destruct r as [|y r]; [apply lww_nil|].
  cbn -[cell_eqb cell_cid_leb cmerge].
  destruct (cmerge_spec x y) as [H1 [H2 H3]]. rewrite H1, H2, H3. cbn. apply IH.
Qed.

Theorem model_meets_spec : forall inc d, apply_spec inc d (ejoin inc d) = true.
Proof.
  intros [a m|a] [b n|b]; rewrite ejoin_rank; cbn; try apply cid_eqb_refl.
  - destruct (cid_cases_spec a b); [apply est_eqb_refl .. | rewrite cid_eqb_refl; apply lww_zipw].
  - destruct (cid_cases_spec a b) as [| | <-]; apply est_eqb_refl.
Qed.

Lemma forallb_nth : forall {A} (f : A -> bool) l d i, forallb f l = true -> f d = true -> f (nth i l d) = true.
Proof.
  intros A f l d; induction l as [|x l IH]; intros [|i] H Hd; cbn in *; auto;
    apply andb_true_iff in H; destruct H; auto.
Qed.

Lemma cells_stamp_nth : forall c old new i,
  cells_stamp c old new = true -> cell_stamp c (nth i old None) (nth i new None) = true.
Proof.
  intros c old; induction old as [|x old IH]; intros new i H.
  - destruct i; exact (forallb_nth (cell_stamp c None) new None _ H eq_refl).
  - destruct new as [|y new].
    + destruct i; exact (forallb_nth (fun z => cell_stamp c z None) (x :: old) None _ H eq_refl).
    + cbn [cells_stamp] in H. apply andb_true_iff in H. destruct H as [H1 H2].
      destruct i; cbn; auto.
Qed.

Lemma lookup_In : forall u d e, lookup u d = Some e -> In (u, e) d.
Proof.
  intros u d e; induction d as [|[k x] d IH]; cbn; [discriminate|].
  destruct (k =? u) eqn:E; intros H.
  - apply N.eqb_eq in E. inversion H; subst. left; reflexivity.
  - right; auto.
Qed.

(* a record that a transaction with change id c leaves behind under another change id was there before *)
Lemma stamped_old : forall c pre post u a' m' i k v,
  stamped c pre post = true -> lookup u post = Some (Live a' m') ->
  nth i m' None = Some (k, v) -> cid_eqb k c = false ->
  exists a m, lookup u pre = Some (Live a m) /\ nth i m None = Some (k, v).
Proof.
  intros c pre post u a' m' i k v Hst Hu Hc Ek.
  assert (Hcell : forall m, cells_stamp c m m' = true -> nth i m None = Some (k, v)).
  { intros m Hm. apply (cells_stamp_nth c m m' i) in Hm. rewrite Hc in Hm. unfold cell_stamp in Hm.
    rewrite Ek, orb_false_r in Hm. apply cell_eqb_eq in Hm. exact Hm. }
  unfold stamped in Hst. apply andb_true_iff in Hst. destruct Hst as [_ Hst].
  rewrite forallb_forall in Hst. specialize (Hst _ (lookup_In _ _ _ Hu)). cbn [fst snd] in Hst.
  destruct (lookup u pre) as [[a m|a]|]; cbn [est_stamp est_created] in Hst; [| discriminate |];
    apply andb_true_iff in Hst; destruct Hst as [_ Hst]; apply Hcell in Hst.
  - exists a, m. auto.
  - (* a new entry: every record is stamped c *) destruct i; discriminate.
Qed.

Definition fresh_in (c : cid) (e : est) : Prop :=
  match e with Live _ m => forall i v, nth i m None <> Some (c, v) | Tomb _ => True end.
Definition fresh (c : cid) (s : dsys) : Prop :=
  forall r u e, lookup u (getd s r) = Some e -> fresh_in c e.

(* the new table: at change id c what the transaction wrote, elsewhere the old table *)
Theorem sys_wf_local : forall s r c post,
  sys_wf s -> fresh c s -> (N.to_nat r < length s)%nat ->
  stamped c (getd s r) post = true ->
  sys_wf (setn (N.to_nat r) post s).
Proof.
  intros s r c post [W HW] Hfresh Hr Hst.
  exists (fun u i k =>
    if cid_eqb k c then
      match lookup u post with
      | Some (Live _ m) => match nth i m None with Some (_, v) => v | None => None end
      | _ => None
      end
    else W u i k).
  intros q u e He. destruct e as [a' m'|a']; [|exact I].
  intros i. destruct (nth i m' None) as [[k v]|] eqn:Hc; [|exact I]. cbn.
  unfold getd in He. destruct (Nat.eq_dec (N.to_nat r) (N.to_nat q)) as [E|E].
  - (* the written replica *)
    rewrite <- E, nth_setn_eq in He by assumption. destruct (cid_eqb k c) eqn:Ek.
    + rewrite He, Hc. reflexivity.
    + destruct (stamped_old _ _ _ _ _ _ _ _ _ Hst He Hc Ek) as (a & m & Hpre & Hn).
      assert (H := HW r u _ Hpre i). rewrite Hn in H. exact H.
  - (* another replica: nothing there records c *)
    rewrite nth_setn_neq in He by assumption. destruct (cid_eqb k c) eqn:Ek.
    + apply cid_eqb_eq in Ek. subst k. destruct (Hfresh q u _ He i v Hc).
    + assert (H := HW q u _ He i). rewrite Hc in H. exact H.
Qed.

(* system states reachable by any history: local write transactions that stamp what they change with a
   change id not used before (any requests, any plugin fix-ups, conflict copies), incremental replications
   and refreshes, in any interleaving.  Replication steps need not name existing replicas: a refresh from a
   missing one empties the consumer, and that state counts as reachable too. *)
Inductive reach (n : nat) : dsys -> Prop :=
| reach_init : reach n (repeat [] n)
| reach_local : forall s r c post, reach n s -> fresh c s -> (N.to_nat r < length s)%nat ->
    stamped c (getd s r) post = true -> reach n (setn (N.to_nat r) post s)
| reach_repl : forall s o, reach n s -> reach n (rstep s o).

Lemma reach_length : forall n s, reach n s -> length s = n.
Proof.
  intros n s H; induction H.
  - apply repeat_length.
  - rewrite length_setn. assumption.
  - destruct o; unfold rstep; rewrite length_setn; assumption.
Qed.

Lemma getd_repeat_nil : forall n r, getd (repeat [] n) r = [].
Proof. intros n r. apply nth_repeat. Qed.

Lemma reach_wf : forall n s, reach n s -> sys_wf s.
Proof.
  intros n s H; induction H.
  - exists (fun _ _ _ => None). intros r u e He. rewrite getd_repeat_nil in He. discriminate.
  - eapply sys_wf_local; eauto.
  - apply sys_wf_rstep. assumption.
Qed.
