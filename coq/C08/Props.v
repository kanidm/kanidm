From Coq Require Import List NArith Bool Permutation.
Import ListNotations.
Require Import KV.C08.Model KV.C08.Proofs.
Open Scope N_scope.

(* Merging an entry version into itself changes nothing (is_add_conflict / merge_state / tombstone arms). *)
Theorem C08_merge_idem : forall e, ejoin e e = e.
Proof. exact ejoin_idem. Qed.

(* Merging is associative for ALL entry versions (live with any attribute records, different creation ids,
   tombstones) — no consistency premise needed: per attribute it is the maximum by change id, ties going to the
   database (right) side, and that is associative. *)
Theorem C08_merge_assoc : forall x y z, ejoin x (ejoin y z) = ejoin (ejoin x y) z.
Proof. exact ejoin_assoc. Qed.

(* Merging is commutative for versions that are consistent with one table of writes (an attribute recorded as
   changed at change id c holds what was written at c): who is "incoming" and who is "in the database" does
   not matter, although ties keep the database side. *)
Theorem C08_merge_comm : forall w x y, ewf w x -> ewf w y -> ejoin x y = ejoin y x.
Proof. exact ejoin_comm. Qed.

(* A tombstone always wins over a live version, whichever side it is on; of two tombstones the earlier stays. *)
Theorem C08_tombstone_absorbs : forall a b m,
  ejoin (Tomb a) (Live b m) = Tomb a /\ ejoin (Live b m) (Tomb a) = Tomb a /\
  ejoin (Tomb a) (Tomb b) = Tomb (if cid_ltb a b then a else b).
Proof. intros a b m. unfold ejoin; cbn. destruct (cid_ltb a b); auto. Qed.

(* Merging a set of consistent versions into an entry gives the same result in every order. *)
Theorem C08_order_independent : forall w l1 l2 e,
  Permutation l1 l2 -> Forall (ewf w) l1 -> fold_right ejoin e l1 = fold_right ejoin e l2.
Proof.
  intros w. apply (fold_right_perm ejoin (ewf w)).
  intros x y e Hx Hy. rewrite !ejoin_assoc, (ejoin_comm w x y Hx Hy). reflexivity.
Qed.

(* Consistency ("one change id names one write") is preserved by every incremental replication and refresh. *)
Theorem C08_consistency_preserved : forall l s, sys_wf s -> sys_wf (rrun s l).
Proof. exact sys_wf_rrun. Qed.

(* THE PROPERTY.  Whatever the replicas hold after any concurrent history (any consistent system state: any
   number of replicas, entries created several times under one uuid, concurrent edits, recycled entries,
   tombstones, conflict entries), any schedule of incremental replications and refreshes — any order, any
   topology — after which every replica has transitively received from every replica leaves ALL replicas with
   the same entry, attribute values and change state (or the same absence) for EVERY uuid. *)
Theorem C08_converge : forall (s : dsys) (l : list rop) (r r' u : N),
  sys_wf s ->
  forallb (rop_ok (length s)) l = true ->
  complete (length s) l = true ->
  r < N.of_nat (length s) -> r' < N.of_nat (length s) ->
  lookup u (getd (rrun s l) r) = lookup u (getd (rrun s l) r').
Proof. exact converge. Qed.

(* The consumer's database after an incremental replication is, uuid by uuid, the merge of what the supplier
   and the consumer held (unknown uuids are taken over, untouched ones kept). *)
Theorem C08_apply_pointwise : forall u inc d, lookup u (join_db inc d) = ojoin (lookup u inc) (lookup u d).
Proof. exact lookup_join_db. Qed.

(* The supplier's window filter (ReplIncrementalEntryV1::new) is harmless when the consumer already holds,
   attribute by attribute, a change at least as late as every record that is filtered out: then merging the
   filtered attribute map gives, attribute by attribute, what merging the whole map gives. *)
Theorem C08_window_filter_sound : forall w m n,
  (forall i, cfilter w (nth i m None) = None -> cell_cid_le (nth i m None) (nth i n None)) ->
  forall i, nth i (zipw (map (cfilter w) m) n) None = nth i (zipw m n) None.
Proof.
  intros w m n H i. rewrite !nth_zipw, nth_map_cfilter. apply cmerge_cfilter, H.
Qed.

(* An entry all of whose records carry change ids inside the requested window is shipped whole.  This is what
   fix 41afc51 establishes for conflict copies (every record re-stamped with the minting transaction's id);
   before it the copy kept the loser's old change ids, see Witness C08_prefix_hollow_copy. *)
Theorem C08_in_window_shipped_whole : forall w a m,
  (forall i c v, nth i m None = Some (c, v) -> within w c = true) ->
  rfilter w (Live a m) = Live a m.
Proof. exact rfilter_whole. Qed.

(* A local write transaction that records every attribute it changes under its own, not yet used, change id
   (Model.stamped: any request, plugin fix-ups, new entries, conflict copies, tombstoning) keeps the system
   consistent. *)
Theorem C08_local_write_keeps_consistency : forall s r c post,
  sys_wf s -> fresh c s -> (N.to_nat r < length s)%nat ->
  stamped c (getd s r) post = true ->
  sys_wf (setn (N.to_nat r) post s).
Proof. exact sys_wf_local. Qed.

(* THE PROPERTY over histories: for ANY history on n replicas — local write transactions with fresh change
   ids, incremental replications and refreshes in any interleaving — and ANY final schedule of replications
   and refreshes after which every replica has transitively received from every replica, all replicas hold
   identical entries (live, recycled, conflict, tombstone), attribute values and change states. *)
Theorem C08_converge_history : forall n s l r r' u,
  reach n s ->
  forallb (rop_ok n) l = true -> complete n l = true ->
  r < N.of_nat n -> r' < N.of_nat n ->
  lookup u (getd (rrun s l) r) = lookup u (getd (rrun s l) r').
Proof.
  intros n s l r r' u HR. rewrite <- (reach_length n s HR). apply converge, (reach_wf n s HR).
Qed.

(* The transcribed per-entry decision satisfies the independent specification used by pcheck for all inputs:
   per attribute the result is one of the two records and not older than either; the earlier creation wins a
   uuid conflict; any tombstone wins; of two tombstones the earlier. *)
Theorem C08_model_meets_spec : forall inc d, apply_spec inc d (ejoin inc d) = true.
Proof. exact model_meets_spec. Qed.
