From Coq Require Import List NArith Bool.
Import ListNotations.
Require Import KV.C08.Model KV.C08.Proofs.
Open Scope N_scope.

(* three replicas: uuid 1 created on replica 0 at (1,0) and, concurrently, on replica 1 at (2,1); uuid 2 edited
   concurrently on replicas 1 and 2 (attribute 5) and deleted to a tombstone on replica 0; replica 2 holds a
   conflict entry 1001 nobody else has *)
Definition e1a := Live (1, 0) [Some ((1, 0), Some 10); Some ((1, 0), Some 11)].
Definition e1b := Live (2, 1) [Some ((2, 1), Some 10); Some ((2, 1), Some 12); None; Some ((3, 1), None)].
Definition e2 := Live (1, 2) [Some ((1, 2), Some 20); None; None; None; None; Some ((1, 2), Some 30)].
Definition e2x := Live (1, 2) [Some ((1, 2), Some 20); None; None; None; None; Some ((4, 1), Some 31)].
Definition e2y := Live (1, 2) [Some ((1, 2), Some 20); None; None; None; None; Some ((4, 2), Some 32); Some ((5, 2), None)].
Definition w_s0 : dsys :=
  [ [(1, e1a); (2, Tomb (6, 0))];
    [(2, e2x); (1, e1b)];
    [(2, e2y); (1001, Live (7, 2) [Some ((7, 2), Some 40); Some ((7, 2), Some 41); Some ((7, 2), Some 42)])] ].

(* a ring 1<-0, 2<-1, 0<-2 followed by 1<-0 2<-0 (no full mesh), and one with a refresh *)
Definition w_ring := [RRepl 1 0; RRepl 2 1; RRepl 0 2; RRepl 1 0; RRepl 2 0].
Definition w_refresh := [RRepl 0 1; RRepl 0 2; RRefresh 1 0; RRepl 2 0].
Definition w_incomplete := [RRepl 1 0; RRepl 2 1].

Example C08_witness_schedules :
  forallb (rop_ok 3) w_ring = true /\ complete 3 w_ring = true /\
  forallb (rop_ok 3) w_refresh = true /\ complete 3 w_refresh = true /\
  complete 3 w_incomplete = false.
Proof. vm_compute. repeat split. Qed.

(* the starting state is consistent: the table of writes *)
Definition w_tab (u : N) : wtab := fun i c =>
  match u, i, c with
  | 1, 0%nat, _ => Some 10
  | 1, 1%nat, (1, 0) => Some 11
  | 1, 1%nat, _ => Some 12
  | 1, _, _ => None
  | 2, 0%nat, _ => Some 20
  | 2, 5%nat, (1, 2) => Some 30
  | 2, 5%nat, (4, 1) => Some 31
  | 2, 5%nat, (4, 2) => Some 32
  | 2, _, _ => None
  | _, 0%nat, _ => Some 40
  | _, 1%nat, _ => Some 41
  | _, 2%nat, _ => Some 42
  | _, _, _ => None
  end.

Lemma all_entries : forall (Q : N -> est -> Prop) (s : dsys),
  Forall (Forall (fun ke => Q (fst ke) (snd ke))) s ->
  forall r u e, lookup u (getd s r) = Some e -> Q u e.
Proof.
  intros Q s H r u e He. apply lookup_In in He. unfold getd in He.
  destruct (nth_in_or_default (N.to_nat r) s []) as [Hin | E]; [|rewrite E in He; destruct He].
  rewrite Forall_forall in H. specialize (H _ Hin). rewrite Forall_forall in H. exact (H _ He).
Qed.

Lemma fresh_empty : forall c n, fresh c (repeat [] n).
Proof. intros c n r u e He. rewrite getd_repeat_nil in He. discriminate. Qed.

(* cell by cell: a record holds what the table says (reflexivity), no record asks nothing *)
Ltac mwf_cells := repeat (apply mwf_cons; split; [first [reflexivity | exact I]|]); apply mwf_nil.

Example C08_witness_consistent : sys_wf w_s0.
Proof.
  exists w_tab. apply all_entries.
  repeat first [apply Forall_nil | apply Forall_cons]; first [exact I | mwf_cells].
Qed.

(* ... and the schedules do make the three replicas equal, on a non-trivial result: uuid 1 is the earlier
   creation, uuid 2 the tombstone, 1001 has reached everybody *)
Example C08_witness_converged :
  let f := rrun w_s0 w_ring in
  map (fun u => lookup u (getd f 0)) [1; 2; 1001; 7] = map (fun u => lookup u (getd f 1)) [1; 2; 1001; 7] /\
  map (fun u => lookup u (getd f 1)) [1; 2; 1001; 7] = map (fun u => lookup u (getd f 2)) [1; 2; 1001; 7] /\
  lookup 1 (getd f 2) = Some e1a /\ lookup 2 (getd f 1) = Some (Tomb (6, 0)) /\
  has 1001 (getd f 0) = true /\
  (* without the tombstone the concurrent edits of attribute 5 merge to the later one, server id breaking the tie *)
  ejoin e2x e2y = Live (1, 2) [Some ((1, 2), Some 20); None; None; None; None; Some ((4, 2), Some 32); Some ((5, 2), None)] /\
  ejoin e2y e2x = ejoin e2x e2y /\
  (* the incomplete schedule leaves replica 0 behind *)
  lookup 1001 (getd (rrun w_s0 w_incomplete) 0) = None.
Proof. vm_compute. repeat split. Qed.

Example C08_witness_refresh_converged :
  let f := rrun w_s0 w_refresh in
  map (fun u => lookup u (getd f 0)) [1; 2; 1001] = map (fun u => lookup u (getd f 1)) [1; 2; 1001] /\
  map (fun u => lookup u (getd f 1)) [1; 2; 1001] = map (fun u => lookup u (getd f 2)) [1; 2; 1001].
Proof. vm_compute. repeat split. Qed.

(* premises of C08_merge_comm / C08_order_independent are met by non-trivial versions *)
Example C08_witness_comm : ewf (w_tab 2) e2x /\ ewf (w_tab 2) e2y /\ ewf (w_tab 2) e2.
Proof. repeat split; mwf_cells. Qed.

(* without consistency commutativity fails: the same change id naming two different writes *)
Example C08_witness_inconsistent_not_comm :
  ejoin (Live (1, 0) [Some ((2, 0), Some 1)]) (Live (1, 0) [Some ((2, 0), Some 2)])
  <> ejoin (Live (1, 0) [Some ((2, 0), Some 2)]) (Live (1, 0) [Some ((2, 0), Some 1)]).
Proof. vm_compute. discriminate. Qed.

(* window filter: premise of C08_window_filter_sound met with something filtered out *)
Example C08_witness_filter :
  let w := [(0, (2, 9)); (1, (0, 9))] in
  let m := [Some ((1, 0), Some 5); Some ((3, 0), Some 6); Some ((1, 1), Some 7)] in
  let n := [Some ((2, 2), Some 8); None; None] in
  map (cfilter w) m = [None; Some ((3, 0), Some 6); Some ((1, 1), Some 7)] /\
  zipw (map (cfilter w) m) n = zipw m n.
Proof. vm_compute. repeat split. Qed.

(* Documentation of the behaviour BEFORE fix 41afc51: the conflict copy minted at (15,0) kept the loser's
   creation id (9,0) and records (9,0)/(10,0); a consumer that already holds server 0 up to 10 asks for the
   window (10,15] and receives a hollow entry.  With every record re-stamped (15,0) it is shipped whole. *)
Example C08_prefix_hollow_copy :
  let w := [(0, (10, 15))] in
  let old := Live (9, 0) [Some ((15, 0), Some 21); Some ((15, 0), Some 23); Some ((15, 0), Some 22);
                          Some ((9, 0), Some 8); Some ((10, 0), Some 9); Some ((10, 0), Some 17)] in
  let new := Live (15, 0) [Some ((15, 0), Some 21); Some ((15, 0), Some 23); Some ((15, 0), Some 22);
                           Some ((15, 0), Some 8); Some ((15, 0), Some 9); Some ((15, 0), Some 17)] in
  rfilter w old = Live (9, 0) [Some ((15, 0), Some 21); Some ((15, 0), Some 23); Some ((15, 0), Some 22); None; None; None]
  /\ rfilter w new = new.
Proof. vm_compute. repeat split. Qed.

(* agree / pcheck accept a correct observation and reject wrong ones *)
Example C08_witness_agree :
  let c := CApply (9, 0) e2x e2y false None (ejoin e2x e2y) in
  agree c = true /\ pcheck c = true /\
  (* taking the earlier change instead is refused by both *)
  agree (CApply (9, 0) e2x e2y false None e2x) = false /\ pcheck (CApply (9, 0) e2x e2y false None e2x) = false /\
  (* a uuid conflict: the earlier creation survives; the later one's origin (server 1) mints the copy *)
  agree (CApply (9, 1) e1a e1b true
           (Some (Live (9, 1) [Some ((9, 1), Some 50); Some ((9, 1), Some 51); Some ((9, 1), Some 52); Some ((9, 1), None)])) e1a) = true /\
  agree (CApply (9, 1) e1a e1b true None e1a) = false /\
  pcheck (CApply (9, 1) e1a e1b true None e1b) = false.
Proof. vm_compute. repeat split. Qed.

Example C08_witness_hist :
  let d0 := [(1, e1a)] in
  let d1 := [(1, e1a); (1001, Live (5, 1) [Some ((5, 1), Some 50); Some ((5, 1), Some 51); Some ((5, 1), Some 52)])] in
  let steps := [OLocal 0 1 d0;
                OLocal 1 2 [(1, Live (2, 1) [Some ((2, 1), Some 10); Some ((2, 1), Some 12)])];
                ORepl 1 0 5 d1;
                ORepl 0 1 6 d1] in
  agree (CHist [0; 1] steps [d1; d1] [[]; []]) = true /\
  pcheck (CHist [0; 1] steps [d1; d1] [[]; []]) = true /\
  (* a hollow copy on the second replica (the pre-fix behaviour) is refused by both *)
  let hollow := [(1, e1a); (1001, Live (5, 1) [Some ((5, 1), Some 50)])] in
  agree (CHist [0; 1] [OLocal 0 1 d0;
                OLocal 1 2 [(1, Live (2, 1) [Some ((2, 1), Some 10); Some ((2, 1), Some 12)])];
                ORepl 1 0 5 d1; ORepl 0 1 6 hollow] [hollow; d1] [[]; []]) = false /\
  pcheck (CHist [0; 1] steps [hollow; d1] [[]; []]) = false.
Proof. vm_compute. repeat split. Qed.

(* premises of C08_converge_history / C08_local_write_keeps_consistency: a reachable non-trivial state
   (uuid 1 created concurrently on both replicas, then one replication) *)
Definition e1c := Live (3, 1) [Some ((3, 1), Some 10); Some ((3, 1), Some 12)].

Example C08_witness_reach :
  reach 2 (rstep [[(1, e1a)]; [(1, e1c)]] (RRepl 1 0)) /\
  lookup 1 (getd (rstep [[(1, e1a)]; [(1, e1c)]] (RRepl 1 0)) 1) = Some e1a.
Proof.
  split; [|vm_compute; reflexivity].
  apply reach_repl.
  change [[(1, e1a)]; [(1, e1c)]] with (setn (N.to_nat 1) [(1, e1c)] [[(1, e1a)]; []]).
  apply (reach_local 2 _ 1 (3, 1)).
  - change [[(1, e1a)]; []] with (setn (N.to_nat 0) [(1, e1a)] (repeat [] 2)).
    apply (reach_local 2 _ 0 (1, 0)).
    + apply reach_init.
    + apply fresh_empty.
    + cbn. auto.
    + vm_compute. reflexivity.
  - refine (all_entries (fun _ => fresh_in (3, 1)) _ _). repeat first [apply Forall_nil | apply Forall_cons].
    intros i v. do 3 (destruct i as [|i]; [cbn; discriminate|]). cbn. destruct i; discriminate.
  - cbn. auto.
  - vm_compute. reflexivity.
Qed.

(* the known-finding class: replicated state equal, a conflict copy with derived attributes on one replica only *)
Example C08_witness_known :
  let d1 := [(1, e1a); (1001, Live (5, 1) [Some ((5, 1), Some 50); Some ((5, 1), Some 51); Some ((5, 1), Some 52)])] in
  known (CHist [0; 1] [] [d1; d1] [[(1, []); (1001, [(8, 20)])]; [(1, []); (1001, [])]]) = true /\
  pcheck (CHist [0; 1] [] [d1; d1] [[(1, []); (1001, [(8, 20)])]; [(1, []); (1001, [])]]) = false /\
  (* not in the class: the replicated state itself differs, or no uuid conflict happened *)
  known (CHist [0; 1] [] [d1; [(1, e1a)]] [[]; []]) = false /\
  known (CHist [0; 1] [] [[(1, e1a)]; [(1, e1a)]] [[(1, [(8, 20)])]; [(1, [])]]) = false.
Proof. vm_compute. repeat split. Qed.
