(* The generated number in closed form ([gen_closed]) gives its range; the interval tables are
   complements ([accept_negb_reserved]); with both, plugin and pipeline become tables ([pipeline_cases])
   whose storing rows are safe. *)
(* ZifyBool lets `lia` read the boolean comparisons (<=?, <?, =?, &&, ||) of the interval tables. *)
From Coq Require Import List NArith Bool Lia ZifyBool.
Import ListNotations.
Require Import KV.C21.Model.
Open Scope N_scope.

Lemma lor_disjoint : forall a b, N.land a b = 0 -> N.lor a b = a + b.
Proof. intros a b H. rewrite <- (N.lxor_lor _ _ H). symmetry. apply N.add_nocarry_lxor, H. Qed.

(* mask = ones 28 and prefix = 7 * 2^28 share no bit: `& mask` is `mod 2^28`, `| prefix` adds it *)
Lemma gen_closed : forall u, gen_gid u = 1879048192 + uuid_to_gid_u32 u mod 268435456.
Proof.
  intro u. unfold gen_gid. rewrite lor_disjoint.
  - rewrite N.add_comm. f_equal. apply (N.land_ones _ 28).
  - rewrite <- N.land_assoc. apply N.land_0_r.
Qed.

Lemma gen_range : forall u, 1879048192 <= gen_gid u <= 2147483647.
Proof.
  intro u. rewrite gen_closed.
  generalize (N.mod_lt (uuid_to_gid_u32 u) 268435456). generalize (uuid_to_gid_u32 u mod 268435456). lia.
Qed.

Definition accepted (g : N) : Prop :=
  1000 <= g <= 60000 \/ 60578 <= g <= 61183 \/ 65520 <= g <= 65533 \/ 65536 <= g <= 524287
  \/ 524288 <= g <= 1879048191 \/ 1879048192 <= g <= 2147483647.
Definition reserved (g : N) : Prop :=
  g < 1000 \/ 60001 <= g <= 60577 \/ 61184 <= g <= 65519 \/ g = 65534 \/ g = 65535 \/ 2147483648 <= g.

Lemma accept_spec : forall g, accept_gid g = true <-> accepted g.
Proof.
  intro g. unfold accept_gid, contains, accepted,
    GID_REGULAR_USER_MIN, GID_REGULAR_USER_MAX, GID_UNUSED_A_MIN, GID_UNUSED_A_MAX, GID_UNUSED_B_MIN,
    GID_UNUSED_B_MAX, GID_UNUSED_C_MIN, GID_UNUSED_C_MAX, GID_NSPAWN_MIN, GID_NSPAWN_MAX,
    GID_UNUSED_D_MIN, GID_UNUSED_D_MAX.
  lia.
Qed.

Lemma reserved_spec : forall g, reservedb g = true <-> reserved g.
Proof. intro g. unfold reservedb, reserved. lia. Qed.

Lemma accepted_iff_not_reserved : forall g, accepted g <-> ~ reserved g.
Proof. intro g. unfold accepted, reserved. lia. Qed.

Lemma accept_negb_reserved : forall g, accept_gid g = negb (reservedb g).
Proof.
  intro g. apply eq_true_iff_eq.
  rewrite negb_true_iff, <- not_true_iff_false, accept_spec, reserved_spec.
  apply accepted_iff_not_reserved.
Qed.

Lemma unreserved_u32 : forall g, ~ reserved g -> g < 2 ^ 32.
Proof. intros g H. change (2 ^ 32) with 4294967296. unfold reserved in H. lia. Qed.

Lemma gen_not_reserved : forall u, reservedb (gen_gid u) = false.
Proof.
  intro u. apply not_true_iff_false. rewrite reserved_spec.
  pose proof (gen_range u). unfold reserved. lia.
Qed.

Lemma wf_tail : forall u, wf_uuidb u = true ->
  exists b0 b1 b2 b3, skipn 12 u = [b0; b1; b2; b3] /\ b0 < 256 /\ b1 < 256 /\ b2 < 256 /\ b3 < 256.
Proof.
  intros u H. apply andb_true_iff in H as [HL HF].
  assert (Hl : length (skipn 12 u) = 4%nat) by (rewrite skipn_length; lia).
  rewrite <- (firstn_skipn 12 u), forallb_app in HF. apply andb_true_iff in HF as [_ HF].
  destruct (skipn 12 u) as [|b0 [|b1 [|b2 [|b3 [|]]]]]; try discriminate Hl.
  exists b0, b1, b2, b3. cbn [forallb] in HF. split; [reflexivity | lia].
Qed.

Lemma mod16_split : forall b0 b1 b2 b3, b1 < 256 -> b2 < 256 -> b3 < 256 ->
  (((b0 * 256 + b1) * 256 + b2) * 256 + b3) mod 268435456
  = (b0 mod 16) * 16777216 + b1 * 65536 + b2 * 256 + b3.
Proof.
  intros b0 b1 b2 b3 H1 H2 H3.
  pose proof (N.div_mod b0 16 ltac:(discriminate)) as Hd.
  pose proof (N.mod_lt b0 16 ltac:(discriminate)) as Hr.
  set (q := b0 / 16) in *. set (r := b0 mod 16) in *.
  symmetry. apply (N.mod_unique _ _ q); lia.
Qed.

Lemma gen_is_spec_gen : forall u, wf_uuidb u = true -> gen_gid u = spec_gen u.
Proof.
  intros u H. rewrite gen_closed. unfold uuid_to_gid_u32, spec_gen.
  destruct (wf_tail u H) as (b0 & b1 & b2 & b3 & -> & _ & H1 & H2 & H3).
  rewrite mod16_split by assumption. lia.
Qed.

(* the first twelve bytes only contribute a multiple of 2^32, whatever they are *)
Lemma low32_of_u128 : forall u, wf_uuidb u = true ->
  uuid_to_gid_u32 u = uuid_as_u128 u mod 4294967296.
Proof.
  intros u H. destruct (wf_tail u H) as (b0 & b1 & b2 & b3 & E & H0 & H1 & H2 & H3).
  unfold uuid_to_gid_u32, uuid_as_u128. rewrite <- (firstn_skipn 12 u) at 2.
  rewrite fold_left_app, E. cbn [fold_left].
  apply (N.mod_unique _ _ (fold_left (fun a b => a * 256 + b) (firstn 12 u) 0)); lia.
Qed.

Lemma plugin_cases : forall p u gs,
  apply_gidnumber (mkE p u gs) =
  match gs with
  | [] => ROk (mkE p u (if p then [gen_gid u] else []))
  | [g] => if reservedb g then RErr EGidRange else ROk (mkE p u [g])
  | _ => ROk (mkE p u gs)
  end.
Proof.
  intros p u gs. unfold apply_gidnumber. cbn [e_posix e_uuid e_gids].
  destruct gs as [|g [|g2 t]]; cbn [attribute_pres to_uint32_single negb].
  - destruct p; reflexivity.
  - rewrite andb_false_r, accept_negb_reserved. destruct (reservedb g); reflexivity.
  - rewrite andb_false_r. reflexivity.
Qed.

Lemma pipeline_cases : forall p u gs,
  pipeline (mkE p u gs) =
  match gs with
  | [] => if p then Stored true [gen_gid u] else Stored false []
  | [g] => if reservedb g then Rejected EGidRange else if p then Stored true [g] else Rejected ESchema
  | _ => Rejected ESchema
  end.
Proof.
  intros p u gs. unfold pipeline. rewrite plugin_cases.
  destruct gs as [|g [|g2 t]]; [destruct p | destruct (reservedb g), p | ]; reflexivity.
Qed.

Lemma pipeline_is_spec : forall e, wf_uuidb (e_uuid e) = true -> pipeline e = spec_outcome e.
Proof.
  intros [p u gs] H. rewrite pipeline_cases. unfold spec_outcome. cbn [e_gids e_posix e_uuid] in *.
  rewrite (gen_is_spec_gen u H). reflexivity.
Qed.

Lemma pipeline_stored : forall e p gs, pipeline e = Stored p gs ->
  p = e_posix e /\ safe_state p gs = true /\
  forall g, In g gs -> g = gen_gid (e_uuid e) \/ In g (e_gids e).
Proof.
  intros [p0 u gs0] p gs. rewrite pipeline_cases. cbn [e_posix e_uuid e_gids].
  destruct gs0 as [|g0 [|g1 t]]; [destruct p0 | destruct (reservedb g0) eqn:R, p0 | ];
    try discriminate; intros [= <- <-]; cbn [safe_state].
  - rewrite gen_not_reserved. repeat split. intros g [<-|[]]. left. reflexivity.
  - repeat split. intros g [].
  - rewrite R. repeat split. intros g H. right. exact H.
Qed.

Lemma pipeline_safe : forall e p gs, pipeline e = Stored p gs -> safe_state p gs = true.
Proof. intros e p gs H. apply (pipeline_stored e p gs H). Qed.

Lemma safe_state_spec : forall p gs, safe_state p gs = true ->
  (p = true -> exists g, gs = [g] /\ ~ reserved g /\ g < 2 ^ 32) /\ (p = false -> gs = []).
Proof.
  intros p gs H. split; intros ->; cbn [safe_state] in H.
  - destruct gs as [|g [|g2 t]]; try discriminate. exists g.
    apply negb_true_iff, not_true_iff_false in H. rewrite reserved_spec in H.
    repeat split; [exact H | exact (unreserved_u32 g H)].
  - destruct gs; [reflexivity | discriminate].
Qed.

Lemma fold_uuid : forall ms e, e_uuid (fold_left apply_mod ms e) = e_uuid e.
Proof.
  induction ms as [|m ms IH]; intro e; [reflexivity|]. cbn [fold_left]. rewrite IH.
  destruct m; reflexivity.
Qed.

Lemma in_ins : forall x g l, In x (ins g l) -> g = x \/ In x l.
Proof.
  intros x g l. induction l as [|h t IH]; cbn [ins In]; [tauto|].
  destruct (g <? h); [cbn [In]; tauto|]. destruct (g =? h); cbn [In]; tauto.
Qed.

Lemma in_del : forall x g l, In x (del g l) -> In x l.
Proof. intros x g l H. apply filter_In in H. apply H. Qed.

Lemma fold_gids_origin : forall ms e x,
  In x (e_gids (fold_left apply_mod ms e)) -> In x (e_gids e ++ supplied ms).
Proof.
  induction ms as [|m ms IH]; intros e x H; cbn [fold_left] in H.
  - cbn [supplied]. rewrite app_nil_r. exact H.
  - apply IH in H. rewrite in_app_iff in *.
    destruct m; cbn [apply_mod e_gids supplied In] in *; rewrite ?in_app_iff.
    1, 2, 5, 6: tauto.
    + destruct H as [H|H]; [apply in_ins in H|]; tauto.
    + destruct H as [H|H]; [apply in_del in H|]; tauto.
Qed.

Lemma forallb_replace : forall (f : entry -> bool) i x d,
  forallb f d = true -> f x = true -> forallb f (replace i x d) = true.
Proof.
  induction i as [|i IH]; intros x [|h t] Hd Hx; cbn [replace forallb] in *; try reflexivity.
  - apply andb_true_iff in Hd as [_ Ht]. rewrite Hx, Ht. reflexivity.
  - apply andb_true_iff in Hd as [Hh Ht]. rewrite Hh. apply IH; assumption.
Qed.

Lemma forallb_remove_at : forall (f : entry -> bool) i d,
  forallb f d = true -> forallb f (remove_at i d) = true.
Proof.
  induction i as [|i IH]; intros [|h t] Hd; cbn [remove_at forallb] in *; try reflexivity.
  - apply andb_true_iff in Hd as [_ Ht]. exact Ht.
  - apply andb_true_iff in Hd as [Hh Ht]. rewrite Hh. apply IH. exact Ht.
Qed.

Lemma step_safe : forall d o, forallb safe d = true -> forallb safe (step d o) = true.
Proof.
  intros d o Hd. destruct o as [e|i ms|i]; cbn [step].
  - unfold create. destruct (pipeline e) as [p gs|x] eqn:E; [|exact Hd].
    rewrite forallb_app, Hd. cbn [forallb]. rewrite andb_true_r. exact (pipeline_safe e p gs E).
  - destruct (nth_error d i) as [e|]; [|exact Hd]. unfold modify.
    destruct (pipeline (fold_left apply_mod ms e)) as [p gs|x] eqn:E; [|exact Hd].
    apply forallb_replace; [exact Hd|]. exact (pipeline_safe _ p gs E).
  - apply forallb_remove_at. exact Hd.
Qed.

Lemma run_safe : forall ops d, forallb safe d = true -> forallb safe (run d ops) = true.
Proof.
  unfold run. induction ops as [|o ops IH]; intros d Hd; cbn [fold_left]; [exact Hd|].
  apply IH, step_safe, Hd.
Qed.

Lemma list_eqb_eq : forall a b, list_eqb a b = true -> a = b.
Proof.
  induction a as [|x a IH]; intros [|y b] H; cbn [list_eqb] in H; try discriminate; [reflexivity|].
  apply andb_true_iff in H as [H1 H2]. apply N.eqb_eq in H1. rewrite H1, (IH b H2). reflexivity.
Qed.

Lemma outcome_eqb_eq : forall a b, outcome_eqb a b = true -> a = b.
Proof.
  intros [p gs|x] [q hs|y] H; cbn [outcome_eqb] in H; try discriminate.
  - apply andb_true_iff in H as [H1 H2]. apply eqb_prop in H1. apply list_eqb_eq in H2. congruence.
  - destruct x, y; try discriminate; reflexivity.
Qed.

Lemma list_eqb_refl : forall a, list_eqb a a = true.
Proof. induction a as [|x a IH]; cbn [list_eqb]; [reflexivity|]. rewrite N.eqb_refl, IH. reflexivity. Qed.

Lemma outcome_eqb_refl : forall a, outcome_eqb a a = true.
Proof.
  intros [p gs|[]]; cbn [outcome_eqb err_eqb]; [|reflexivity..].
  rewrite eqb_reflx, list_eqb_refl. reflexivity.
Qed.

Lemma memb_in : forall g l, In g l -> memb g l = true.
Proof.
  intros g l H. apply existsb_exists. exists g. split; [exact H | apply N.eqb_refl].
Qed.

Lemma stored_safe_pipeline : forall e, stored_safe (pipeline e) = true.
Proof.
  intro e. destruct (pipeline e) as [p gs|x] eqn:E; [|reflexivity]. exact (pipeline_safe e p gs E).
Qed.

Lemma stored_origin_pipeline : forall e u sup,
  e_uuid e = u -> wf_uuidb u = true -> (forall g, In g (e_gids e) -> In g sup) ->
  stored_origin u sup (pipeline e) = true.
Proof.
  intros e u sup <- Hwf Hsub. destruct (pipeline e) as [[|] [|g [|g2 t]]|x] eqn:E; try reflexivity.
  cbn [stored_origin]. apply orb_true_iff.
  destruct (pipeline_stored e _ _ E) as (_ & _ & [->|H]); [left; reflexivity| |].
  - left. apply N.eqb_eq, gen_is_spec_gen, Hwf.
  - right. apply memb_in, Hsub, H.
Qed.

Lemma agree_implies_pcheck : forall c, agree c = true -> pcheck c = true.
Proof.
  intros [kind p u gs out|kind batch p u gs ms out|u1 u2 out2] H; cbn [agree pcheck] in *.
  - apply andb_true_iff in H as [Hwf H]. destruct (outcome_eqb_eq _ _ H). unfold create in *.
    rewrite stored_safe_pipeline, (stored_origin_pipeline (mkE p u gs) u gs eq_refl Hwf (fun g Hg => Hg)).
    rewrite <- (pipeline_is_spec (mkE p u gs) Hwf). apply outcome_eqb_refl.
  - apply andb_true_iff in H as [Hwf H]. destruct (outcome_eqb_eq _ _ H). unfold modify.
    rewrite stored_safe_pipeline. apply (stored_origin_pipeline _ u _ (fold_uuid ms (mkE p u gs)) Hwf).
    intros g. apply fold_gids_origin.
  - apply andb_true_iff in H as [H H3]. apply andb_true_iff in H as [H1 H2].
    destruct (outcome_eqb_eq _ _ H3). unfold collide_model in *.
    rewrite <- (gen_is_spec_gen u1 H1), <- (gen_is_spec_gen u2 H2).
    destruct (gen_gid u1 =? gen_gid u2); cbn [stored_safe safe_state andb]; [reflexivity|].
    rewrite gen_not_reserved. apply outcome_eqb_refl.
Qed.
