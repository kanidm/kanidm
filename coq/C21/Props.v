(* C21: every POSIX account or group ends up with a gid number outside the ranges reserved for the
   operating system, systemd, 'nobody' and the 16-bit sentinel; generated numbers are a deterministic
   function of the entry's UUID; a user-supplied number inside a reserved range is rejected.

   `reserved g` (KV.C21.Proofs) = g < 1000 \/ 60001..60577 \/ 61184..65519 \/ 65534 \/ 65535 \/ g >= 2^31.
   The systemd-nspawn container range 524288..1879048191 is NOT part of `reserved`: the code accepts
   supplied numbers there on purpose (gidnumber.rs:94-101); C21_generated_safe shows it never GENERATES one. *)
From Coq Require Import List NArith Bool.
Import ListNotations.
Require Import KV.C21.Model KV.C21.Proofs.
Open Scope N_scope.

(* Generated numbers: for EVERY byte list u (all 2^32 values of bytes 12..16, and even ill-formed input)
   the generated number lies in 0x70000000..0x7fffffff, hence is not reserved, is not in the nspawn
   range, and would itself pass the supplied-number check. *)
Theorem C21_generated_safe : forall u,
  0x70000000 <= gen_gid u <= 0x7fffffff /\ ~ reserved (gen_gid u) /\ accept_gid (gen_gid u) = true.
Proof.
  intro u. split; [exact (gen_range u)|]. pose proof (gen_not_reserved u) as Hn. split.
  - rewrite <- reserved_spec, Hn. discriminate.
  - rewrite accept_negb_reserved, Hn. reflexivity.
Qed.

(* mask-and-prefix in closed form: 0x70000000 + (the 32-bit number mod 2^28) *)
Theorem C21_generated_closed_form : forall u,
  gen_gid u = 0x70000000 + uuid_to_gid_u32 u mod 2 ^ 28.
Proof. exact gen_closed. Qed.

(* … and, for a real 16-byte uuid, by plain arithmetic on its last four bytes *)
Theorem C21_generated_bytes : forall u, wf_uuidb u = true -> gen_gid u = spec_gen u.
Proof. exact gen_is_spec_gen. Qed.

(* Determinism: the generated number is a function of bytes 12..16 of the uuid and of nothing else *)
Theorem C21_deterministic : forall u v, skipn 12 u = skipn 12 v -> gen_gid u = gen_gid v.
Proof. intros u v H. unfold gen_gid, uuid_to_gid_u32. rewrite H. reflexivity. Qed.

(* the 32-bit number taken from the uuid is the low 32 bits of the uuid read as a 128-bit number *)
Theorem C21_low32_of_u128 : forall u, wf_uuidb u = true ->
  uuid_to_gid_u32 u = uuid_as_u128 u mod 2 ^ 32.
Proof. exact low32_of_u128. Qed.

(* two uuids get the same generated number exactly when their low 28 bits coincide *)
Theorem C21_collision_iff : forall u v,
  gen_gid u = gen_gid v <-> uuid_to_gid_u32 u mod 2 ^ 28 = uuid_to_gid_u32 v mod 2 ^ 28.
Proof. intros u v. rewrite !gen_closed. apply N.add_cancel_l. Qed.

(* Supplied numbers, ALL naturals (so all 2^32 u32 values) by interval reasoning: the code's six allowed
   intervals are exactly the complement of the reserved set *)
Theorem C21_supplied_exact : forall g, accept_gid g = true <-> ~ reserved g.
Proof. intro g. rewrite accept_spec. apply accepted_iff_not_reserved. Qed.

(* the same as two implications, with the 32-bit bound that every unreserved number meets *)
Theorem C21_supplied : forall g,
  (accept_gid g = true -> ~ reserved g /\ g < 2 ^ 32) /\ (reserved g -> accept_gid g = false).
Proof.
  intro g. split.
  - intro H. apply C21_supplied_exact in H. split; [exact H | exact (unreserved_u32 g H)].
  - intro H. apply reserved_spec in H. rewrite accept_negb_reserved, H. reflexivity.
Qed.

(* a single supplied number in a reserved range is refused by the plugin with PL0001, whatever the
   entry's classes; so is the whole create / modify *)
Theorem C21_reserved_rejected : forall e g,
  e_gids e = [g] -> reserved g ->
  apply_gidnumber e = RErr EGidRange /\ pipeline e = Rejected EGidRange.
Proof.
  intros [p u gs] g Hg Hr. cbn [e_gids] in Hg. subst gs. apply reserved_spec in Hr.
  rewrite pipeline_cases, plugin_cases, Hr. split; reflexivity.
Qed.

(* Whatever create (plugin, then schema) lets through is safe: a posix entry holds exactly one number,
   it is not reserved and fits in 32 bits; a non-posix entry holds none. No hypothesis on the entry. *)
Theorem C21_pipeline_safe : forall e p gs,
  pipeline e = Stored p gs ->
  (p = true -> exists g, gs = [g] /\ ~ reserved g /\ g < 2 ^ 32) /\ (p = false -> gs = []).
Proof. intros e p gs H. apply safe_state_spec, (pipeline_safe e p gs H). Qed.

(* Totality: every posix entry ends with an unreserved number or the operation is rejected *)
Theorem C21_plugin_total : forall e, e_posix e = true ->
  (exists g, pipeline e = Stored true [g] /\ ~ reserved g) \/ (exists x, pipeline e = Rejected x).
Proof.
  intros e Hp. destruct (pipeline e) as [p gs|x] eqn:E; [left | right; eexists; reflexivity].
  destruct (pipeline_stored e p gs E) as (-> & Hs & _). rewrite Hp in *.
  destruct (proj1 (safe_state_spec true gs Hs) eq_refl) as (g & -> & Hr & _).
  exists g. split; [reflexivity | exact Hr].
Qed.

(* The pipeline equals the declarative table: no number -> generate (posix) / nothing (other);
   one number -> reserved: PL0001, else kept on a posix entry and a schema error elsewhere;
   several numbers -> schema error *)
Theorem C21_pipeline_is_spec : forall e, wf_uuidb (e_uuid e) = true -> pipeline e = spec_outcome e.
Proof. exact pipeline_is_spec. Qed.

(* The plugin ALONE does not enforce the property. With two or more values
   it checks nothing (to_uint32_single = None) — reserved numbers included; only the later schema check
   (single-value attribute) refuses the entry. C21_pipeline_safe covers the combination. *)
Theorem C21_plugin_skips_multivalue : forall p u g1 g2 t,
  apply_gidnumber (mkE p u (g1 :: g2 :: t)) = ROk (mkE p u (g1 :: g2 :: t)) /\
  pipeline (mkE p u (g1 :: g2 :: t)) = Rejected ESchema.
Proof. intros p u g1 g2 t. rewrite pipeline_cases, plugin_cases. split; reflexivity. Qed.

(* Modify: for EVERY modlist over class / gidnumber (add or drop the posix class, present, remove, purge,
   set — any length, any numbers) applied to ANY entry, what is stored is safe *)
Theorem C21_modify_safe : forall e ms p gs,
  modify e ms = Stored p gs ->
  (p = true -> exists g, gs = [g] /\ ~ reserved g /\ g < 2 ^ 32) /\ (p = false -> gs = []).
Proof. intros e ms p gs H. exact (C21_pipeline_safe _ p gs H). Qed.

(* what is stored is either the uuid's own generated number or one of the numbers the entry held or
   the request named — nothing else can appear *)
Theorem C21_stored_origin : forall e ms g,
  modify e ms = Stored true [g] -> g = gen_gid (e_uuid e) \/ In g (e_gids e ++ supplied ms).
Proof.
  intros e ms g H. apply pipeline_stored in H as (_ & _ & Ho). rewrite fold_uuid in Ho.
  destruct (Ho g (or_introl eq_refl)) as [Hg|Hg]; [left; exact Hg | right; apply fold_gids_origin, Hg].
Qed.

(* Invariant over unbounded histories of creates, modifies and deletes (rejected operations leave the
   database unchanged): every entry at rest is safe *)
Theorem C21_step_preserves : forall d o, forallb safe d = true -> forallb safe (step d o) = true.
Proof. exact step_safe. Qed.

Theorem C21_reachable_safe : forall ops e,
  In e (run [] ops) ->
  (e_posix e = true -> exists g, e_gids e = [g] /\ ~ reserved g /\ g < 2 ^ 32) /\
  (e_posix e = false -> e_gids e = []).
Proof.
  intros ops e Hin. apply safe_state_spec.
  pose proof (run_safe ops [] eq_refl) as H. rewrite forallb_forall in H. exact (H e Hin).
Qed.

(* Bridge: on every recorded case, agreement of the implementation with the model implies the property's
   own predicate on the implementation's output *)
Theorem C21_agree_implies_property : forall c, agree c = true -> pcheck c = true.
Proof. exact agree_implies_pcheck. Qed.

(* … and the predicate means what it says *)
Theorem C21_pcheck_sound : forall c, pcheck c = true ->
  match c with
  | CCreate _ _ _ _ (Stored p gs) | CModify _ _ _ _ _ _ (Stored p gs) | CCollide _ _ (Stored p gs) =>
      (p = true -> exists g, gs = [g] /\ ~ reserved g /\ g < 2 ^ 32) /\ (p = false -> gs = [])
  | _ => True
  end.
Proof.
  intros c H.
  destruct c as [k p u gs [q hs|x]|k b p u gs ms [q hs|x]|u1 u2 [q hs|x]]; cbn [pcheck] in H; try exact I;
    repeat (apply andb_true_iff in H as [H ?]); apply safe_state_spec; assumption.
Qed.
