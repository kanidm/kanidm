(* KV.C21.Witness — non-vacuity: concrete, non-trivial values meet the hypotheses of the implication
   theorems of Props.v, and the model reproduces kanidm's own unit-test vectors. *)
From Coq Require Import List NArith Bool Lia.
Import ListNotations.
Require Import KV.C21.Model KV.C21.Proofs.
Open Scope N_scope.

(* 83a0927f-3de1-45ec-bea0-2f7b997ef244 -> 0x797ef244 and d90fb0cb-…-e364d9c13255 -> 0x79c13255
   (test_gidnumber_generate in gidnumber.rs) *)
Definition u_a : uuid := [0x83;0xa0;0x92;0x7f;0x3d;0xe1;0x45;0xec;0xbe;0xa0;0x2f;0x7b;0x99;0x7e;0xf2;0x44].
Definition u_b : uuid := [0xd9;0x0f;0xb0;0xcb;0x67;0x85;0x4f;0x36;0x94;0xcb;0xe3;0x64;0xd9;0xc1;0x32;0x55].
(* u_a with a different top nibble in byte 12 and different leading bytes: same low 28 bits *)
Definition u_a' : uuid := [1;2;3;4;5;6;7;8;9;10;11;12;0x29;0x7e;0xf2;0x44].

(* hypotheses of C21_generated_bytes / C21_low32_of_u128 / C21_pipeline_is_spec: well-formed uuids exist,
   and the generated numbers are the expected ones *)
Example C21_witness_wf_and_vectors :
  wf_uuidb u_a = true /\ wf_uuidb u_b = true /\ wf_uuidb u_a' = true /\
  gen_gid u_a = 0x797ef244 /\ gen_gid u_b = 0x79c13255 /\ spec_gen u_a = 0x797ef244 /\
  uuid_to_gid_u32 u_a = 0x997ef244 /\ uuid_as_u128 u_a mod 2 ^ 32 = 0x997ef244.
Proof. vm_compute. repeat split; reflexivity. Qed.

(* hypothesis of C21_collision_iff (right to left) met by different uuids with different last four bytes
   (u_a, u_a'); hypothesis of C21_deterministic met by different uuids (u_a, 1 :: tl u_a) *)
Example C21_witness_deterministic :
  u_a <> u_a' /\ skipn 12 u_a <> skipn 12 u_a' /\
  uuid_to_gid_u32 u_a mod 2 ^ 28 = uuid_to_gid_u32 u_a' mod 2 ^ 28 /\ gen_gid u_a = gen_gid u_a' /\
  skipn 12 u_a = skipn 12 (1 :: tl u_a) /\ u_a <> 1 :: tl u_a /\ gen_gid u_a <> gen_gid u_b.
Proof. vm_compute. repeat split; try reflexivity; discriminate. Qed.

(* hypotheses of C21_supplied / C21_supplied_exact: accepted numbers exist at every interval edge, the
   neighbours are refused *)
Example C21_witness_supplied_edges :
  map accept_gid [1000; 60000; 60578; 61183; 65520; 65533; 65536; 524287; 524288; 1879048191; 1879048192; 2147483647]
    = [true; true; true; true; true; true; true; true; true; true; true; true] /\
  map accept_gid [0; 999; 60001; 60577; 61184; 65519; 65534; 65535; 2147483648; 4294967295]
    = [false; false; false; false; false; false; false; false; false; false] /\
  map reservedb [0; 999; 60001; 60577; 61184; 65519; 65534; 65535; 2147483648; 4294967295]
    = [true; true; true; true; true; true; true; true; true; true].
Proof. vm_compute. repeat split; reflexivity. Qed.

(* hypotheses of C21_reserved_rejected: a posix entry and a non-posix entry with the reserved number 65534 *)
Example C21_witness_reserved_rejected :
  reserved 65534 /\ e_gids (mkE true u_a [65534]) = [65534] /\
  pipeline (mkE true u_a [65534]) = Rejected EGidRange /\
  pipeline (mkE false u_a [65534]) = Rejected EGidRange.
Proof. split; [unfold reserved; lia|]. vm_compute. repeat split; reflexivity. Qed.

(* hypotheses of C21_pipeline_safe / C21_plugin_total: all three kinds of stored outcome occur *)
Example C21_witness_pipeline :
  pipeline (mkE true u_a []) = Stored true [0x797ef244] /\
  pipeline (mkE true u_a [10001]) = Stored true [10001] /\
  pipeline (mkE false u_a []) = Stored false [] /\
  pipeline (mkE false u_a [10001]) = Rejected ESchema /\
  pipeline (mkE true u_a [500; 10001]) = Rejected ESchema.
Proof. vm_compute. repeat split; reflexivity. Qed.

(* hypotheses of C21_modify_safe / C21_stored_origin: purge regenerates, a supplied number is kept,
   adding the class generates, a reserved number among several mods is refused *)
Example C21_witness_modify :
  modify (mkE true u_b [10001]) [MPurgeGid] = Stored true [0x79c13255] /\
  modify (mkE false u_a []) [MPresPosix; MPresGid 10002] = Stored true [10002] /\
  modify (mkE false u_a []) [MPresPosix] = Stored true [0x797ef244] /\
  modify (mkE true u_a [10001]) [MRemGid 10001; MPresGid 65535] = Rejected EGidRange /\
  modify (mkE true u_a [10001]) [MPresGid 500] = Rejected ESchema /\
  modify (mkE true u_a [10001]) [MSetGid [2000]; MRemPosix] = Rejected ESchema.
Proof. vm_compute. repeat split; reflexivity. Qed.

(* hypothesis of C21_reachable_safe: a history that really builds a database (accepted and rejected
   operations, a regeneration, a delete) *)
Example C21_witness_history :
  run [] [OpCreate (mkE true u_a []); OpCreate (mkE true u_b [999]); OpCreate (mkE false u_b []);
          OpModify 1 [MPresPosix; MPresGid 60578]; OpModify 0 [MSetGid [65534]]; OpCreate (mkE true u_a' [1000]);
          OpDelete 0]
  = [mkE true u_b [60578]; mkE true u_a' [1000]].
Proof. vm_compute. reflexivity. Qed.

(* hypothesis of C21_agree_implies_property / C21_pcheck_sound: agreeing cases of each constructor *)
Example C21_witness_cases :
  agree (CCreate 0 true u_a [] (Stored true [0x797ef244])) = true /\
  agree (CModify 1 true true u_b [10001] [MPurgeGid] (Stored true [0x79c13255])) = true /\
  agree (CCollide u_a u_a' (Rejected EUnique)) = true /\
  agree (CCollide u_a u_b (Stored true [0x79c13255])) = true.
Proof. vm_compute. repeat split; reflexivity. Qed.

(* pcheck is not trivially true: it refuses a stored reserved number, a wrong generated number, an altered
   supplied number, and an accepted reserved request — independently of `agree` *)
Example C21_witness_pcheck_refuses :
  pcheck (CCreate 0 true u_a [500] (Stored true [500])) = false /\
  pcheck (CCreate 0 true u_a [] (Stored true [0x797ef245])) = false /\
  pcheck (CCreate 0 true u_a [] (Stored true [0x997ef244])) = false /\
  pcheck (CCreate 1 true u_a [10001] (Stored true [10002])) = false /\
  pcheck (CCreate 1 true u_a [] (Stored true [])) = false /\
  pcheck (CModify 0 false true u_a [10001] [MPresGid 65534; MRemGid 10001] (Stored true [65534])) = false /\
  pcheck (CModify 0 false true u_a [10001] [MPurgeGid] (Stored true [0x797ef245])) = false /\
  pcheck (CCollide u_a u_a' (Stored true [0x797ef244])) = false.
Proof. vm_compute. repeat split; reflexivity. Qed.
