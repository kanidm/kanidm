(* Everything about [authorise] goes through two facts: the model passes [spec_ok] on ALL inputs
   (authorise_spec_ok), and [spec_ok] of an answer with a secret implies [released] (spec_ok_secret).
   VLAN and attributes: the fold over the user's groups is a [find] on the reversed list and an
   [extend] over [offered_attrs] (resolve_fold). *)
From Coq Require Import List NArith Bool.
Import ListNotations.
Require Import KV.C46.Model.
Open Scope N_scope.
Arguments N.ltb : simpl never.
Arguments N.eqb : simpl never.

Lemma alookup_sinsert {V} k k' (v : V) m :
  alookup k (sinsert k' v m) = if k =? k' then Some v else alookup k m.
Proof.
  induction m as [|[k0 v0] r IH]; cbn [sinsert alookup]; [reflexivity|].
  destruct (k' <? k0); [reflexivity|]. destruct (N.eqb_spec k' k0) as [<-|Hne]; cbn [alookup].
  - destruct (k =? k'); reflexivity.
  - rewrite IH. destruct (N.eqb_spec k k0) as [->|]; [|reflexivity].
    destruct (N.eqb_spec k0 k') as [->|]; [contradiction | reflexivity].
Qed.

Lemma alookup_app {V} k (a b : list (N * V)) :
  alookup k (a ++ b) = match alookup k a with Some v => Some v | None => alookup k b end.
Proof.
  induction a as [|[k0 v0] a IH]; cbn [app alookup]; [reflexivity|].
  destruct (k =? k0); [reflexivity | exact IH].
Qed.

Lemma alookup_none {V} k (l : list (N * V)) : ~ In k (map fst l) -> alookup k l = None.
Proof.
  induction l as [|[k0 v0] l IH]; cbn [map fst In alookup]; intros Hn; [reflexivity|].
  destruct (N.eqb_spec k k0) as [->|_]; [|apply IH]; tauto.
Qed.

Lemma extend_cons {V} (m : list (N * V)) a l :
  extend m (a :: l) = extend (sinsert (fst a) (snd a) m) l.
Proof. reflexivity. Qed.

Lemma extend_app {V} (m : list (N * V)) l1 l2 : extend m (l1 ++ l2) = extend (extend m l1) l2.
Proof. apply fold_left_app. Qed.

Lemma alookup_extend {V} k : forall (l m : list (N * V)),
  alookup k (extend m l) = match alookup k (rev l) with Some v => Some v | None => alookup k m end.
Proof.
  induction l as [|[k0 v0] l IH]; intros m; [reflexivity|].
  rewrite extend_cons, IH. cbn [rev fst snd]. rewrite alookup_app.
  destruct (alookup k (rev l)); [reflexivity|].
  rewrite alookup_sinsert. cbn [alookup]. destruct (k =? k0); reflexivity.
Qed.

Definition lb {V} (b : N) (m : list (N * V)) : bool :=
  match m with [] => true | (k, _) :: _ => b <? k end.

Lemma sa_cons {V} k (v : V) r : strictly_ascending ((k, v) :: r) = lb k r && strictly_ascending r.
Proof. destruct r as [|[k' v'] r]; reflexivity. Qed.

Lemma lb_sinsert {V} b k (v : V) m : lb b m = true -> b <? k = true -> lb b (sinsert k v m) = true.
Proof.
  intros Hm Hk. destruct m as [|[k0 v0] r]; cbn [sinsert]; [exact Hk|].
  destruct (k <? k0); [exact Hk|]. destruct (k =? k0); [exact Hk | exact Hm].
Qed.

Lemma sa_sinsert {V} k (v : V) : forall m,
  strictly_ascending m = true -> strictly_ascending (sinsert k v m) = true.
Proof.
  induction m as [|[k0 v0] r IH]; intros H; [reflexivity|].
  rewrite sa_cons in H. apply andb_true_iff in H as [Hlb Hsa]. cbn [sinsert].
  destruct (k <? k0) eqn:E1.
  - rewrite sa_cons. cbn [lb]. rewrite E1, sa_cons, Hlb, Hsa. reflexivity.
  - destruct (k =? k0) eqn:E2.
    + apply N.eqb_eq in E2. subst k0. rewrite sa_cons, Hlb, Hsa. reflexivity.
    + rewrite sa_cons, (IH Hsa), andb_true_r. apply lb_sinsert; [exact Hlb|].
      apply N.ltb_lt, N.le_neq. apply N.ltb_ge in E1. apply N.eqb_neq in E2. split; [exact E1 | congruence].
Qed.

Lemma sa_extend {V} : forall (l m : list (N * V)),
  strictly_ascending m = true -> strictly_ascending (extend m l) = true.
Proof.
  induction l as [|a l IH]; intros m H; [exact H|].
  rewrite extend_cons. apply IH, sa_sinsert, H.
Qed.

Lemma find_app' {A} (f : A -> bool) a b :
  find f (a ++ b) = match find f a with Some x => Some x | None => find f b end.
Proof. induction a as [|x a IH]; cbn [app find]; [reflexivity|]. destruct (f x); [reflexivity | exact IH]. Qed.

Lemma find_all_false {A} (f : A -> bool) l : (forall x, In x l -> f x = false) -> find f l = None.
Proof.
  induction l as [|x l IH]; intros H; [reflexivity|]. cbn [find].
  rewrite (H x (or_introl eq_refl)). apply IH. intros y Hy. apply H. right. exact Hy.
Qed.

Lemma find_rev_last {A} (f : A -> bool) pre x post :
  f x = true -> (forall y, In y post -> f y = false) -> find f (rev (pre ++ x :: post)) = Some x.
Proof.
  intros Hx Hp. rewrite rev_app_distr. cbn [rev]. rewrite <- app_assoc, find_app'.
  rewrite find_all_false.
  - cbn [app find]. rewrite Hx. reflexivity.
  - intros y Hy. apply Hp. apply in_rev. exact Hy.
Qed.

Lemma alookup_map_find spn (l : list gcfg) :
  alookup spn (map (fun g => (c_spn g, g)) l) = find (fun g => c_spn g =? spn) l.
Proof.
  induction l as [|g l IH]; cbn [map alookup find]; [reflexivity|].
  rewrite (N.eqb_sym spn). destruct (c_spn g =? spn); [reflexivity | exact IH].
Qed.

Lemma group_configs_lookup c spn : alookup spn (group_configs c) = mapping_of c spn.
Proof.
  unfold group_configs, mapping_of. rewrite alookup_extend, <- map_rev, alookup_map_find.
  destruct (find _ _); reflexivity.
Qed.

Definition vlan_of (c : config) (g : group) : N :=
  match mapping_of c (g_spn g) with Some m => c_vlan m | None => k_default c end.

(* one group updates the two components independently of each other *)
Lemma resolve_step_eq c v a g :
  resolve_step (group_configs c) (v, a) g =
  (match mapping_of c (g_spn g) with Some m => c_vlan m | None => v end,
   extend a (match mapping_of c (g_spn g) with Some m => c_attrs m | None => [] end)).
Proof. unfold resolve_step. rewrite group_configs_lookup. destruct (mapping_of c (g_spn g)); reflexivity. Qed.

Lemma resolve_fold c : forall gs v a,
  fold_left (resolve_step (group_configs c)) gs (v, a) =
  (match find (has_mapping c) (rev gs) with Some g => vlan_of c g | None => v end,
   extend a (offered_attrs c gs)).
Proof.
  induction gs as [|g gs IH]; intros v a; [reflexivity|].
  cbn [fold_left]. rewrite resolve_step_eq, IH. f_equal.
  - cbn [rev]. rewrite find_app'. destruct (find (has_mapping c) (rev gs)); [reflexivity|].
    cbn [find]. unfold has_mapping.
    destruct (mapping_of c (g_spn g)) eqn:E; cbn beta iota; [unfold vlan_of; rewrite E|]; reflexivity.
  - symmetry. apply extend_app.
Qed.

Lemma resolve_vlan c gs : fst (resolve_group_configs c gs) = vlan_spec c gs.
Proof. unfold resolve_group_configs. rewrite resolve_fold. reflexivity. Qed.

Lemma resolve_attrs c gs : snd (resolve_group_configs c gs) = extend [] (offered_attrs c gs).
Proof. unfold resolve_group_configs. rewrite resolve_fold. reflexivity. Qed.

Lemma resolve_attr_lookup c gs k : alookup k (snd (resolve_group_configs c gs)) = attr_spec c gs k.
Proof.
  rewrite resolve_attrs, alookup_extend. unfold attr_spec.
  destruct (alookup k (rev (offered_attrs c gs))); reflexivity.
Qed.

Lemma resolve_sa c gs : strictly_ascending (snd (resolve_group_configs c gs)) = true.
Proof. rewrite resolve_attrs. apply sa_extend. reflexivity. Qed.

Lemma set_contains_In x s : set_contains x s = true <-> In x s.
Proof.
  unfold set_contains. rewrite existsb_exists. split.
  - intros [y [Hy H]]. apply N.eqb_eq in H. subst y. exact Hy.
  - intros H. exists x. split; [exact H | apply N.eqb_refl].
Qed.

Lemma member_iff req gs :
  user_in_required_groups req gs = true <->
  exists g, In g gs /\ (In (g_uuid g) req \/ In (g_spn g) req).
Proof.
  unfold user_in_required_groups. rewrite existsb_exists.
  setoid_rewrite orb_true_iff. setoid_rewrite set_contains_In. reflexivity.
Qed.

Lemma member_spec_iff req gs :
  member_spec req gs = true <->
  exists g, In g gs /\ (In (g_uuid g) req \/ In (g_spn g) req).
Proof.
  unfold member_spec. rewrite existsb_exists. setoid_rewrite existsb_exists.
  setoid_rewrite orb_true_iff. setoid_rewrite N.eqb_eq. split.
  - intros (r & Hr & g & Hg & [-> | ->]); exists g; auto.
  - intros (g & Hg & [H|H]); [exists (g_uuid g) | exists (g_spn g)]; (split; [exact H|]); exists g; auto.
Qed.

Lemma member_spec_eq req gs : member_spec req gs = user_in_required_groups req gs.
Proof. apply eq_true_iff_eq. rewrite member_spec_iff, member_iff. reflexivity. Qed.

Lemma spec_user_id_eq r : spec_user_id r = user_id r.
Proof. destruct r as [[s|] [c|] [u|]]; reflexivity. Qed.

Lemma opt_eqb_refl a : opt_eqb a a = true.
Proof. destruct a; cbn; [apply N.eqb_refl | reflexivity]. Qed.
Lemma opt_eqb_eq a b : opt_eqb a b = true -> a = b.
Proof. destruct a, b; cbn; intros H; try discriminate; [apply N.eqb_eq in H; subst|]; reflexivity. Qed.
Lemma err_eqb_eq a b : err_eqb a b = true -> a = b.
Proof. destruct a, b; cbn; intros H; try discriminate; reflexivity. Qed.
Lemma err_eqb_refl a : err_eqb a a = true.
Proof. destruct a; reflexivity. Qed.
Lemma attrs_eqb_eq : forall a b, attrs_eqb a b = true -> a = b.
Proof.
  induction a as [|[k v] a IH]; intros [|[k' v'] b] H; cbn [attrs_eqb] in H; try discriminate; [reflexivity|].
  apply andb_prop in H as [[Hk Hv]%andb_prop H]. apply N.eqb_eq in Hk, Hv. rewrite Hk, Hv, (IH b H). reflexivity.
Qed.
Lemma result_eqb_eq a b : result_eqb a b = true -> a = b.
Proof.
  destruct a as [e|n u t v at_ s], b as [e'|n' u' t' v' at' s']; cbn [result_eqb]; intros H; try discriminate.
  - rewrite (err_eqb_eq _ _ H). reflexivity.
  - apply andb_prop in H as [[[[[Hn Hu]%andb_prop Ht]%andb_prop Hv]%andb_prop Ha]%andb_prop Hs].
    apply N.eqb_eq in Hn, Hu, Hv.
    rewrite Hn, Hu, Hv, (eqb_prop _ _ Ht), (attrs_eqb_eq _ _ Ha), (opt_eqb_eq _ _ Hs). reflexivity.
Qed.

Lemma alookup_ext (a b : list (N * str)) ks :
  (forall k, In k (map fst a) \/ In k (map fst b) -> In k ks) ->
  forallb (fun k => opt_eqb (alookup k a) (alookup k b)) ks = true ->
  forall k, alookup k a = alookup k b.
Proof.
  intros Hks Hall k. destruct (in_dec N.eq_dec k ks) as [Hin|Hnin].
  - apply opt_eqb_eq. revert k Hin. apply forallb_forall. exact Hall.
  - rewrite !alookup_none; [reflexivity | |]; intros Hc; apply Hnin, Hks; tauto.
Qed.

Lemma authorise_eq c d r :
  authorise c d r =
  match user_id r with
  | None => RErr EFail
  | Some id =>
      match dir_get id d with
      | RespToken tok =>
          if user_in_required_groups (k_required c) (t_groups tok)
          then ROk (t_name tok) (t_uuid tok) true (vlan_spec c (t_groups tok))
                   (snd (resolve_group_configs c (t_groups tok))) (Some (t_secret tok))
          else RErr EReject
      | RespStatus code => RErr (if code =? 404 then ENotFound else EFail)
      | RespGarbage => RErr EFail
      end
  end.
Proof.
  unfold authorise, fetch_token. destruct (user_id r) as [id|]; [|reflexivity].
  destruct (dir_get id d) as [tok|code|]; [|destruct (code =? 404); reflexivity | reflexivity].
  cbv zeta. rewrite resolve_vlan. destruct (user_in_required_groups _ _); reflexivity.
Qed.

Theorem authorise_spec_ok c d r : spec_ok c d r (authorise c d r) = true.
Proof.
  rewrite authorise_eq. unfold spec_ok. rewrite spec_user_id_eq.
  destruct (user_id r) as [id|]; [|reflexivity].
  destruct (dir_get id d) as [tok|code|]; [|destruct (code =? 404); reflexivity | reflexivity].
  rewrite !member_spec_eq. destruct (user_in_required_groups (k_required c) (t_groups tok)); [|reflexivity].
  cbn [negb opt_eqb]. rewrite !N.eqb_refl, resolve_sa. cbn [andb].
  apply forallb_forall. intros k _. rewrite resolve_attr_lookup. apply opt_eqb_refl.
Qed.

Theorem agree_implies_pcheck c : agree c = true -> pcheck c = true.
Proof.
  destruct c as [cfg d r impl]. cbn [agree pcheck]. intros H.
  apply result_eqb_eq in H. subst impl. apply authorise_spec_ok.
Qed.

(* what justifies an answer that carries the secret s *)
Definition released c d r name uuid vlan attrs s : Prop :=
  exists id tok, user_id r = Some id /\ dir_get id d = RespToken tok /\
    s = t_secret tok /\ name = t_name tok /\ uuid = t_uuid tok /\
    (exists g, In g (t_groups tok) /\ (In (g_uuid g) (k_required c) \/ In (g_spn g) (k_required c))) /\
    vlan = vlan_spec c (t_groups tok) /\
    (forall k, alookup k attrs = attr_spec c (t_groups tok) k).

Lemma spec_ok_secret c d r name uuid tun vlan attrs s :
  spec_ok c d r (ROk name uuid tun vlan attrs (Some s)) = true -> released c d r name uuid vlan attrs s.
Proof.
  unfold spec_ok, released. rewrite spec_user_id_eq. destruct (user_id r) as [id|]; [|discriminate].
  destruct (dir_get id d) as [tok| |] eqn:Ed; try discriminate.
  intros [[[[[[[Hm Hs]%andb_prop Hn]%andb_prop Hu]%andb_prop _]%andb_prop Hv]%andb_prop _]%andb_prop Hall]%andb_prop.
  apply member_spec_iff in Hm. apply N.eqb_eq in Hs, Hn, Hu, Hv. subst s name uuid vlan.
  exists id, tok. repeat split; [exact Ed | exact Hm |].
  refine (alookup_ext _ _ _ _ Hall). intros k. rewrite in_app_iff, map_rev, <- in_rev. tauto.
Qed.

Lemma authorise_released c d r name uuid tun vlan attrs s :
  authorise c d r = ROk name uuid tun vlan attrs (Some s) -> released c d r name uuid vlan attrs s.
Proof. intros H. apply (spec_ok_secret c d r name uuid tun). rewrite <- H. apply authorise_spec_ok. Qed.
