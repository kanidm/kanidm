(* KV.C46.Witness — non-vacuity: concrete non-trivial inputs meet the hypotheses of the
   implication theorems of Props.v. *)
From Coq Require Import List NArith Bool.
Import ListNotations.
Require Import KV.C46.Model.
Open Scope N_scope.

(* strings: 1,2 = spns; 11,12,13 = uuids; 20.. = names/secrets; 30.. = user ids; 40.. = attr values *)
Definition w_cfg : config :=
  mkconfig [11; 2; 2] 1
    [ mkgcfg 1 10 [(0, 40); (3, 41)];
      mkgcfg 2 20 [(3, 42)];
      mkgcfg 1 30 [(0, 43)] ].         (* a second entry for spn 1: the last one wins *)
Definition w_tok_member : token :=
  mktoken 20 21 22 [ mkgroup 2 12; mkgroup 5 11; mkgroup 1 13; mkgroup 7 13 ].
Definition w_tok_outsider : token :=
  mktoken 23 24 25 [ mkgroup 1 12; mkgroup 5 13 ].     (* mapped group, but not a required one *)
Definition w_dir : directory := [ (30, RespToken w_tok_member); (31, RespToken w_tok_outsider); (32, RespStatus 500) ].

(* C46_secret_only_if_member / C46_released_vlan_and_attrs / C46_ok_carries_secret: an Ok answer
   exists; the member matched by UUID (group 5/11) and by SPN (group 2/12); vlan 30 is that of the
   LAST mapped group (spn 1, whose last config entry is the one with vlan 30); key 3 is the offer
   of group 2 and key 0 that of spn 1's last config entry (no key is offered twice: the offers are
   [(3, 42); (0, 43)], and the answer holds them in ascending order) *)
Example C46_witness_released :
  authorise w_cfg w_dir (mkreq None (Some 30) (Some 31)) = ROk 20 21 true 30 [(0, 43); (3, 42)] (Some 22).
Proof. vm_compute. reflexivity. Qed.

(* C46_non_member_rejected: hypotheses met by a user with groups, none of them required *)
Example C46_witness_rejected :
  user_id (mkreq None None (Some 31)) = Some 31 /\ dir_get 31 w_dir = RespToken w_tok_outsider /\
  forallb (fun g => negb (set_contains (g_uuid g) (k_required w_cfg)) && negb (set_contains (g_spn g) (k_required w_cfg)))
          (t_groups w_tok_outsider) = true /\
  authorise w_cfg w_dir (mkreq None None (Some 31)) = RErr EReject.
Proof. vm_compute. repeat split; reflexivity. Qed.

(* C46_member_gets_secret: hypotheses met (group 5/11 is required by uuid) *)
Example C46_witness_member :
  user_id (mkreq (Some 30) (Some 31) None) = Some 30 /\ dir_get 30 w_dir = RespToken w_tok_member /\
  In (mkgroup 5 11) (t_groups w_tok_member) /\ In (g_uuid (mkgroup 5 11)) (k_required w_cfg).
Proof. vm_compute. repeat split; auto. Qed.

(* C46_empty_required_releases_nothing: with an empty required list even that member is rejected *)
Example C46_witness_empty_required :
  authorise (mkconfig [] 1 (k_groups w_cfg)) w_dir (mkreq None None (Some 30)) = RErr EReject.
Proof. vm_compute. reflexivity. Qed.

(* C46_lookup_failures: every branch occurs *)
Example C46_witness_failures :
  authorise w_cfg w_dir (mkreq None None None) = RErr EFail /\
  authorise w_cfg w_dir (mkreq None None (Some 33)) = RErr ENotFound /\
  authorise w_cfg w_dir (mkreq None None (Some 32)) = RErr EFail /\
  authorise w_cfg [(30, RespGarbage)] (mkreq None None (Some 30)) = RErr EFail.
Proof. vm_compute. repeat split; reflexivity. Qed.

(* C46_mapping_last_entry: k_groups = pre ++ m :: post with no later entry for m's spn *)
Example C46_witness_mapping :
  k_groups w_cfg = [mkgcfg 1 10 [(0, 40); (3, 41)]; mkgcfg 2 20 [(3, 42)]] ++ mkgcfg 1 30 [(0, 43)] :: [] /\
  mapping_of w_cfg 1 = Some (mkgcfg 1 30 [(0, 43)]) /\ mapping_of w_cfg 7 = None.
Proof. vm_compute. repeat split; reflexivity. Qed.

(* C46_vlan_last: groups = pre ++ g :: post, g mapped, nothing after g mapped *)
Example C46_witness_vlan_last :
  t_groups w_tok_member = [mkgroup 2 12; mkgroup 5 11] ++ mkgroup 1 13 :: [mkgroup 7 13] /\
  mapping_of w_cfg (g_spn (mkgroup 1 13)) = Some (mkgcfg 1 30 [(0, 43)]) /\
  forallb (fun g => negb (has_mapping w_cfg g)) [mkgroup 7 13] = true /\
  fst (resolve_group_configs w_cfg (t_groups w_tok_member)) = 30.
Proof. vm_compute. repeat split; reflexivity. Qed.

(* C46_vlan_default: a non-empty group list without any mapping *)
Example C46_witness_vlan_default :
  forallb (fun g => negb (has_mapping w_cfg g)) [mkgroup 5 11; mkgroup 7 2] = true /\
  resolve_group_configs w_cfg [mkgroup 5 11; mkgroup 7 2] = (1, []).
Proof. vm_compute. repeat split; reflexivity. Qed.

(* the executable predicate is not trivially true: it refutes a wrong VLAN, a foreign secret, a
   secret for an outsider, and a wrong refusal *)
Example C46_witness_pcheck_discriminates :
  pcheck (CAuth w_cfg w_dir (mkreq None None (Some 30)) (ROk 20 21 true 30 [(0, 43); (3, 42)] (Some 22))) = true /\
  pcheck (CAuth w_cfg w_dir (mkreq None None (Some 30)) (ROk 20 21 true 20 [(0, 43); (3, 42)] (Some 22))) = false /\
  pcheck (CAuth w_cfg w_dir (mkreq None None (Some 30)) (ROk 20 21 true 30 [(0, 40); (3, 42)] (Some 22))) = false /\
  pcheck (CAuth w_cfg w_dir (mkreq None None (Some 30)) (ROk 20 21 true 30 [(0, 43); (3, 42)] (Some 25))) = false /\
  pcheck (CAuth w_cfg w_dir (mkreq None None (Some 31)) (ROk 23 24 true 30 [(0, 43)] (Some 25))) = false /\
  pcheck (CAuth w_cfg w_dir (mkreq None None (Some 30)) (RErr EReject)) = false /\
  pcheck (CAuth w_cfg w_dir (mkreq None None (Some 31)) (RErr EReject)) = true.
Proof. vm_compute. repeat split; reflexivity. Qed.
