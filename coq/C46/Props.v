(* C46: the RADIUS module releases a user's network secret only if the user belongs, by UUID or
   SPN, to at least one configured required group; the VLAN it returns is that of the last of the
   user's groups with a VLAN mapping, or the default VLAN if none has one. *)
From Coq Require Import List NArith Bool.
Import ListNotations.
Require Import KV.C46.Model KV.C46.Proofs.
Open Scope N_scope.

(* Secret only to members.  For every configuration, every directory and every request: if
   authorise answers with a secret, then the request names a user (SAN, else CN, else user
   name) whose token the server returned, the secret/name/uuid are exactly that token's, and
   some group of that token is in the required list by its uuid or by its spn. *)
Theorem C46_secret_only_if_member : forall c d r name uuid tun vlan attrs s,
  authorise c d r = ROk name uuid tun vlan attrs (Some s) ->
  exists id tok,
    user_id r = Some id /\ dir_get id d = RespToken tok /\
    s = t_secret tok /\ name = t_name tok /\ uuid = t_uuid tok /\
    exists g, In g (t_groups tok) /\
      (In (g_uuid g) (k_required c) \/ In (g_spn g) (k_required c)).
Proof.
  intros c d r name uuid tun vlan attrs s H.
  apply authorise_released in H as (id & tok & H1 & H2 & H3 & H4 & H5 & H6 & _).
  exists id, tok. repeat (split; [assumption|]). exact H6.
Qed.

(* ... and the VLAN and reply attributes released with it are the specified ones for that
   user's group list *)
Theorem C46_released_vlan_and_attrs : forall c d r name uuid tun vlan attrs s,
  authorise c d r = ROk name uuid tun vlan attrs (Some s) ->
  exists id tok,
    user_id r = Some id /\ dir_get id d = RespToken tok /\
    vlan = vlan_spec c (t_groups tok) /\
    (forall k, alookup k attrs = attr_spec c (t_groups tok) k).
Proof.
  intros c d r name uuid tun vlan attrs s H.
  apply authorise_released in H as (id & tok & H1 & H2 & _ & _ & _ & _ & H7 & H8).
  exists id, tok. repeat (split; [assumption|]). exact H8.
Qed.

(* every successful answer carries a secret, so the two theorems above cover every Ok *)
Theorem C46_ok_carries_secret : forall c d r name uuid tun vlan attrs o,
  authorise c d r = ROk name uuid tun vlan attrs o -> exists s, o = Some s.
Proof.
  intros c d r name uuid tun vlan attrs o. rewrite authorise_eq.
  destruct (user_id r) as [id|]; [|discriminate]. destruct (dir_get id d) as [tok|code|]; try discriminate.
  destruct (user_in_required_groups _ _); [|discriminate]. intros [= _ _ _ _ _ <-]. eexists. reflexivity.
Qed.

(* non-members are rejected (contrapositive, with the exact refusal) *)
Theorem C46_non_member_rejected : forall c d r id tok,
  user_id r = Some id -> dir_get id d = RespToken tok ->
  (forall g, In g (t_groups tok) -> ~ In (g_uuid g) (k_required c) /\ ~ In (g_spn g) (k_required c)) ->
  authorise c d r = RErr EReject.
Proof.
  intros c d r id tok Hid Hd Hn. rewrite authorise_eq, Hid, Hd.
  destruct (user_in_required_groups (k_required c) (t_groups tok)) eqn:E; [|reflexivity].
  apply member_iff in E as [g [Hg [H|H]]]; destruct (Hn g Hg) as [N1 N2]; contradiction.
Qed.

(* an empty required list releases no secret at all *)
Theorem C46_empty_required_releases_nothing : forall c d r,
  k_required c = [] -> forall name uuid tun vlan attrs o, authorise c d r <> ROk name uuid tun vlan attrs o.
Proof.
  intros c d r He name uuid tun vlan attrs o H.
  destruct (C46_ok_carries_secret _ _ _ _ _ _ _ _ _ H) as [s ->].
  apply C46_secret_only_if_member in H as [id [tok [_ [_ [_ [_ [_ [g [_ [Hg|Hg]]]]]]]]]];
    rewrite He in Hg; exact Hg.
Qed.

(* members get their secret and the specified VLAN (completeness) *)
Theorem C46_member_gets_secret : forall c d r id tok g,
  user_id r = Some id -> dir_get id d = RespToken tok ->
  In g (t_groups tok) -> (In (g_uuid g) (k_required c) \/ In (g_spn g) (k_required c)) ->
  exists attrs,
    authorise c d r = ROk (t_name tok) (t_uuid tok) true (vlan_spec c (t_groups tok)) attrs (Some (t_secret tok))
    /\ strictly_ascending attrs = true
    /\ forall k, alookup k attrs = attr_spec c (t_groups tok) k.
Proof.
  intros c d r id tok g Hid Hd Hg Hm.
  assert (E : user_in_required_groups (k_required c) (t_groups tok) = true).
  { apply member_iff. exists g. split; assumption. }
  rewrite authorise_eq, Hid, Hd, E. eexists. split; [reflexivity|]. split.
  - apply resolve_sa.
  - intros k. apply resolve_attr_lookup.
Qed.

(* failures of the lookup never release anything: no user id / lookup error => Fail, 404 => NotFound *)
Theorem C46_lookup_failures : forall c d r,
  (user_id r = None -> authorise c d r = RErr EFail) /\
  (forall id, user_id r = Some id -> dir_get id d = RespStatus 404 -> authorise c d r = RErr ENotFound) /\
  (forall id code, user_id r = Some id -> dir_get id d = RespStatus code -> code <> 404 -> authorise c d r = RErr EFail) /\
  (forall id, user_id r = Some id -> dir_get id d = RespGarbage -> authorise c d r = RErr EFail).
Proof.
  intros c d r. rewrite authorise_eq. repeat split.
  - intros ->. reflexivity.
  - intros id -> ->. reflexivity.
  - intros id code -> -> Hc. apply N.eqb_neq in Hc. rewrite Hc. reflexivity.
  - intros id -> ->. reflexivity.
Qed.

(* the configured mapping of an spn is the LAST radius_groups entry for it (BTreeMap collect) *)
Theorem C46_mapping_last_entry : forall c pre m post,
  k_groups c = pre ++ m :: post ->
  (forall m', In m' post -> c_spn m' <> c_spn m) ->
  alookup (c_spn m) (group_configs c) = Some m /\ mapping_of c (c_spn m) = Some m.
Proof.
  intros c pre m post Hk Hp. rewrite group_configs_lookup.
  assert (H : mapping_of c (c_spn m) = Some m).
  { unfold mapping_of. rewrite Hk. apply find_rev_last.
    - apply N.eqb_refl.
    - intros y Hy. apply N.eqb_neq. apply Hp. exact Hy. }
  split; exact H.
Qed.
(* ... and an spn that no radius_groups entry names has no mapping *)
Theorem C46_mapping_none : forall c spn,
  (forall m, In m (k_groups c) -> c_spn m <> spn) -> alookup spn (group_configs c) = None.
Proof.
  intros c spn H. rewrite group_configs_lookup. unfold mapping_of. apply find_all_false.
  intros m Hm. apply N.eqb_neq. apply H. apply in_rev. exact Hm.
Qed.

(* the VLAN is that of the last mapped group: the user's groups are pre ++ g :: post, g has the
   mapping m and no group after g has any mapping  =>  the VLAN is m's. Any lists, any length. *)
Theorem C46_vlan_last : forall c pre g post m,
  mapping_of c (g_spn g) = Some m ->
  (forall g', In g' post -> mapping_of c (g_spn g') = None) ->
  fst (resolve_group_configs c (pre ++ g :: post)) = c_vlan m.
Proof.
  intros c pre g post m Hm Hp. rewrite resolve_vlan. unfold vlan_spec.
  rewrite (find_rev_last (has_mapping c) pre g post).
  - rewrite Hm. reflexivity.
  - unfold has_mapping. rewrite Hm. reflexivity.
  - intros y Hy. unfold has_mapping. rewrite (Hp y Hy). reflexivity.
Qed.
(* ... and the default VLAN if none of the user's groups has a mapping *)
Theorem C46_vlan_default : forall c gs,
  (forall g, In g gs -> mapping_of c (g_spn g) = None) ->
  fst (resolve_group_configs c gs) = k_default c.
Proof.
  intros c gs H. rewrite resolve_vlan. unfold vlan_spec. rewrite find_all_false; [reflexivity|].
  intros g Hg. unfold has_mapping. rewrite (H g); [reflexivity|]. apply in_rev. exact Hg.
Qed.
(* the two statements above as one equation with the declarative vlan_spec *)
Theorem C46_vlan_is_spec : forall c gs, fst (resolve_group_configs c gs) = vlan_spec c gs.
Proof. exact resolve_vlan. Qed.

(* reply attributes: a well-formed (strictly ascending) map in which, for every key, the last
   offer among the user's mapped groups wins *)
Theorem C46_attrs_last_offer_wins : forall c gs,
  strictly_ascending (snd (resolve_group_configs c gs)) = true /\
  forall k, alookup k (snd (resolve_group_configs c gs)) = alookup k (rev (offered_attrs c gs)).
Proof. intros c gs. split; [apply resolve_sa | intros k; apply resolve_attr_lookup]. Qed.

(* the executable predicate used on the implementation's outputs: for an answer with a secret,
   pcheck = true implies the release conditions (the refusal branch of spec_ok is not covered) *)
Theorem C46_pcheck_sound : forall c d r name uuid tun vlan attrs s,
  pcheck (CAuth c d r (ROk name uuid tun vlan attrs (Some s))) = true ->
  exists id tok, user_id r = Some id /\ dir_get id d = RespToken tok /\
    s = t_secret tok /\ name = t_name tok /\ uuid = t_uuid tok /\
    (exists g, In g (t_groups tok) /\ (In (g_uuid g) (k_required c) \/ In (g_spn g) (k_required c))) /\
    vlan = vlan_spec c (t_groups tok) /\
    (forall k, alookup k attrs = attr_spec c (t_groups tok) k).
Proof. intros c d r name uuid tun vlan attrs s. apply spec_ok_secret. Qed.

(* bridge: wherever the implementation agreed with the model, the property predicate holds of
   the implementation's own answer *)
Theorem C46_agree_implies_property : forall c, agree c = true -> pcheck c = true.
Proof. exact agree_implies_pcheck. Qed.
