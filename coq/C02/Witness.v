From Coq Require Import List NArith Bool Permutation.
Import ListNotations.
Require Import KV.Base.Filter KV.C02.Model.
Open Scope N_scope.
(* nested And folded, single-term Or unwrapped; the repeated `1 = 1` term is not adjacent under the
   identity sort and stays (dedup drops a term only when it is == to its predecessor: next example) *)
Definition f0 :=
  FAnd [FLeaf KEq 1 1 (Some 2); FAnd [FLeaf KPres 2 0 None; FLeaf KEq 1 1 (Some 2)] None;
        FOr [FLeaf KCnt 3 4 None] None; FAndNot (FLeaf KEq 1 2 None) None] None.
Example C02_witness_rewrites :
  optimise (fun l => l) (@rev filt) f0 =
  FAnd [FLeaf KEq 1 1 (Some 2); FLeaf KCnt 3 4 None; FAndNot (FLeaf KEq 1 2 None) None;
        FLeaf KPres 2 0 None; FLeaf KEq 1 1 (Some 2)] (Some 2).
Proof. vm_compute. reflexivity. Qed.
Example C02_witness_dedup :
  dedup [FLeaf KEq 1 1 (Some 2); FLeaf KEq 1 1 None; FLeaf KStw 1 1 None; FLeaf KStw 1 1 None]
  = [FLeaf KEq 1 1 (Some 2); FLeaf KStw 1 1 None; FLeaf KStw 1 1 None].
Proof. vm_compute. reflexivity. Qed.
(* the sort hypotheses are satisfiable *)
Example C02_witness_sorts : (forall l : list filt, Permutation ((fun l => l) l) l) /\ (forall l : list filt, Permutation (rev l) l).
Proof. split; intros l; [apply Permutation_refl | apply Permutation_sym, Permutation_rev]. Qed.
