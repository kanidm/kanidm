From Coq Require Import List NArith Bool Permutation.
Import ListNotations.
Require Import KV.Base.Filter KV.C02.Model KV.C02.Proofs.
Open Scope N_scope.

(* Two terms the server considers equal (==, slopes ignored) mean the same on every entry. *)
Theorem C02_eq_sound : forall (sem : leafsem),
  (forall a v v', sem KPres a v = sem KPres a v') ->
  forall x y, feq x y = true -> ematch sem x = ematch sem y.
Proof. exact feq_sound. Qed.

(* The full rewrite (recursive flattening of nested AND/OR/Inclusion groups, sorting,
   de-duplication, unwrapping single-term groups) never changes which entries match — for EVERY
   filter tree, EVERY entry, and EVERY permutation-returning sort (so the unspecified order in
   which sort_unstable leaves equal terms cannot matter). For an Inclusion group this is trivial:
   under the reference semantics (entry_match_no_index) it matches no entry, before or after. *)
Theorem C02_optimise_preserves : forall (sem : leafsem),
  (forall a v v', sem KPres a v = sem KPres a v') ->
  forall (srt srt_rev : list filt -> list filt),
  (forall l, Permutation (srt l) l) -> (forall l, Permutation (srt_rev l) l) ->
  forall f, ematch sem (optimise srt srt_rev f) = ematch sem f.
Proof. exact optimise_preserves. Qed.

Theorem C02_fast_optimise_preserves : forall (sem : leafsem),
  (forall a v v', sem KPres a v = sem KPres a v') ->
  forall (srt : list filt -> list filt), (forall l, Permutation (srt l) l) ->
  forall f, ematch sem (fast_optimise srt f) = ematch sem f.
Proof. exact fast_optimise_preserves. Qed.

(* Resolving the caller's identity (SelfUuid := uuid = caller) and tagging terms with index
   metadata keeps the meaning, for any index metadata. kanidm evaluates resolved filters only; the
   meaning of an unresolved one is `cmatch` of the model, the reference semantics with SelfUuid read
   as "uuid = caller". So the content is that the metadata never enters the meaning. *)
Theorem C02_resolve_preserves : forall idx self sem f,
  ematch sem (resolve idx self f) = cmatch self sem f.
Proof. exact resolve_preserves. Qed.

(* Composition: what is executed means what was asked, the latter in the sense of `cmatch`. *)
Theorem C02_rewrite_pipeline : forall (sem : leafsem),
  (forall a v v', sem KPres a v = sem KPres a v') ->
  forall srt srt_rev, (forall l, Permutation (srt l) l) -> (forall l, Permutation (srt_rev l) l) ->
  forall idx self f,
  ematch sem (optimise srt srt_rev (resolve idx self f)) = cmatch self sem f.
Proof.
  intros sem Hp srt srt_rev H1 H2 idx self f.
  rewrite (optimise_preserves sem Hp srt srt_rev H1 H2). apply resolve_preserves.
Qed.
