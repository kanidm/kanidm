(* And and Or groups are treated at once: em (FAnd l s) is `agg true l`, em (FOr l s) is `agg false l`, and
   `agg c` is invariant under each thing optimise does to a term list. *)
From Coq Require Import List NArith Bool Permutation.
Import ListNotations.
Require Import KV.Base.Filter KV.C02.Model.
Open Scope N_scope.
Arguments N.eqb : simpl never.

Section Sem.
  Variable sem : leafsem.
  (* a presence test does not look at a value *)
  Hypothesis pres_ignores_value : forall a v v', sem KPres a v = sem KPres a v'.
  Notation em := (ematch sem).

  Lemma feq_sound : forall x y, feq x y = true -> em x = em y.
  Proof.
    induction x as [k a v s | l s IH | l s IH | a | l s IH | g s IH] using filt_ind';
      intros y H; destruct y as [k2 a2 v2 s2 | l2 s2 | l2 s2 | a2 | l2 s2 | g2 s2];
      cbn [feq] in H; try discriminate H; cbn [ematch].
    (* Or, And: term lists of equal length, pairwise == *)
    2, 3: revert l2 H; induction IH as [|x l Hx _ IHl]; intros [|b q] H; try discriminate H; [reflexivity|];
          apply andb_true_iff in H as [H1 H2]; cbn [existsb forallb]; rewrite (Hx b H1), (IHl q H2); reflexivity.
    - (* Leaf *)
      destruct k, k2; try discriminate H;
        try (apply andb_true_iff in H as [Ha Hv]; apply N.eqb_eq in Ha; apply N.eqb_eq in Hv; subst; reflexivity).
      apply N.eqb_eq in H. subst. apply pres_ignores_value.
    - (* Inclusion: matches nothing on either side *) reflexivity.
    - (* AndNot *) rewrite (IH g2 H). reflexivity.
  Qed.

  Definition op (c : bool) : bool -> bool -> bool := if c then andb else orb.
  Definition agg (c : bool) : list filt -> bool := if c then forallb em else existsb em.

  Lemma op_comm c a b : op c a b = op c b a.
  Proof. destruct c; [apply andb_comm | apply orb_comm]. Qed.
  Lemma op_assoc c a b d : op c a (op c b d) = op c (op c a b) d.
  Proof. destruct c; [apply andb_assoc | apply orb_assoc]. Qed.
  Lemma op_diag c a : op c a a = a.
  Proof. destruct c; [apply andb_diag | apply orb_diag]. Qed.
  Lemma agg_cons c x l : agg c (x :: l) = op c (em x) (agg c l).
  Proof. destruct c; reflexivity. Qed.
  Lemma agg_app c l1 l2 : agg c (l1 ++ l2) = op c (agg c l1) (agg c l2).
  Proof. destruct c; [apply forallb_app | apply existsb_app]. Qed.
  Lemma agg_one c x : agg c [x] = em x.
  Proof. destruct c; [apply andb_true_r | apply orb_false_r]. Qed.

  Lemma agg_perm c l1 l2 : Permutation l1 l2 -> agg c l1 = agg c l2.
  Proof.
    induction 1 as [|x l l' _ IH|x y l|l l' l'' _ IH1 _ IH2]; rewrite ?agg_cons; try congruence.
    rewrite !op_assoc, (op_comm c (em y)). reflexivity.
  Qed.

  Lemma agg_map c (g : filt -> filt) l : Forall (fun f => em (g f) = em f) l -> agg c (map g l) = agg c l.
  Proof. induction 1 as [|x r Hx _ IH]; cbn [map]; rewrite ?agg_cons; congruence. Qed.

  Lemma agg_dedup_from c prev l : agg c (prev :: dedup_from prev l) = agg c (prev :: l).
  Proof.
    revert prev. induction l as [|x r IH]; intros prev; [reflexivity|]. cbn [dedup_from].
    destruct (feq x prev) eqn:E.
    - rewrite IH, !agg_cons, (feq_sound _ _ E), op_assoc, op_diag. reflexivity.
    - rewrite !(agg_cons c prev), IH. reflexivity.
  Qed.

  Lemma agg_sort_dedup c (srt' : list filt -> list filt) l :
    (forall l, Permutation (srt' l) l) -> agg c (dedup (srt' l)) = agg c l.
  Proof.
    intros Hs. rewrite <- (agg_perm c _ _ (Hs l)).
    destruct (srt' l); [reflexivity | apply agg_dedup_from].
  Qed.

  Lemma agg_regroup c (k : filt -> bool) l : (forall x, k x = true -> em x = agg c (children x)) ->
    let '(ks, rest) := partition k l in agg c (rest ++ flat_map children ks) = agg c l.
  Proof.
    intros Hk. induction l as [|x r IH]; cbn [partition]; [reflexivity|].
    destruct (partition k r) as [ks rest]. rewrite agg_cons, <- IH. destruct (k x) eqn:E.
    - cbn [flat_map]. rewrite !agg_app, (Hk x E), !op_assoc, (op_comm c (agg c rest)). reflexivity.
    - apply agg_cons.
  Qed.

  Lemma group_children (c : bool) x : (if c then is_and x else is_or x) = true -> em x = agg c (children x).
  Proof. destruct c, x; try discriminate; reflexivity. Qed.

  (* one And / Or arm of optimise: g is the recursive call, k tests for a group of the same connective,
     mk rebuilds the group *)
  Lemma agg_arm c (k : filt -> bool) (mk : list filt -> filt) (srt' : list filt -> list filt) (g : filt -> filt) l :
    (forall l, Permutation (srt' l) l) -> (forall d, em (mk d) = agg c d) ->
    (forall x, k x = true -> em x = agg c (children x)) -> Forall (fun f => em (g f) = em f) l ->
    em (let '(ks, rest) := partition k (map g l) in
        let new := rest ++ flat_map children ks in
        match new with [x] => x | _ => mk (dedup (srt' new)) end) = agg c l.
  Proof.
    intros Hs Hmk Hk Hg. rewrite <- (agg_map c g l Hg). pose proof (agg_regroup c k (map g l) Hk) as Hr.
    destruct (partition k (map g l)) as [ks rest]. rewrite <- Hr. cbv zeta.
    destruct (rest ++ flat_map children ks) as [|x [|y t]]; rewrite ?Hmk, ?agg_sort_dedup by exact Hs; try reflexivity.
    symmetry. apply agg_one.
  Qed.

  Variable srt srt_rev : list filt -> list filt.
  Hypothesis srt_perm : forall l, Permutation (srt l) l.
  Hypothesis srt_rev_perm : forall l, Permutation (srt_rev l) l.

  Theorem optimise_preserves : forall f, em (optimise srt srt_rev f) = em f.
  Proof.
    induction f as [k a v s | l s IH | l s IH | a | l s IH | g s IH] using filt_ind';
      cbn [optimise]; try reflexivity.
    - (* Or *)
      exact (agg_arm false is_or (fun d => FOr d (last_slope d)) srt_rev _ l
               srt_rev_perm (fun _ => eq_refl) (group_children false) IH).
    - (* And *)
      exact (agg_arm true is_and (fun d => FAnd d (first_slope d)) srt _ l
               srt_perm (fun _ => eq_refl) (group_children true) IH).
    - (* Inclusion: matches nothing under ematch, whatever its terms *)
      destruct (partition is_inc (map (optimise srt srt_rev) l)) as [inc rest]. reflexivity.
  Qed.

  Theorem fast_optimise_preserves : forall f, em (fast_optimise srt f) = em f.
  Proof.
    destruct f as [k a v s | l s | l s | a | l s | g s]; cbn [fast_optimise]; try reflexivity.
    exact (agg_sort_dedup true srt l srt_perm).
  Qed.
End Sem.

Theorem resolve_preserves : forall (idx : leafkind -> N -> slope) (self : N) (sem : leafsem) (f : fc),
  ematch sem (resolve idx self f) = cmatch self sem f.
Proof.
  (* fc nests through lists and has no induction principle of its own: structural recursion, written out *)
  intros idx self sem. fix REC 1. intros f.
  destruct f as [k a v | | l | l | l | g | a]; cbn [resolve cmatch ematch]; try reflexivity.
  1, 2: induction l as [|x r IH]; cbn; [reflexivity | rewrite REC, IH; reflexivity].
  rewrite REC. reflexivity.
Qed.
