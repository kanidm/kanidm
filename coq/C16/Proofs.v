(* Every operation updates the state entry by entry, so liveness after it is read off live_id_map, and Inv
   is kept by any update that keeps live entries live and adds only references to live entries (inv_map).
   A committed write passed refint's check on the references write_new lists (step_checked); outside the
   class "mixed" a passed check means they are all live (refint_sound). *)
From Coq Require Import List NArith Bool.
Import ListNotations.
Require Import KV.C16.Model.
Open Scope N_scope.

Lemma memN_In : forall x l, memN x l = true <-> In x l.
Proof.
  intros x l. unfold memN. rewrite existsb_exists. split.
  - intros [y [Hy He]]. apply N.eqb_eq in He. subst. exact Hy.
  - intros H. exists x. split; [exact H | apply N.eqb_refl].
Qed.
Lemma memN_false : forall x l, memN x l = false <-> ~ In x l.
Proof. intros x l. rewrite <- memN_In. symmetry. apply not_true_iff_false. Qed.
Lemma memN_app : forall x a b, memN x (a ++ b) = memN x a || memN x b.
Proof. intros x a b. apply existsb_app. Qed.

Lemma In_ins : forall t x l, In t (ins x l) -> t = x \/ In t l.
Proof.
  intros t x l. induction l as [|y r IH]; cbn [ins].
  - intros [H|[]]; auto.
  - destruct (x <? y); [intros [H|H]; auto|].
    destruct (x =? y); [auto|]. intros [H|H]; [right; left; exact H|].
    destruct (IH H); auto. right. right. assumption.
Qed.
Lemma In_uni : forall t l acc, In t (uni l acc) -> In t l \/ In t acc.
Proof.
  intros t l acc. unfold uni. induction l as [|y r IH]; cbn [fold_right]; intros H; auto.
  apply In_ins in H. destruct H as [H|H]; [left; left; auto|].
  destruct (IH H); auto. left. right. assumption.
Qed.
Lemma In_rm : forall t ds l, In t (rm ds l) -> In t l /\ memN t ds = false.
Proof.
  intros t ds l H. apply filter_In in H. destruct H as [H1 H2].
  split; [exact H1 | apply negb_true_iff; exact H2].
Qed.

Lemma In_targets : forall t r, In t (targets r) <-> exists p, In p r /\ In t (snd p).
Proof. intros t r. apply in_flat_map. Qed.
Lemma In_getr : forall t a r, In t (getr a r) -> In t (targets r).
Proof.
  intros t a r H. unfold getr in H. destruct (find (fun p => fst p =? a) r) as [p|] eqn:E; [|destruct H].
  apply find_some in E. apply In_targets. exists p. split; [apply E | exact H].
Qed.
Lemma In_targets_setr : forall t a l r, In t (targets (setr a l r)) -> In t l \/ In t (targets r).
Proof.
  intros t a l r H. apply In_targets in H. destruct H as [p [[<-|Hp] Ht]]; [left; exact Ht|].
  apply filter_In in Hp. right. apply In_targets. exists p. split; [apply Hp | exact Ht].
Qed.
Lemma In_targets_strip : forall t ds r,
  In t (targets (strip ds r)) -> In t (targets r) /\ memN t ds = false.
Proof.
  intros t ds r H. apply In_targets in H. destruct H as [p [Hp Ht]].
  apply in_map_iff in Hp. destruct Hp as [q [<- Hq]]. apply In_rm in Ht. destruct Ht as [Ht M].
  split; [|exact M]. apply In_targets. exists q. split; assumption.
Qed.

Lemma in_flat_map_if : forall {A B} (c : A -> bool) (g : A -> list B) s t,
  In t (flat_map (fun e => if c e then g e else []) s) <-> exists e, In e s /\ c e = true /\ In t (g e).
Proof.
  intros A B c g s t. split.
  - intros H. apply in_flat_map in H. destruct H as [e [He H]]. exists e.
    destruct (c e); [auto | destruct H].
  - intros [e [He [C H]]]. apply in_flat_map. exists e. rewrite C. auto.
Qed.
Lemma fresh_split : forall t pre post, In t post -> In t pre \/ In t (fresh_of pre post).
Proof.
  intros t pre post H. destruct (memN t pre) eqn:E; [left; apply memN_In; exact E|].
  right. apply filter_In. rewrite E. auto.
Qed.

Lemma is_live_eq : forall st, is_live st = true <-> st = Live.
Proof. intros []; cbn; split; congruence. Qed.

Lemma live_id_spec : forall s t,
  live_id s t = true <-> exists e, In e s /\ eid e = t /\ est e = Live.
Proof.
  intros s t. unfold live_id. split.
  - intros H. apply existsb_exists in H. destruct H as [e [He H]].
    apply andb_true_iff in H. destruct H as [H1 H2]. apply N.eqb_eq in H1. apply is_live_eq in H2. eauto.
  - intros [e [He [<- L]]]. apply existsb_exists. exists e. rewrite L, N.eqb_refl. auto.
Qed.

Lemma live_id_map : forall (f : ent -> ent) s t,
  live_id (map f s) t = true <-> exists e, In e s /\ eid (f e) = t /\ est (f e) = Live.
Proof.
  intros f s t. split.
  - intros H. apply live_id_spec in H. destruct H as [e1 [H1 H]].
    apply in_map_iff in H1. destruct H1 as [e [<- He]]. eauto.
  - intros [e [He H]]. apply live_id_spec. exists (f e). split; [apply in_map; exact He | exact H].
Qed.

Definition keeps_live (f : ent -> ent) : Prop :=
  forall e, est e = Live -> eid (f e) = eid e /\ est (f e) = Live.

Lemma live_map_mono : forall f s t,
  keeps_live f -> live_id s t = true -> live_id (map f s) t = true.
Proof.
  intros f s t Hf H. apply live_id_spec in H. destruct H as [e [He [<- L]]].
  apply live_id_map. exists e. destruct (Hf e L) as [-> ->]. auto.
Qed.

Lemma dmo_live : forall s y g, In g (dmo s y) -> live_id s g = true.
Proof.
  intros s y g H. apply in_map_iff in H. destruct H as [e [<- H]].
  apply filter_In in H. destruct H as [He L].
  unfold lists in L. apply andb_true_iff in L. destruct L as [L _]. apply andb_true_iff in L.
  apply live_id_spec. exists e. split; [exact He | split; [reflexivity | apply is_live_eq, L]].
Qed.
Lemma mo_fuel_live : forall f s y g, In g (mo_fuel f s y) -> live_id s g = true.
Proof.
  induction f as [|f IH]; intros s y g H; cbn [mo_fuel] in H; [destruct H|].
  apply In_uni in H. destruct H as [H|H]; [eapply dmo_live; eauto|].
  induction (dmo s y) as [|a d IHd]; cbn [fold_right] in H; [destruct H|].
  apply In_uni in H. destruct H as [H|H]; [eapply IH; eauto | auto].
Qed.
Lemma memberof_live : forall s y g, In g (dmo s y ++ mo s y) -> live_id s g = true.
Proof.
  intros s y g H. apply in_app_or in H. destruct H as [H|H]; [eapply dmo_live | eapply mo_fuel_live]; eauto.
Qed.

Definition Inv (s : state) : Prop :=
  forall e t, In e s -> In t (targets (erefs e)) -> live_id s t = true.

Lemma invb_Inv : forall s, invb s = true <-> Inv s.
Proof.
  intros s. unfold invb, Inv. rewrite forallb_forall. split.
  - intros H e t He Ht. specialize (H e He). rewrite forallb_forall in H. auto.
  - intros H e He. apply forallb_forall. intros t Ht. eauto.
Qed.

Definition NoDangling (s : state) : Prop :=
  forall e t, In e s -> est e = Live ->
    In t (targets (erefs e) ++ dmo s (eid e) ++ mo s (eid e)) -> live_id s t = true.

Lemma inv_nodangling : forall s, Inv s -> NoDangling s.
Proof.
  intros s H e t He _ Ht. apply in_app_or in Ht.
  destruct Ht as [Ht|Ht]; [eauto | eapply memberof_live; eauto].
Qed.

Lemma inv_map : forall f s,
  keeps_live f ->
  (forall e t, In e s -> In t (targets (erefs (f e))) -> live_id s t = true \/ live_id (map f s) t = true) ->
  Inv (map f s).
Proof.
  intros f s Hf H e1 t He1 Ht. apply in_map_iff in He1. destruct He1 as [e [<- He]].
  destruct (H e t He Ht) as [L|L]; [apply live_map_mono; assumption | exact L].
Qed.

(* On the tree before bbee457 the check only says that every new target is stored and one is live;
   outside the class "mixed" that leaves no room for one that is not live. *)
Lemma refint_sound : forall fx ext s new,
  refint_ok fx ext s new = true ->
  fx = true \/ ((ext || existsb (live_id s) new) && existsb (fun t => negb (live_id s t)) new) = false ->
  forall t, In t new -> live_id s t = true.
Proof.
  intros fx ext s new H Hc t Ht. unfold refint_ok in H. destruct fx.
  - rewrite forallb_forall in H. auto.
  - destruct Hc as [Hc|Hc]; [discriminate|].
    destruct new as [|n0 new']; [destruct Ht|].
    apply andb_true_iff in H. destruct H as [_ H]. rewrite H in Hc. cbn [andb] in Hc.
    destruct (live_id s t) eqn:E; auto.
    rewrite <- Hc. apply existsb_exists. exists t. rewrite E. auto.
Qed.

Definition unmixed (fx : bool) (s : state) (o : op) : Prop := fx = true \/ mixed s o = false.

Lemma create_committed : forall fx s l,
  snd (step fx s (OCreate l)) = 0 ->
  fst (step fx s (OCreate l)) = cr_state s l
  /\ refint_ok fx (cr_ext s l) (cr_state s l) (cr_new l) = true.
Proof.
  intros fx s l. cbn [step]. unfold do_create.
  destruct (negb (nodupb _) || _); [discriminate|].
  destruct (negb (forallb _ l)); [discriminate|].
  destruct (refint_ok _ _ _ _); [|discriminate].
  destruct (negb (refers_ok _ _)); [discriminate | auto].
Qed.

Lemma mod_untargeted : forall s x ms,
  live_id s x = false -> mod_state s x ms = s /\ mod_post s x ms = [].
Proof.
  intros s x ms. unfold live_id, mod_state, mod_post, mod_upd, is_target.
  induction s as [|e r IH]; cbn [existsb map flat_map]; [auto|].
  intros H. apply orb_false_iff in H. destruct H as [-> H]. destruct (IH H) as [-> ->]. auto.
Qed.

Lemma modify_committed : forall fx s x ms,
  snd (step fx s (OModify x ms)) = 0 ->
  fst (step fx s (OModify x ms)) = mod_state s x ms
  /\ refint_ok fx false (mod_state s x ms) (mod_new s x ms) = true.
Proof.
  intros fx s x ms. cbn [step]. unfold do_modify. destruct (live_id s x) eqn:L; cbn [negb].
  - destruct (negb (forallb _ _)); [discriminate|].
    destruct (refint_ok _ _ _ _); [|discriminate].
    destruct (negb (refers_ok _ _)); [discriminate | auto].
  - intros _. unfold mod_new. destruct (mod_untargeted s x ms L) as [-> ->]. destruct fx; auto.
Qed.

Lemma revive_committed : forall fx s x,
  snd (step fx s (ORevive x)) = 0 ->
  fst (step fx s (ORevive x)) = map (add_members s x) (rev_state s x)
  /\ refint_ok fx false (rev_state s x) (rev_new s x) = true.
Proof.
  intros fx s x. cbn [step]. unfold do_revive.
  destruct (negb (rec_id s x)); [discriminate|].
  destruct (negb (forallb _ s)); [discriminate|].
  destruct (refint_ok _ _ _ _); [|discriminate].
  destruct (negb (refers_ok _ _)); [discriminate|].
  destruct (negb (forallb _ s)); [discriminate | auto].
Qed.

Lemma delete_committed : forall fx s x,
  snd (step fx s (ODelete x)) = 0 ->
  fst (step fx s (ODelete x)) = del_state s x /\ live_id s x = true.
Proof. intros fx s x. cbn [step]. unfold do_delete. destruct (live_id s x); [auto | discriminate]. Qed.

Lemma ret_refused : forall s r, snd (ret s r) <> 0 -> fst (ret s r) = s.
Proof. intros s [s'|c]; cbn [ret fst snd]; congruence. Qed.
Lemma refused_unchanged : forall fx s o, snd (step fx s o) <> 0 -> fst (step fx s o) = s.
Proof. intros fx s o. destruct o; cbn [step]; try apply ret_refused; cbn [snd]; congruence. Qed.

Lemma step_checked : forall fx s o s1 new ext,
  write_new s o = (s1, new, ext) -> snd (step fx s o) = 0 -> refint_ok fx ext s1 new = true.
Proof.
  intros fx s o s1 new ext W C. destruct o; cbn [write_new] in W; injection W as <- <- <-.
  - exact (proj2 (create_committed _ _ _ C)).
  - exact (proj2 (modify_committed _ _ _ _ C)).
  - destruct fx; reflexivity.
  - exact (proj2 (revive_committed _ _ _ C)).
  - destruct fx; reflexivity.
  - destruct fx; reflexivity.
Qed.

Lemma lookup_In : forall x l r, lookup x l = Some r -> In (x, r) l.
Proof.
  intros x l r H. unfold lookup in H.
  destruct (find (fun p => fst p =? x) l) as [[y r']|] eqn:E; [|discriminate].
  apply find_some in E. destruct E as [E1 E2]. apply N.eqb_eq in E2. cbn in H, E2. congruence.
Qed.

Lemma inv_write : forall fx s o s1 new ext,
  write_new s o = (s1, new, ext) -> Inv s -> unmixed fx s o -> refint_ok fx ext s1 new = true -> Inv s1.
Proof.
  intros fx s o s1 new ext W HI Hc R.
  assert (RS : forall t, In t new -> live_id s1 t = true).
  { apply (refint_sound _ _ _ _ R). unfold unmixed, mixed in Hc. rewrite W in Hc. exact Hc. }
  (* the other references were there before (or are DirectMemberOf values), and nothing live stops being live *)
  destruct o as [l|x ms|x|x| |]; cbn [write_new] in W; injection W as <- <- <-; try exact HI.
  - apply inv_map.
    + intros e L. unfold create_upd. destruct (lookup (eid e) l); auto. rewrite L. auto.
    + intros e t He Ht. unfold create_upd in Ht.
      destruct (lookup (eid e) l) as [r|] eqn:Lk; [destruct (is_gone (est e))|];
        try (left; exact (HI e t He Ht)).
      right. apply RS. apply in_flat_map. exists (eid e, r). split; [apply lookup_In; exact Lk | exact Ht].
  - apply inv_map.
    + intros e L. unfold mod_upd. destruct (is_target x e); auto.
    + intros e t He Ht. destruct (is_target x e) eqn:T;
        [|left; unfold mod_upd in Ht; rewrite T in Ht; exact (HI e t He Ht)].
      destruct (fresh_split t (mod_pre s x) (mod_post s x ms)) as [Q|Q].
      * apply in_flat_map_if. eauto.
      * left. apply in_flat_map_if in Q. destruct Q as [e' [He' [_ Q]]].
        apply in_app_or in Q. destruct Q as [Q|Q]; [eauto | eapply dmo_live; eauto].
      * right. apply RS. exact Q.
  - apply inv_map.
    + intros e L. unfold in_revs. rewrite L. auto.
    + intros e t He Ht. destruct (in_revs x e) eqn:T; [|left; exact (HI e t He Ht)].
      destruct (fresh_split t (rev_pre s x) (rev_post s x)) as [Q|Q].
      * apply in_flat_map_if. eauto.
      * left. apply in_flat_map_if in Q. destruct Q as [e' [He' [_ Q]]]. eauto.
      * right. apply RS. exact Q.
Qed.

Lemma del_keeps_live : forall s x t,
  live_id s t = true -> memN t (del_set s x) = false -> live_id (del_state s x) t = true.
Proof.
  intros s x t L M. apply live_id_spec in L. destruct L as [e [He [<- L]]].
  apply live_id_map. exists e. destruct (in_dels x e) eqn:D; [|auto].
  apply memN_false in M. destruct M. apply in_map, filter_In. auto.
Qed.

Lemma inv_delete : forall s x, Inv s -> Inv (del_state s x).
Proof.
  intros s x HI e1 t He1 Ht. apply in_map_iff in He1. destruct He1 as [e [<- He]].
  apply In_targets_strip in Ht. destruct Ht as [Ht M]. apply del_keeps_live; [|exact M].
  destruct (in_dels x e); [|eauto].
  apply In_targets_setr in Ht. destruct Ht as [Ht|Ht]; [eapply dmo_live|]; eauto.
Qed.

Lemma del_state_cleans : forall s x e d,
  In e (del_state s x) -> In d (del_set s x) -> ~ In d (targets (erefs e)).
Proof.
  intros s x e d He Hd Ht. apply in_map_iff in He. destruct He as [e0 [<- _]].
  apply In_targets_strip in Ht. destruct Ht as [_ M]. apply memN_false in M. auto.
Qed.
Lemma delete_target_in_set : forall s x, live_id s x = true -> In x (del_set s x).
Proof.
  intros s x L. apply live_id_spec in L. destruct L as [e [He [<- L]]].
  apply in_map, filter_In. unfold in_dels. rewrite L, N.eqb_refl. auto.
Qed.
Lemma del_state_not_live : forall s x, live_id (del_state s x) x = false.
Proof.
  intros s x. apply not_true_iff_false. intros L. apply live_id_map in L. destruct L as [e [_ [E L]]].
  destruct (in_dels x e) eqn:D; cbn in E, L; [discriminate|].
  unfold in_dels in D. rewrite L, E, N.eqb_refl in D. discriminate.
Qed.

(* the members re-added to a stashed group are the entries just revived *)
Lemma inv_add_members : forall s x, Inv (rev_state s x) -> Inv (map (add_members s x) (rev_state s x)).
Proof.
  intros s x HI. apply inv_map.
  - intros e L. unfold add_members. rewrite L. destruct (adds s x (eid e)); auto.
  - intros e t He Ht. left. unfold add_members in Ht. destruct (is_live (est e)); [|eauto].
    destruct (adds s x (eid e)) as [|a l] eqn:A; [eauto|].
    apply In_targets_setr in Ht. destruct Ht as [Ht|Ht]; [|eauto].
    apply In_uni in Ht. destruct Ht as [Ht|Ht]; [|eapply HI, In_getr; eauto].
    rewrite <- A in Ht. apply in_map_iff in Ht. destruct Ht as [r [<- Hr]].
    apply filter_In in Hr. destruct Hr as [Hr Hb]. apply andb_true_iff in Hb.
    apply live_id_map. exists r. rewrite (proj1 Hb). auto.
Qed.

Lemma inv_purge_rec : forall s, Inv s -> Inv (map purge_rec_upd s).
Proof.
  intros s HI. apply inv_map.
  - intros e L. unfold purge_rec_upd. rewrite L. auto.
  - intros e t He Ht. left. unfold purge_rec_upd in Ht.
    destruct (is_rec (est e)); [destruct Ht | exact (HI e t He Ht)].
Qed.
Lemma inv_purge_tomb : forall s, Inv s -> Inv (map purge_tomb_upd s).
Proof.
  intros s HI. apply inv_map.
  - intros e L. unfold purge_tomb_upd. rewrite L. auto.
  - intros e t He Ht. left. unfold purge_tomb_upd in Ht.
    destruct (est e); try exact (HI e t He Ht). destruct Ht.
Qed.

(* only a committed write has to be outside the class: a refused one changes nothing *)
Lemma inv_step_gen : forall fx s o,
  Inv s -> (snd (step fx s o) = 0 -> unmixed fx s o) -> Inv (fst (step fx s o)).
Proof.
  intros fx s o HI Hc. destruct (N.eq_dec (snd (step fx s o)) 0) as [C|C];
    [|rewrite refused_unchanged; assumption].
  destruct (write_new s o) as [[s1 new] ext] eqn:W.
  pose proof (inv_write _ _ _ _ _ _ W HI (Hc C) (step_checked _ _ _ _ _ _ W C)) as I1.
  destruct o as [l|x ms|x|x| |]; cbn [write_new] in W; injection W as <- _ _.
  - rewrite (proj1 (create_committed _ _ _ C)). exact I1.
  - rewrite (proj1 (modify_committed _ _ _ _ C)). exact I1.
  - rewrite (proj1 (delete_committed _ _ _ C)). apply inv_delete. exact HI.
  - rewrite (proj1 (revive_committed _ _ _ C)). apply inv_add_members. exact I1.
  - apply inv_purge_rec. exact HI.
  - apply inv_purge_tomb. exact HI.
Qed.

Lemma inv_run_fixed : forall ops s, Inv s -> Inv (run true s ops).
Proof.
  induction ops as [|o r IH]; intros s HI; cbn [run]; auto.
  apply IH, inv_step_gen; [exact HI | left; reflexivity].
Qed.

Fixpoint clean_run (s : state) (ops : list op) : bool :=
  match ops with
  | [] => true
  | o :: r => negb (mixed s o) && clean_run (fst (step false s o)) r
  end.
Lemma inv_run_partial : forall ops s, Inv s -> clean_run s ops = true -> Inv (run false s ops).
Proof.
  induction ops as [|o r IH]; intros s HI HC; cbn [run]; auto.
  cbn [clean_run] in HC. apply andb_true_iff in HC. destruct HC as [H1 H2].
  apply IH; [|exact H2]. apply inv_step_gen; [exact HI | right; apply negb_true_iff; exact H1].
Qed.

Lemma write_refused_gen : forall fx s o,
  would_dangle s o = true -> unmixed fx s o ->
  snd (step fx s o) <> 0 /\ fst (step fx s o) = s.
Proof.
  intros fx s o W Hc.
  assert (G : snd (step fx s o) <> 0); [|split; [exact G | apply refused_unchanged; exact G]].
  intros C. unfold would_dangle in W. unfold unmixed, mixed in Hc.
  destruct (write_new s o) as [[s1 new] ext] eqn:E.
  apply existsb_exists in W. destruct W as [t [Ht Hl]].
  rewrite (refint_sound _ _ _ _ (step_checked _ _ _ _ _ _ E C) Hc t Ht) in Hl. discriminate.
Qed.

Definition aligned (pre m : state) (cands : list N) : Prop :=
  Forall2 (fun a b => eid a = eid b /\ (memN (eid a) cands = false -> a = b)) pre m.

Lemma aligned_same : forall pre m cands e,
  aligned pre m cands -> memN (eid e) cands = false -> In e pre <-> In e m.
Proof.
  intros pre m cands e A M. induction A as [|a b pre' m' [H1 H2] A IH]; [tauto|].
  cbn [In]. rewrite IH. split; intros [<-|H]; auto; left.
  - symmetry. apply H2. exact M.
  - apply H2. rewrite H1. exact M.
Qed.
Lemma aligned_live : forall pre m cands t,
  aligned pre m cands -> memN t cands = false -> live_id pre t = true -> live_id m t = true.
Proof.
  intros pre m cands t A M L. apply live_id_spec in L. destruct L as [e [He [<- L]]].
  apply live_id_spec. exists e. split; [apply (aligned_same _ _ _ _ A M), He | auto].
Qed.

Lemma conflict_live : forall conf m t,
  live_id m t = true -> memN t (snd (repl_conflict conf m)) = false ->
  live_id (fst (repl_conflict conf m)) t = true.
Proof.
  intros conf m t L M. cbn [repl_conflict fst snd] in *. apply live_id_spec in L.
  destruct L as [e [He [<- L]]]. apply live_id_map. exists e.
  destruct (conf_hit conf e) eqn:C; [|auto].
  apply memN_false in M. destruct M. apply in_or_app. right. apply in_map, filter_In. auto.
Qed.
Lemma conflict_live_back : forall conf m t,
  live_id (fst (repl_conflict conf m)) t = true -> live_id m t = true.
Proof.
  intros conf m t L. apply live_id_map in L. destruct L as [e [He [E L]]].
  apply live_id_spec. exists e. destruct (conf_hit conf e); [discriminate | auto].
Qed.

Lemma inv_repl_clean : forall fx pre m cands conf,
  Inv pre -> aligned pre m cands ->
  fx = true \/ repl_mixed pre m cands conf = false ->
  Inv (repl_clean fx pre m cands conf).
Proof.
  intros fx pre m cands conf HI A Hc. unfold repl_clean. unfold repl_mixed in Hc.
  rewrite (surjective_pairing (repl_conflict conf m)).
  set (m1 := fst (repl_conflict conf m)) in *. set (conf1 := snd (repl_conflict conf m)).
  set (new := fresh_of (cand_targets pre cands) (cand_targets m cands)) in *.
  set (missing := if refint_ok fx false m1 new then [] else filter (fun t => negb (live_id m1 t)) new).
  set (inactive := filter (fun c => live_id pre c && negb (live_id m c)) cands).
  (* what was live before, or is newly referenced, and is not stripped, is live *)
  assert (K : forall t, memN t (missing ++ conf1 ++ inactive) = false ->
                        live_id pre t = true \/ In t new -> live_id m1 t = true).
  { intros t M H. rewrite !memN_app in M.
    apply orb_false_iff in M. destruct M as [M1 M]. apply orb_false_iff in M. destruct M as [M2 M3].
    destruct H as [L|Ht].
    - destruct (live_id m t) eqn:Lm; [apply conflict_live; assumption|].
      apply memN_false in M3. destruct M3. apply filter_In. split.
      + apply memN_In. destruct (memN t cands) eqn:C; [reflexivity|].
        rewrite (aligned_live _ _ _ _ A C L) in Lm. discriminate.
      + rewrite L, Lm. reflexivity.
    - unfold missing in M1. destruct (refint_ok fx false m1 new) eqn:R.
      + apply (refint_sound _ _ _ _ R); assumption.
      + destruct (live_id m1 t) eqn:L; auto.
        apply memN_false in M1. destruct M1. apply filter_In. rewrite L. auto. }
  intros e2 t He2 Ht. apply in_map_iff in He2. destruct He2 as [e1 [<- He1]].
  apply In_targets_strip in Ht. destruct Ht as [Ht M].
  apply live_map_mono; [intros e0 L; auto|]. apply K; [exact M|].
  (* e1 comes from an entry e of m with the same references *)
  assert (X : exists e, In e m /\ erefs e = erefs e1).
  { apply in_map_iff in He1. destruct He1 as [e [<- He]]. exists e. destruct (conf_hit conf e); auto. }
  destruct X as [e [He Er]]. rewrite <- Er in Ht.
  destruct (memN (eid e) cands) eqn:C.
  - destruct (fresh_split t (cand_targets pre cands) (cand_targets m cands)) as [Q|Q].
    + apply in_flat_map_if. eauto.
    + left. apply in_flat_map_if in Q. destruct Q as [e' [He' [_ Q]]]. eauto.
    + right. exact Q.
  - left. apply (HI e); [apply (aligned_same _ _ _ _ A C), He | exact Ht].
Qed.

(* listN_eqb, refs_eqb and oents_eqb are this function at N.eqb, at the equality of pairs and at oent_eqb *)
Definition list_eqb {A} (eqb : A -> A -> bool) : list A -> list A -> bool :=
  fix go a b :=
    match a, b with
    | [], [] => true
    | x :: r, y :: q => eqb x y && go r q
    | _, _ => false
    end.
Lemma list_eqb_eq : forall {A} (eqb : A -> A -> bool),
  (forall x y, eqb x y = true <-> x = y) -> forall a b, list_eqb eqb a b = true <-> a = b.
Proof.
  intros A eqb E. induction a as [|x r IH]; destruct b as [|y q]; cbn; try (split; discriminate).
  - split; reflexivity.
  - split.
    + intros H. apply andb_true_iff in H. destruct H as [H1 H2]. apply E in H1. apply IH in H2. congruence.
    + intros [= -> ->]. apply andb_true_iff. split; [apply E | apply IH]; reflexivity.
Qed.

Lemma listN_eqb_eq : forall a b, listN_eqb a b = true <-> a = b.
Proof. exact (list_eqb_eq N.eqb N.eqb_eq). Qed.
Lemma refs_eqb_eq : forall a b, refs_eqb a b = true <-> a = b.
Proof.
  apply (list_eqb_eq (fun x y => (fst x =? fst y) && listN_eqb (snd x) (snd y))).
  intros [a l] [b k]. cbn [fst snd]. split.
  - intros H. apply andb_true_iff in H. destruct H as [H1 H2].
    apply N.eqb_eq in H1. apply listN_eqb_eq in H2. congruence.
  - intros [= -> ->]. apply andb_true_iff. split; [apply N.eqb_eq | apply listN_eqb_eq]; reflexivity.
Qed.
Lemma status_eqb_eq : forall a b, status_eqb a b = true <-> a = b.
Proof.
  intros a b. split; [|intros <-; destruct a; reflexivity].
  destruct a, b; cbn; intros H; try discriminate H; reflexivity.
Qed.
Lemma optN_eqb_eq : forall a b, optN_eqb a b = true <-> a = b.
Proof. intros [x|] [y|]; cbn; rewrite ?N.eqb_eq; split; congruence. Qed.
Lemma oent_eqb_eq : forall a b, oent_eqb a b = true <-> a = b.
Proof.
  intros a b. unfold oent_eqb. split.
  - intros H. repeat (apply andb_true_iff in H; destruct H as [H ?]). destruct a, b; cbn in *.
    f_equal; [apply N.eqb_eq | apply N.eqb_eq | apply status_eqb_eq | apply refs_eqb_eq
             | apply optN_eqb_eq | apply N.eqb_eq]; assumption.
  - intros <-. repeat (apply andb_true_iff; split);
      [apply N.eqb_eq | apply N.eqb_eq | apply status_eqb_eq | apply refs_eqb_eq
      | apply optN_eqb_eq | apply N.eqb_eq]; reflexivity.
Qed.
Lemma oents_eqb_eq : forall a b, oents_eqb a b = true <-> a = b.
Proof. exact (list_eqb_eq oent_eqb oent_eqb_eq). Qed.

Lemma olive_abs : forall s t, olive (absS s) t = live_id s t.
Proof.
  intros s t. unfold olive, live_id, absS.
  generalize s at 1. intros s0. induction s as [|e r IH]; cbn [map existsb]; auto.
  rewrite IH. reflexivity.
Qed.

Lemma canon_targets : forall s e t,
  In t (targets (canon s e)) -> In t (targets (erefs e)) \/ live_id s t = true.
Proof.
  intros s e t H. apply In_targets in H. destruct H as [p [Hp Ht]].
  apply filter_In in Hp. destruct Hp as [Hp _].
  apply in_app_or in Hp. destruct Hp as [Hp|Hp]; [|apply in_app_or in Hp; destruct Hp as [Hp|Hp]].
  1, 3: left; apply in_map_iff in Hp; destruct Hp as [a [<- _]]; exact (In_getr _ _ _ Ht).
  right. apply memberof_live with (y := eid e). destruct (is_live (est e)); [|destruct Hp].
  destruct Hp as [<-|[<-|[]]]; apply in_or_app; auto.
Qed.

Lemma nd_dump_abs : forall s, Inv s -> nd_dump (absS s) = true.
Proof.
  intros s HI. apply forallb_forall. intros o Ho. apply in_map_iff in Ho. destruct Ho as [e [<- He]].
  cbn [abs ost orefs oext]. destruct (is_live (est e)); [|reflexivity].
  cbn [implb]. rewrite N.eqb_refl, andb_true_r. apply forallb_forall. intros t Ht. rewrite olive_abs.
  apply canon_targets in Ht. destruct Ht; eauto.
Qed.

Lemma del_ok_abs : forall fx s o, del_ok o (snd (step fx s o)) (absS (fst (step fx s o))) = true.
Proof.
  intros fx s o. destruct o as [| |x| | |]; try reflexivity. cbn [del_ok].
  destruct (snd (step fx s (ODelete x)) =? 0) eqn:C; [|reflexivity]. apply N.eqb_eq in C.
  destruct (delete_committed fx s x C) as [-> L]. cbn [implb].
  rewrite olive_abs, del_state_not_live. cbn [negb andb].
  apply forallb_forall. intros o Ho. apply in_map_iff in Ho. destruct Ho as [e [<- He]].
  apply negb_true_iff, memN_false. intros Ht. apply canon_targets in Ht. destruct Ht as [Ht|Ht].
  - exact (del_state_cleans _ _ _ _ He (delete_target_in_set _ _ L) Ht).
  - rewrite del_state_not_live in Ht. discriminate.
Qed.

(* the parts of pcheck that the model predicts: everything except the whole-database count *)
Fixpoint trace_core (pre : list oent) (steps : list ostep) : bool :=
  match steps with
  | [] => true
  | OStep o code post _ :: r =>
      nd_dump post && implb (negb (code =? 0)) (oents_eqb pre post) && del_ok o code post
      && trace_core post r
  end.
Fixpoint dbd_zero (steps : list ostep) : bool :=
  match steps with
  | [] => true
  | OStep _ _ _ dbd :: r => (dbd =? 0) && dbd_zero r
  end.
Lemma trace_ok_split : forall steps pre, trace_ok pre steps = trace_core pre steps && dbd_zero steps.
Proof.
  induction steps as [|[o code post dbd] r IH]; intros pre; cbn [trace_ok trace_core dbd_zero]; auto.
  rewrite IH. destruct (dbd =? 0); [cbn [andb]; rewrite andb_true_r, !andb_assoc | rewrite !andb_false_r];
    reflexivity.
Qed.

Lemma step_core : forall fx s o,
  Inv (fst (step fx s o)) ->
  nd_dump (absS (fst (step fx s o)))
  && implb (negb (snd (step fx s o) =? 0)) (oents_eqb (absS s) (absS (fst (step fx s o))))
  && del_ok o (snd (step fx s o)) (absS (fst (step fx s o))) = true.
Proof.
  intros fx s o HI. rewrite (nd_dump_abs _ HI), del_ok_abs, andb_true_r. cbn [andb].
  destruct (snd (step fx s o) =? 0) eqn:C; [reflexivity|]. apply N.eqb_neq in C.
  rewrite (refused_unchanged _ _ _ C). apply oents_eqb_eq. reflexivity.
Qed.

Lemma prefix_class_cons : forall fx s o code post dbd r,
  fx = true \/ prefix_class_run s (OStep o code post dbd :: r) = false ->
  (snd (step fx s o) = 0 -> unmixed fx s o)
  /\ (fx = true \/ prefix_class_run (fst (step fx s o)) r = false).
Proof.
  intros fx s o code post dbd r [->|K]; [split; left; reflexivity|].
  destruct fx; [split; left; reflexivity|].
  cbn [prefix_class_run] in K. destruct (step false s o) as [s' c]. cbn [fst snd].
  apply orb_false_iff in K. destruct K as [K1 K2]. split; [|right; exact K2].
  intros ->. right. exact K1.
Qed.

Lemma run_agree_core : forall fx steps s,
  Inv s -> run_agree fx s steps = true ->
  fx = true \/ prefix_class_run s steps = false ->
  trace_core (absS s) steps = true.
Proof.
  intros fx. induction steps as [|[o code post dbd] r IH]; intros s HI HA HK; cbn [trace_core]; auto.
  destruct (prefix_class_cons _ _ _ _ _ _ _ HK) as [Hc HK'].
  pose proof (inv_step_gen fx s o HI Hc) as HI'. pose proof (step_core fx s o HI') as SC.
  cbn [run_agree] in HA. destruct (step fx s o) as [s' c]. cbn [fst snd] in *.
  apply andb_true_iff in HA. destruct HA as [HA HR]. apply andb_true_iff in HA. destruct HA as [HA _].
  apply andb_true_iff in HA. destruct HA as [HC HE]. apply N.eqb_eq in HC. apply oents_eqb_eq in HE.
  subst code post. rewrite SC. apply (IH _ HI' HR HK').
Qed.

Lemma agree_core : forall fx init steps,
  agree_gen fx (CHist init steps) = true ->
  fx = true \/ prefix_class (CHist init steps) = false ->
  nd_dump init && trace_core init steps = true.
Proof.
  intros fx init steps HA HK. cbn [agree_gen] in HA.
  apply andb_true_iff in HA. destruct HA as [HA HR]. apply andb_true_iff in HA. destruct HA as [HE HI].
  apply oents_eqb_eq in HE. apply invb_Inv in HI. rewrite <- HE, (nd_dump_abs _ HI). apply (run_agree_core _ _ _ HI HR HK).
Qed.

Lemma run_agree_dbd : forall steps s, run_agree true s steps = true -> dbd_zero steps = true.
Proof.
  induction steps as [|[o code post dbd] r IH]; intros s HA; cbn [dbd_zero]; auto.
  cbn [run_agree] in HA. destruct (step true s o) as [s' c].
  apply andb_true_iff in HA. destruct HA as [HA HR]. apply andb_true_iff in HA. destruct HA as [_ HD].
  cbn [implb] in HD. rewrite HD. eauto.
Qed.

Lemma agree_pcheck : forall init steps,
  agree_gen true (CHist init steps) = true -> pcheck (CHist init steps) = true.
Proof.
  intros init steps HA. cbn [pcheck]. rewrite trace_ok_split, andb_assoc.
  rewrite (agree_core true init steps HA (or_introl eq_refl)).
  cbn [agree_gen] in HA. apply andb_true_iff in HA. eapply run_agree_dbd, HA.
Qed.

(* the tree before bbee457: the witness of C16_prefix_refuted *)
Definition w_state : state :=
  [ mkent 0 0 Live [] None; mkent 1 0 Tomb [] None; mkent 2 1 Live [] None ].
Definition w_op : op := OModify 2 [MAdd 0 0; MAdd 0 1].
Lemma w_inv : Inv w_state.
Proof. apply invb_Inv. vm_compute. reflexivity. Qed.
Lemma w_breaks : ~ Inv (fst (step false w_state w_op)).
Proof.
  intros H. apply invb_Inv in H. vm_compute in H. discriminate.
Qed.
Lemma w_accepted : snd (step false w_state w_op) = 0 /\ would_dangle w_state w_op = true.
Proof. split; vm_compute; reflexivity. Qed.
