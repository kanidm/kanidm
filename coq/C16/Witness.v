From Coq Require Import List NArith Bool.
Import ListNotations.
Require Import KV.C16.Model KV.C16.Proofs KV.C16.Props.
Open Scope N_scope.

(* a population with every kind of reference: person u0, u1 (recycled, stash names g3), groups g2 < g3
   (g3 lists g2, u0, d4), dependent d4 -> u0, client c5 with scope maps -> g2 g3, entry managers *)
Definition ws : state :=
  [ mkent 0 0 Live [(1, [3])] None;
    mkent 1 0 Rec [(5, [3])] None;
    mkent 2 1 Live [(0, [0])] None;
    mkent 3 1 Live [(0, [0; 2; 4]); (1, [2])] None;
    mkent 4 2 Live [(2, [0])] None;
    mkent 5 3 Live [(3, [2; 3]); (4, [3])] None;
    mkent 6 1 Gone [] None ].

(* Inv holds of it (hypothesis of C16_inv_step / C16_reachable / C16_no_dangling / C16_repl_clean) *)
Example C16_witness_inv : invb ws = true /\ mo ws 0 = [2; 3] /\ dmo ws 4 = [3].
Proof. vm_compute. repeat split; reflexivity. Qed.

(* a history with every kind of op; the invariant is kept and the cascade / strip / restore happen.  The
   create is refused (last conjunct), and so is the modify after it, which names the entry not created *)
Example C16_witness_history :
  let ops := [ ODelete 0; ORevive 0; OCreate [(6, [(0, [1; 4])])]; OModify 3 [MAdd 0 6; MDel 0 2];
               ODelete 3; OPurgeRec; OPurgeTomb ] in
  invb (run true ws ops) = true
  /\ snd (step true ws (ODelete 0)) = 0
  /\ del_set ws 0 = [0; 4]                                        (* cascade to the dependent *)
  /\ map est (fst (step true ws (ODelete 0))) = [Rec; Rec; Live; Live; Rec; Live; Gone]
  /\ getr 0 (erefs (nth 3 (fst (step true ws (ODelete 0))) (mkent 9 9 Gone [] None))) = [2]
  /\ snd (step true ws (OCreate [(6, [(0, [1; 4])])])) = 3.       (* u1 is recycled: refused *)
Proof. vm_compute. repeat split; reflexivity. Qed.

(* hypothesis of C16_write_refused: a write that would dangle (and is refused by the repaired tree) *)
Example C16_witness_would_dangle :
  would_dangle ws (OModify 2 [MAdd 0 1]) = true /\ step true ws (OModify 2 [MAdd 0 1]) = (ws, 3)
  /\ would_dangle ws (OModify 2 [MAdd 0 0; MAdd 0 1]) = true
  /\ snd (step true ws (OModify 2 [MAdd 0 0; MAdd 0 1])) = 3.
Proof. vm_compute. repeat split; reflexivity. Qed.

(* hypothesis of C16_delete_cleans (stated for either tree: delete does not look at fx) *)
Example C16_witness_delete : snd (step false ws (ODelete 3)) = 0 /\ live_id ws 3 = true.
Proof. vm_compute. split; reflexivity. Qed.

(* documentation (tree before bbee457): a mixed write (new members d4, live, and u1, recycled) was COMMITTED
   there; a write whose only new reference is dead (first conjunct) is outside the class *)
Example C16_witness_prefix_refuted :
  mixed ws (OModify 4 [MSet 1 1; MSet 2 0]) = false
  /\ mixed ws (OModify 2 [MAdd 0 4; MAdd 0 1]) = true
  /\ snd (step false ws (OModify 2 [MAdd 0 4; MAdd 0 1])) = 0
  /\ invb (fst (step false ws (OModify 2 [MAdd 0 4; MAdd 0 1]))) = false
  /\ snd (step false ws (OModify 2 [MAdd 0 1])) = 3.              (* alone it is refused *)
Proof. vm_compute. repeat split; reflexivity. Qed.

(* hypotheses of the _prefix partial theorems: a history outside the former class *)
Example C16_witness_prefix_clean_run :
  clean_run ws [ODelete 0; ORevive 0; OModify 3 [MAdd 0 5]; ODelete 3; OPurgeRec] = true.
Proof. vm_compute. reflexivity. Qed.

(* hypothesis of C16_repl_clean: the other replica deleted u0 (cascade d4) while this replica's g2
   gained d4; merged state [wm]: u0, d4 recycled, g2 lists d4, g3 still lists them *)
Definition wm : state :=
  [ mkent 0 0 Rec [(5, [2; 3])] None;
    mkent 1 0 Rec [(5, [3])] None;
    mkent 2 1 Live [(0, [0; 4])] None;
    mkent 3 1 Live [(0, [0; 2; 4]); (1, [2])] None;
    mkent 4 2 Rec [] (Some 0);
    mkent 5 3 Live [(3, [2; 3]); (4, [3])] None;
    mkent 6 1 Gone [] None ].
Lemma wm_aligned : aligned ws wm [0; 2; 4].
Proof. unfold aligned, ws, wm. repeat constructor; cbn; intros; try reflexivity; discriminate. Qed.
Example C16_witness_repl :
  invb wm = false /\ invb (repl_clean true ws wm [0; 2; 4] []) = true
  /\ getr 0 (erefs (nth 3 (repl_clean true ws wm [0; 2; 4] []) (mkent 9 9 Gone [] None))) = [2].
Proof. vm_compute. repeat split; reflexivity. Qed.

(* the correspondence functions on a concrete observed history (the dump after the delete is the same on
   either tree) *)
Example C16_witness_agree :
  let c := CHist (absS ws)
             [OStep (ODelete 0) 0 (absS (fst (step false ws (ODelete 0)))) 0;
              OStep (OModify 2 [MAdd 0 1]) 3 (absS (fst (step false ws (ODelete 0)))) 0] in
  agree c = true /\ agree_gen false c = true /\ pcheck c = true /\ known c = false /\ prefix_class c = false.
Proof. vm_compute. repeat split; reflexivity. Qed.

(* claim maps: client c5 maps group g3 under the claim names ca and cc (attributes 10 and 12) and g2
   under cb; deleting g3 takes it out of EVERY claim name, g2 stays *)
Example C16_witness_claim_map :
  let s := fst (step true ws (OModify 5 [MAdd 10 3; MAdd 12 3; MAdd 11 2])) in
  snd (step true ws (OModify 5 [MAdd 10 3; MAdd 12 3; MAdd 11 2])) = 0
  /\ invb s = true
  /\ erefs (nth 5 (fst (step true s (ODelete 3))) (mkent 9 9 Gone [] None))
     = [(11, [2]); (12, []); (10, []); (3, [2]); (4, [])]
  /\ invb (fst (step true s (ODelete 3))) = true.
Proof. vm_compute. repeat split; reflexivity. Qed.
