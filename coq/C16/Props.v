(* Inv s       : every stored reference (Member, EntryManagedBy, Refers, scope maps, claim maps,
                 RecycledDirectMemberOf) of every stored entry — live or recycled — points at a LIVE entry.
   NoDangling s: what a live entry shows (stored references, DirectMemberOf, MemberOf) points at live entries.
                 DirectMemberOf and MemberOf are not stored: the model derives them from the live groups
                 (Model.dmo, Model.mo), so their part of NoDangling holds by construction.
   step fx     : one write transaction; fx = true is /repo HEAD (since fix commit bbee457), which the
                 run-time correspondence is held against (Model.tree_fixed = true); fx = false is the tree
                 BEFORE that commit and appears only in the `_prefix` theorems at the end (`prefix`: before
                 the fix, not a prefix of a list), which document the defect this check found. *)
From Coq Require Import List NArith Bool.
Import ListNotations.
Require Import KV.C16.Model KV.C16.Proofs.
Open Scope N_scope.

(* Every operation (create batch, reference edit, delete with cascade, revive with cascade and
   membership restore, purge of the recycle bin, purge of tombstones) preserves the invariant,
   whatever its arguments and whether it is accepted or refused. *)
Theorem C16_inv_step : forall (s : state) (o : op), Inv s -> Inv (fst (step true s o)).
Proof. intros s o H. apply inv_step_gen; [exact H | intros _; left; reflexivity]. Qed.

(* Hence the invariant holds after ANY history from a consistent state (no bound on its length). *)
Theorem C16_reachable : forall (ops : list op) (s : state), Inv s -> Inv (run true s ops).
Proof. exact inv_run_fixed. Qed.

(* After any such history no reference-valued attribute of a live entry points at an entry that is not
   live. *)
Theorem C16_no_dangling : forall (ops : list op) (s : state), Inv s -> NoDangling (run true s ops).
Proof. intros ops s H. apply inv_nodangling. apply inv_run_fixed. exact H. Qed.

(* A write (create, reference edit, revive) whose result would hold a new reference to something
   that is not live is refused, and a refused transaction changes nothing. *)
Theorem C16_write_refused : forall (s : state) (o : op),
  would_dangle s o = true -> snd (step true s o) <> 0 /\ fst (step true s o) = s.
Proof. intros s o H. apply write_refused_gen; [exact H | left; reflexivity]. Qed.

Theorem C16_refused_unchanged : forall (fx : bool) (s : state) (o : op),
  snd (step fx s o) <> 0 -> fst (step fx s o) = s.
Proof. exact refused_unchanged. Qed.

(* A committed delete of x leaves x not live and removes every reference to x and to every entry
   deleted with it by cascade — from live AND from recycled holders (both trees, any state). *)
Theorem C16_delete_cleans : forall (fx : bool) (s s' : state) (x : N),
  step fx s (ODelete x) = (s', 0) ->
  live_id s' x = false /\
  forall e d, In e s' -> In d (del_set s x) -> ~ In d (targets (erefs e)).
Proof.
  intros fx s s' x H. destruct (delete_committed fx s x) as [E _]; [rewrite H; reflexivity|].
  rewrite H in E. cbn [fst] in E. subst s'. split; [apply del_state_not_live | apply del_state_cleans].
Qed.
(* x itself is among the deleted *)
Theorem C16_delete_cleans_target : forall (s : state) (x : N),
  live_id s x = true -> In x (del_set s x).
Proof. exact delete_target_in_set. Qed.

(* Incremental replication, consumer side (refint::post_repl_incremental_conflict +
   post_repl_incremental): whatever the merged entry states [m] are — entries deleted, revived,
   created, conflicted, references added on the other replica — provided [m] lists the same entries
   as [pre] in the same order and entries outside the update set are unchanged (aligned), the clean-up
   restores the invariant. *)
Theorem C16_repl_clean : forall (pre m : state) (cands conf : list N),
  Inv pre -> aligned pre m cands -> Inv (repl_clean true pre m cands conf).
Proof. intros pre m cands conf H A. apply inv_repl_clean; auto. Qed.

(* Single-server histories: whenever the implementation's observations agree with the model, the WHOLE
   executable predicate of the property holds on those observations: no dangling reference in any
   dump, the whole-database scan finds nothing, a refused write changed nothing, a delete left no
   reference behind.  (Two-replica cases: local ops are replayed by the model, the effect of a
   replication step is not predicted — there pcheck is evaluated on the dumps directly and
   C16_repl_clean is the model-level statement.) *)
Theorem C16_agree_implies_property : forall (init : list oent) (steps : list ostep),
  agree (CHist init steps) = true -> pcheck (CHist init steps) = true.
Proof. exact agree_pcheck. Qed.

(* Nothing below is about the current tree: it documents the tree before fix commit bbee457.
   `step false` transcribes refint as it was then: check_uuids_exist_fast accepted a set of new
   references as soon as ONE of them was live and the others still existed recycled or tombstoned. *)

(* The full statement for that tree. *)
Definition C16_prefix_full_statement : Prop :=
  forall (s : state) (o : op), Inv s -> Inv (fst (step false s o)).

(* It is FALSE: with u0 live and u1 a tombstone, `g2.member += [u0, u1]` is committed (w_state, w_op in
   Proofs.v; the same scenario on the real server: harness `c16 --probe`). *)
Theorem C16_prefix_refuted : ~ C16_prefix_full_statement.
Proof. intros H. apply w_breaks. apply H. exact w_inv. Qed.
Theorem C16_prefix_write_refused_refuted :
  ~ (forall s o, would_dangle s o = true -> snd (step false s o) <> 0).
Proof. intros H. destruct w_accepted as [A B]. apply (H _ _ B). exact A. Qed.

(* Outside the class (the new references of one write mix a live target with one that is not live)
   that tree satisfied the statement too. *)
Theorem C16_prefix_inv_step_partial : forall (s : state) (o : op),
  Inv s -> mixed s o = false -> Inv (fst (step false s o)).
Proof. intros s o H M. apply inv_step_gen; [exact H | intros _; right; exact M]. Qed.
Theorem C16_prefix_reachable_partial : forall (ops : list op) (s : state),
  Inv s -> clean_run s ops = true -> NoDangling (run false s ops).
Proof. intros ops s H C. apply inv_nodangling. apply inv_run_partial; auto. Qed.
Theorem C16_prefix_write_refused_partial : forall (s : state) (o : op),
  would_dangle s o = true -> mixed s o = false ->
  snd (step false s o) <> 0 /\ fst (step false s o) = s.
Proof. intros s o H M. apply write_refused_gen; [exact H | right; exact M]. Qed.
Theorem C16_prefix_repl_clean_partial : forall (pre m : state) (cands conf : list N),
  Inv pre -> aligned pre m cands -> repl_mixed pre m cands conf = false ->
  Inv (repl_clean false pre m cands conf).
Proof. intros pre m cands conf H A M. apply inv_repl_clean; auto. Qed.
(* the tie for either tree, outside the former class (everything but the whole-database count) *)
Theorem C16_prefix_agree_implies_core : forall (fx : bool) (init : list oent) (steps : list ostep),
  agree_gen fx (CHist init steps) = true ->
  fx = true \/ prefix_class (CHist init steps) = false ->
  nd_dump init && trace_core init steps = true.
Proof. exact agree_core. Qed.
(* pcheck is the scan of the first dump, that core, and the whole-database count *)
Theorem C16_pcheck_split : forall (init : list oent) (steps : list ostep),
  pcheck (CHist init steps) = nd_dump init && (trace_core init steps && dbd_zero steps).
Proof. intros init steps. cbn [pcheck]. rewrite trace_ok_split. reflexivity. Qed.
