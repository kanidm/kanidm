(* Non-vacuity: concrete states / histories meeting the hypotheses of every
   implication theorem of Props.v, with the conclusions computed. *)
From Coq Require Import List NArith Bool.
Import ListNotations.
Require Import KV.C36.Model.
Open Scope N_scope.

(* an account with a primary credential (1), two passkeys (2, 3), three login sessions
   (10 and 12 by credential 1, 11 by passkey 2) and OAuth2 sessions hanging off them *)
Definition w_acct : acct :=
  mkacct (Some 1) [2; 3] [] None
    [(10, mkuat 1 SNever 50); (11, mkuat 2 (SExpires 900000000000) 60); (12, mkuat 1 (SRevoked 3) 40)]
    [(20, mko2 (Some 10) SNever 70 7); (21, mko2 (Some 11) (SExpires 800000000000) 80 7); (22, mko2 None SNever 90 8)]
    [].

(* transaction 5 at time 100 s removes the primary credential (and touches something else) *)
Definition w_after : acct := step 5 100000000000 [MTouch; MPurgePrimary] w_acct.

(* hypotheses of C36_same_change / C36_removed_credential_kills_oauth2 hold for session 10 ... *)
Example C36_witness_same_change_hyp :
  lookup 10 (a_uats w_acct) = Some (mkuat 1 SNever 50) /\ live SNever = true
  /\ memN 1 (cred_ids w_acct) = true /\ memN 1 (cred_ids w_after) = false.
Proof. vm_compute. repeat split. Qed.

(* ... and the outcome: 10 revoked by change 5, 11 (passkey still there) untouched, 12 keeps its old
   revocation; the OAuth2 session of parent 10 is still inside its grace window so its record
   stays live for now — but its tokens are dead already: *)
Example C36_witness_same_change_result :
  a_uats w_after =
    [(10, mkuat 1 (SRevoked 5) 50); (11, mkuat 2 (SExpires 900000000000) 60); (12, mkuat 1 (SRevoked 3) 40)]
  /\ lookup 20 (a_o2s w_after) = Some (mko2 (Some 10) SNever 70 7)
  /\ check w_after 20 (Some 10) 0 100000000001 = false
  /\ check w_after 21 (Some 11) 0 100000000001 = true.
Proof. vm_compute. repeat split. Qed.

(* the next change after grace revokes the orphaned record as well (C36_orphans_revoked_by_next_change
   has live records to talk about: 21 with live parent 11 past grace) *)
Definition w_later : acct := run 6 w_after [(500000000000, [MTouch])].
Example C36_witness_orphan_revoked_later :
  lookup 20 (a_o2s w_later) = Some (mko2 (Some 10) (SRevoked 6) 70 7)
  /\ lookup 21 (a_o2s w_later) = Some (mko2 (Some 11) (SExpires 800000000000) 80 7)
  /\ (80 + GRACE <=? 500000000000) = true
  /\ parent_live w_later (Some 11) = true.
Proof. vm_compute. repeat split. Qed.

(* the premise `check .. = true` of C36_removed_credential_kills_oauth2 / C36_revoked_parent is
   satisfiable exactly in the corner the theorems leave open: no OAuth2 session record yet and the
   token still inside its grace window *)
Example C36_witness_grace_corner :
  check w_later 99 (Some 10) 400000000000 500000000000 = true
  /\ check w_later 99 (Some 10) 100000000000 500000000000 = false
  /\ lookup 99 (a_o2s w_later) = None.
Proof. vm_compute. repeat split. Qed.

(* C36_oauth2_orphan: an accepted token past grace (live record, live parent), and API-token parent *)
Example C36_witness_accept_past_grace :
  check w_acct 21 (Some 11) 0 700000000000 = true /\ (0 + GRACE <=? 700000000000) = true
  /\ check (mkacct None [] [] None [] [(20, mko2 (Some 33) SNever 0 7)] [33]) 20 (Some 33) 0 700000000000 = true
  /\ check (mkacct None [] [] None [] [(20, mko2 (Some 33) SNever 0 7)] []) 20 (Some 33) 0 700000000000 = false.
Proof. vm_compute. repeat split. Qed.

(* C36_revocation_permanent: the credential comes back, a session with the old id is offered again,
   everything is purged and re-added — session 10 stays revoked by change 5 *)
Example C36_witness_permanent :
  lookup 10 (a_uats (run 6 w_after
      [(100000000001, [MSetPrimary 1; MAddUat 10 1 SNever 99]);
       (100000000002, [MPurgeUats; MAddUat 10 1 SNever 99])]))
  = Some (mkuat 1 (SRevoked 5) 50).
Proof. vm_compute. reflexivity. Qed.

(* C36_oauth2_revocation_permanent: a revoked record is not resurrected by a later Present with a
   longer expiry; revoke-by-resource-server restamps it (still revoked) *)
Example C36_witness_oauth2_permanent :
  lookup 20 (a_o2s (run 7 w_later
      [(600000000000, [MAddO2 20 (Some 11) (SExpires 999000000000) 599000000000 7]);
       (600000000001, [MRevokeRs 7])]))
  = Some (mko2 (Some 10) (SRevoked 8) 70 7).
Proof. vm_compute. reflexivity. Qed.

(* C36_agree_implies_property: a case on which agree holds (two transactions, read-backs, answers) *)
Example C36_witness_agree :
  agree (CHist
    [mkstep 100 [MSetPrimary 1; MAddPasskey 2; MAddUat 10 1 SNever 50; MAddO2 20 (Some 10) SNever 60 7] true
       (mkacct (Some 1) [2] [] None [(10, mkuat 1 SNever 50)] [(20, mko2 (Some 10) SNever 60 7)] [])
       [mkchk 20 (Some 10) 0 400000000000 true; mkchk 21 (Some 10) 0 400000000000 false];
     mkstep 200 [MPurgePrimary] true
       (mkacct None [2] [] None [(10, mkuat 1 (SRevoked 1) 50)] [(20, mko2 (Some 10) SNever 60 7)] [])
       [mkchk 20 (Some 10) 0 200 false; mkchk 21 (Some 10) 0 200 true]]) = true.
Proof. vm_compute. reflexivity. Qed.

(* pcheck is not trivially true: a read-back in which the session survived the removal of its
   credential is rejected, so is one in which it is revoked with another change id than the removing
   transaction's (0 instead of 1), and so is an accepted orphan token *)
Example C36_witness_pcheck_rejects_survivor :
  pcheck (CHist
    [mkstep 100 [MSetPrimary 1; MAddUat 10 1 SNever 50] true
       (mkacct (Some 1) [] [] None [(10, mkuat 1 SNever 50)] [] []) [];
     mkstep 200 [MPurgePrimary] true
       (mkacct None [] [] None [(10, mkuat 1 SNever 50)] [] []) []]) = false.
Proof. vm_compute. reflexivity. Qed.

Example C36_witness_pcheck_rejects_late_revocation :
  pcheck (CHist
    [mkstep 100 [MSetPrimary 1; MAddUat 10 1 SNever 50] true
       (mkacct (Some 1) [] [] None [(10, mkuat 1 SNever 50)] [] []) [];
     mkstep 200 [MPurgePrimary] true
       (mkacct None [] [] None [(10, mkuat 1 (SRevoked 0) 50)] [] []) []]) = false.
Proof. vm_compute. reflexivity. Qed.

Example C36_witness_pcheck_rejects_orphan_accept :
  pcheck (CHist
    [mkstep 100 [MAddO2 20 (Some 10) SNever 60 7] true
       (mkacct None [] [] None [] [(20, mko2 (Some 10) SNever 60 7)] [])
       [mkchk 20 (Some 10) 0 400000000000 true]]) = false.
Proof. vm_compute. reflexivity. Qed.

(* C36_dead_parent / C36_dead_oauth2_session: a parent login session, or the OAuth2 session record
   itself, that is past its expiry but not yet turned into a revoked one by the plugin rejects the
   token; just before the expiry the same token is accepted *)
Example C36_witness_expired_parent :
  live_at 950000000000 (SExpires 900000000000) = false
  /\ check w_acct 20 (Some 11) 0 899999999999 = true
  /\ check w_acct 20 (Some 11) 0 900000000000 = false
  /\ check w_acct 21 (Some 11) 0 799999999999 = true
  /\ check w_acct 21 (Some 11) 0 800000000000 = false.
Proof. vm_compute. repeat split. Qed.
