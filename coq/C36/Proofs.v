(* Within one write transaction a login session is left alone or revoked with that transaction's change id
   (ustep), an OAuth2 record stays and does not come back to life (stays_dead); the transaction itself is two
   map_vals over the modified entry (step_uats_eq, step_o2s_eq). The properties are read off these, over list
   entries (In) so that both the lookup forms of Props.v and the forallb forms of pcheck follow. *)
From Coq Require Import List NArith Bool.
Import ListNotations.
Require Import KV.C36.Model.
Open Scope N_scope.

Lemma memN_In : forall x l, memN x l = true <-> In x l.
Proof.
  intros x l. unfold memN. rewrite existsb_exists. split.
  - intros [y [Hy E]]. apply N.eqb_eq in E. subst. exact Hy.
  - intro H. exists x. split; [exact H | apply N.eqb_refl].
Qed.

Lemma memN_false : forall x l, memN x l = false <-> ~ In x l.
Proof. intros x l. rewrite <- memN_In. symmetry. apply not_true_iff_false. Qed.

Lemma forallb_imp : forall {A} (f g : A -> bool) l,
  (forall x, f x = true -> g x = true) -> forallb f l = true -> forallb g l = true.
Proof. intros A f g l H. rewrite !forallb_forall. auto. Qed.

Lemma lookup_map_vals : forall {A} (f : N -> A -> A) k (m : list (N * A)),
  lookup k (map_vals f m) = option_map (f k) (lookup k m).
Proof.
  intros A f k m. induction m as [|[k' v] r IH]; cbn [map_vals map lookup fst snd option_map].
  - reflexivity.
  - destruct (k =? k') eqn:E.
    + apply N.eqb_eq in E. subst. reflexivity.
    + exact IH.
Qed.

Lemma in_map_vals : forall {A} (f : N -> A -> A) (m : list (N * A)) i v,
  In (i, v) (map_vals f m) -> exists v0, In (i, v0) m /\ v = f i v0.
Proof.
  intros A f m i v H. apply in_map_iff in H. destruct H as [[i0 v0] [E H]].
  injection E as -> <-. eauto.
Qed.

Lemma lookup_in : forall {A} (m : list (N * A)) i v, lookup i m = Some v -> In (i, v) m.
Proof.
  intros A m i v. induction m as [|[k1 v1] r IH]; cbn [lookup In]; intro H.
  - discriminate.
  - destruct (i =? k1) eqn:E.
    + apply N.eqb_eq in E. inversion H; subst. left. reflexivity.
    + right. exact (IH H).
Qed.

Lemma in_ins_sorted : forall {A} k (v : A) (m : list (N * A)) e,
  In e (ins_sorted k v m) -> e = (k, v) \/ In e m.
Proof.
  intros A k v m e. induction m as [|[k1 v1] r IH]; cbn [ins_sorted In].
  - intuition.
  - destruct (k <? k1); cbn [In]; intuition.
Qed.

Lemma lookup_ins_sorted : forall {A} k (v : A) (m : list (N * A)) k',
  lookup k m = None ->
  lookup k' (ins_sorted k v m) = if k' =? k then Some v else lookup k' m.
Proof.
  intros A k v m k'. induction m as [|[k1 v1] r IH]; intro Hn; [reflexivity|].
  cbn [lookup] in Hn. destruct (k =? k1) eqn:E1; [discriminate|].
  cbn [ins_sorted]. destruct (k <? k1); [reflexivity|].
  cbn [lookup]. rewrite (IH Hn). destruct (k' =? k1) eqn:E2; [|reflexivity].
  apply N.eqb_eq in E2. subst. rewrite N.eqb_sym, E1. reflexivity.
Qed.

Lemma lookup_insert_with : forall {A} (upd : A -> A -> A) k v (m : list (N * A)) k',
  lookup k' (insert_with upd k v m) =
  if k' =? k then Some (match lookup k m with Some old => upd old v | None => v end)
  else lookup k' m.
Proof.
  intros A upd k v m k'. unfold insert_with. destruct (lookup k m) as [old|] eqn:L.
  - rewrite lookup_map_vals. destruct (k' =? k) eqn:E.
    + apply N.eqb_eq in E. subst. rewrite L. reflexivity.
    + destruct (lookup k' m); reflexivity.
  - apply lookup_ins_sorted. exact L.
Qed.

Definition functional {A} (m : list (N * A)) : Prop :=
  forall i v, In (i, v) m -> lookup i m = Some v.

Lemma functional_map_vals : forall {A} (f : N -> A -> A) m, functional m -> functional (map_vals f m).
Proof.
  intros A f m F i v H. apply in_map_vals in H as [v0 [H ->]].
  rewrite lookup_map_vals, (F _ _ H). reflexivity.
Qed.

Lemma functional_insert_with : forall {A} (upd : A -> A -> A) k v m,
  functional m -> functional (insert_with upd k v m).
Proof.
  intros A upd k v m F. unfold insert_with. destruct (lookup k m) eqn:L.
  - apply functional_map_vals. exact F.
  - intros i x H. rewrite lookup_ins_sorted by exact L. apply in_ins_sorted in H as [E|H].
    + injection E as -> ->. rewrite N.eqb_refl. reflexivity.
    + destruct (i =? k) eqn:E; [|exact (F _ _ H)].
      apply N.eqb_eq in E. subst. rewrite (F _ _ H) in L. discriminate.
Qed.

Definition evolves {A} (R : A -> A -> Prop) (m m1 : list (N * A)) : Prop :=
  forall i v, lookup i m = Some v -> exists v1, lookup i m1 = Some v1 /\ R v v1.

Lemma evolves_refl : forall {A} {R : A -> A -> Prop} m, (forall v, R v v) -> evolves R m m.
Proof. intros A R m Hr i v L. eauto. Qed.

Lemma evolves_trans : forall {A} {R : A -> A -> Prop} a b c,
  (forall x y z, R x y -> R y z -> R x z) -> evolves R a b -> evolves R b c -> evolves R a c.
Proof.
  intros A R a b c Ht H1 H2 i v L. destruct (H1 i v L) as [v1 [L1 R1]].
  destruct (H2 i v1 L1) as [v2 [L2 R2]]. eauto.
Qed.

Lemma evolves_map_vals : forall {A} {R : A -> A -> Prop} g m,
  (forall i v, R v (g i v)) -> evolves R m (map_vals g m).
Proof. intros A R g m H i v L. rewrite lookup_map_vals, L. cbn [option_map]. eauto. Qed.

Lemma evolves_insert_with : forall {A} {R : A -> A -> Prop} upd k v m,
  (forall x, R x x) -> (forall old, R old (upd old v)) -> evolves R m (insert_with upd k v m).
Proof.
  intros A R upd k v m Hr H i x L. rewrite lookup_insert_with. destruct (i =? k) eqn:E; [|eauto].
  apply N.eqb_eq in E. subst. rewrite L. eauto.
Qed.

(* the entry after the modify list, before the plugin runs *)
Definition mid (k : N) (mods : list md) (a : acct) : acct := fold_left (apply_md k) mods a.

Lemma mid_evolves : forall {A} {R : A -> A -> Prop} k (p : acct -> list (N * A)),
  (forall v, R v v) -> (forall x y z, R x y -> R y z -> R x z) ->
  (forall a m, evolves R (p a) (p (apply_md k a m))) ->
  forall mods a, evolves R (p a) (p (mid k mods a)).
Proof.
  intros A R k p Hr Ht H. induction mods as [|m r IH]; intro a; cbn [mid fold_left].
  - apply evolves_refl, Hr.
  - exact (evolves_trans _ _ _ Ht (H a m) (IH _)).
Qed.

Lemma revoke_dead : forall k s, live (revoke k s) = false.
Proof. intros k [j|e|]; reflexivity. Qed.

Lemma revoke_id : forall k s, live s = false -> revoke k s = s.
Proof. intros k s L. unfold revoke. rewrite L. reflexivity. Qed.

Lemma urevoke_dead : forall k u, live (u_state (urevoke k u)) = false.
Proof. intros. apply revoke_dead. Qed.

Lemma urevoke_live : forall k u, live (u_state u) = true -> u_state (urevoke k u) = SRevoked k.
Proof. intros k u L. cbn. unfold revoke. rewrite L. reflexivity. Qed.

Lemma urevoke_id : forall k u, live (u_state u) = false -> urevoke k u = u.
Proof.
  intros k [c s i] L. unfold urevoke, set_ustate. cbn [u_cred u_state u_issued] in *.
  rewrite (revoke_id k s L). reflexivity.
Qed.

Lemma urevoke_idem : forall k u, urevoke k (urevoke k u) = urevoke k u.
Proof. intros. apply urevoke_id, urevoke_dead. Qed.

Definition ustep (k : N) (u u1 : uat) : Prop := u1 = u \/ u1 = urevoke k u.

Lemma ustep_refl : forall k u, ustep k u u.
Proof. left. reflexivity. Qed.

Lemma ustep_trans : forall k a b c, ustep k a b -> ustep k b c -> ustep k a c.
Proof. intros k a b c [->| ->] [->| ->]; unfold ustep; rewrite ?urevoke_idem; auto. Qed.

Lemma ustep_cred : forall k u u1, ustep k u u1 -> u_cred u1 = u_cred u.
Proof. intros k u u1 [->| ->]; reflexivity. Qed.

Lemma ustep_dead : forall k u u1, live (u_state u) = false -> ustep k u u1 -> u1 = u.
Proof. intros k u u1 L [->| ->]; [reflexivity | exact (urevoke_id k u L)]. Qed.

Lemma apply_md_uats : forall k a m, evolves (ustep k) (a_uats a) (a_uats (apply_md k a m)).
Proof.
  intros k a m. destruct m; cbn [apply_md a_uats upd_uats upd_o2s]; try apply evolves_refl, ustep_refl.
  - apply evolves_insert_with; [apply ustep_refl | intro; apply ustep_refl].
  - apply evolves_insert_with; [apply ustep_refl | intro; apply ustep_refl].
  - apply evolves_map_vals. intros i u. destruct (i =? sid); [right | left]; reflexivity.
  - apply evolves_map_vals. intros i u. right. reflexivity.
Qed.

Lemma mid_uats : forall k mods a, evolves (ustep k) (a_uats a) (a_uats (mid k mods a)).
Proof. intro k. exact (mid_evolves k a_uats (ustep_refl k) (ustep_trans k) (apply_md_uats k)). Qed.

(* the per-element functions of Model.pass1 and Model.pass2, named so that the two passes compose
   under one map_vals (step_uats_eq) *)
Definition pass1_fn (k : N) (creds : list N) (u : uat) : uat :=
  if live (u_state u) && negb (memN (u_cred u) creds) then urevoke k u else u.
Definition pass2_fn (k ct : N) (u : uat) : uat :=
  if expired ct (u_state u) then urevoke k u else u.

Lemma step_creds : forall k ct mods a, cred_ids (step k ct mods a) = cred_ids (mid k mods a).
Proof. reflexivity. Qed.
Lemma step_apis : forall k ct mods a, a_apis (step k ct mods a) = a_apis (mid k mods a).
Proof. reflexivity. Qed.

Lemma step_uats_eq : forall k ct mods a,
  a_uats (step k ct mods a) =
  map_vals (fun _ u => pass2_fn k ct (pass1_fn k (cred_ids (mid k mods a)) u)) (a_uats (mid k mods a)).
Proof. intros. apply map_map. Qed.

Lemma ustep_passes : forall k ct creds u, ustep k u (pass2_fn k ct (pass1_fn k creds u)).
Proof.
  intros k ct creds u. apply ustep_trans with (pass1_fn k creds u).
  - unfold pass1_fn. destruct (_ && _); [right | left]; reflexivity.
  - unfold pass2_fn. destruct (expired _ _); [right | left]; reflexivity.
Qed.

Lemma step_uats : forall k ct mods a, evolves (ustep k) (a_uats a) (a_uats (step k ct mods a)).
Proof.
  intros k ct mods a. apply evolves_trans with (a_uats (mid k mods a)); [apply ustep_trans | apply mid_uats |].
  rewrite step_uats_eq. apply evolves_map_vals. intros _ u. apply ustep_passes.
Qed.

Lemma step_functional : forall k ct mods a,
  functional (a_uats a) -> functional (a_uats (step k ct mods a)).
Proof.
  intros k ct mods a F. rewrite step_uats_eq. apply functional_map_vals. unfold mid.
  revert a F. induction mods as [|m r IH]; intros a F; cbn [fold_left]; [exact F|].
  apply IH. destruct m; cbn [apply_md a_uats upd_uats upd_o2s];
    auto using functional_map_vals, functional_insert_with.
Qed.

Lemma passes_removed : forall k ct creds u,
  memN (u_cred u) creds = false -> pass2_fn k ct (pass1_fn k creds u) = urevoke k u.
Proof.
  intros k ct creds [c s i] M. unfold pass1_fn, pass2_fn. cbn [u_cred u_state] in *. rewrite M.
  destruct s; reflexivity.
Qed.

(* what p_same_change asks (urevoke k leaves an already revoked u as it is) *)
Lemma step_removed : forall k ct mods a sid u,
  lookup sid (a_uats a) = Some u -> memN (u_cred u) (cred_ids (step k ct mods a)) = false ->
  lookup sid (a_uats (step k ct mods a)) = Some (urevoke k u).
Proof.
  intros k ct mods a sid u L M. destruct (mid_uats k mods a sid u L) as [u1 [L1 S1]].
  rewrite step_uats_eq, lookup_map_vals, L1. cbn [option_map].
  rewrite step_creds, <- (ustep_cred _ _ _ S1) in M. rewrite (passes_removed _ _ _ _ M).
  destruct S1 as [->| ->]; [|rewrite urevoke_idem]; reflexivity.
Qed.

(* what p_inv asks: the invariant established by every transaction from ANY pre-state *)
Lemma step_live_cred : forall k ct mods a sid u,
  In (sid, u) (a_uats (step k ct mods a)) -> live (u_state u) = true ->
  memN (u_cred u) (cred_ids (step k ct mods a)) = true.
Proof.
  intros k ct mods a sid u H Lv. rewrite step_uats_eq in H. apply in_map_vals in H as [u0 [_ ->]].
  rewrite step_creds, (ustep_cred _ _ _ (ustep_passes k ct _ u0)).
  destruct (memN (u_cred u0) _) eqn:M; [reflexivity|].
  rewrite (passes_removed _ _ _ _ M), urevoke_dead in Lv. discriminate.
Qed.

Lemma run_inv : forall P : acct -> Prop,
  (forall k ct mods a, P a -> P (step k ct mods a)) -> forall h k a, P a -> P (run k a h).
Proof. intros P HP. induction h as [|[ct mods] r IH]; intros k a H; cbn [run]; auto. Qed.

Lemma run_revoked : forall h k a sid u,
  lookup sid (a_uats a) = Some u -> live (u_state u) = false ->
  lookup sid (a_uats (run k a h)) = Some u.
Proof.
  intros h k a sid u L D. revert h k a L. apply (run_inv (fun a => lookup sid (a_uats a) = Some u)).
  intros k ct mods a L. destruct (step_uats k ct mods a sid u L) as [u1 [L1 S1]].
  rewrite (ustep_dead _ _ _ D S1) in L1. exact L1.
Qed.

(* an OAuth2 record can be replaced (insert_checked) or restamped (remove by resource server),
   but once revoked it stays revoked *)
Definition stays_dead (o o1 : o2) : Prop := live (o_state o) = false -> live (o_state o1) = false.

Lemma stays_dead_refl : forall o, stays_dead o o.
Proof. intros o H. exact H. Qed.

Lemma stays_dead_trans : forall a b c, stays_dead a b -> stays_dead b c -> stays_dead a c.
Proof. unfold stays_dead. auto. Qed.

Lemma orevoke_dead : forall k o, live (o_state (orevoke k o)) = false.
Proof. intros. apply revoke_dead. Qed.

Lemma sgt_revoked : forall sn so, live so = false -> sgt sn so = true -> live sn = false.
Proof. intros sn so. destruct sn, so; cbn; intros; try reflexivity; discriminate. Qed.

Lemma o2_remove_ref_evolves : forall k r m, evolves stays_dead m (o2_remove_ref k r m).
Proof.
  intros k r m. unfold o2_remove_ref. destruct (lookup r m) as [x|]; apply evolves_map_vals; intros i o.
  - destruct (i =? r); [intros _; apply orevoke_dead | apply stays_dead_refl].
  - destruct (o_rs o =? r); [intros _; reflexivity | apply stays_dead_refl].
Qed.

Lemma apply_md_o2s : forall k a m, evolves stays_dead (a_o2s a) (a_o2s (apply_md k a m)).
Proof.
  intros k a m. destruct m; cbn [apply_md a_o2s upd_uats upd_o2s]; try apply evolves_refl, stays_dead_refl.
  - (* insert_checked replaces a record only by one of higher priority *)
    apply evolves_insert_with; [apply stays_dead_refl|]. intros old H. cbn [o_state].
    destruct (sgt st (o_state old)) eqn:G; [exact (sgt_revoked _ _ H G) | exact H].
  - apply o2_remove_ref_evolves.
  - apply o2_remove_ref_evolves.
  - apply evolves_map_vals. intros i o _. apply orevoke_dead.
Qed.

Lemma step_o2s_eq : forall k ct mods a,
  a_o2s (step k ct mods a) = pass3 k ct (a_uats (step k ct mods a)) (a_o2s (mid k mods a)).
Proof. reflexivity. Qed.

Lemma step_o2s : forall k ct mods a, evolves stays_dead (a_o2s a) (a_o2s (step k ct mods a)).
Proof.
  intros k ct mods a. apply evolves_trans with (a_o2s (mid k mods a)); [apply stays_dead_trans | |].
  - exact (mid_evolves k a_o2s stays_dead_refl stays_dead_trans (apply_md_o2s k) mods a).
  - rewrite step_o2s_eq. apply evolves_map_vals. intros _ o.
    destruct (o2_doomed _ _ _); [intros _; apply orevoke_dead | apply stays_dead_refl].
Qed.

(* what p_orphans asks: what the plugin leaves behind. `kept` is the test p_orphans makes on a
   live record; on such a record the plugin's test is its negation. *)
Definition kept (ct : N) (a : acct) (o : o2) : bool :=
  (negb (o_issued o + GRACE <=? ct) || parent_live a (o_parent o)) && negb (expired ct (o_state o)).

Lemma parent_ok_live : forall a o, parent_ok (a_uats a) o = parent_live a (o_parent o).
Proof. intros a o. unfold parent_ok, parent_live. destruct (a_uats a), (o_parent o); reflexivity. Qed.

Lemma doomed_live : forall ct a o,
  live (o_state o) = true -> o2_doomed ct (a_uats a) o = negb (kept ct a o).
Proof.
  intros ct a o Lv. unfold o2_doomed, kept. rewrite parent_ok_live.
  destruct (parent_live a (o_parent o)), (o_issued o + GRACE <=? ct), (o_state o) as [j|e|];
    try discriminate Lv; cbn [expired]; try destruct (e <=? ct); reflexivity.
Qed.

Lemma step_o2_live : forall k ct mods a oid o,
  In (oid, o) (a_o2s (step k ct mods a)) -> live (o_state o) = true -> kept ct (step k ct mods a) o = true.
Proof.
  intros k ct mods a oid o H. rewrite step_o2s_eq in H. apply in_map_vals in H as [o0 [_ ->]].
  destruct (o2_doomed ct (a_uats (step k ct mods a)) o0) eqn:D; intro Lv.
  - rewrite orevoke_dead in Lv. discriminate.
  - rewrite (doomed_live _ _ _ Lv) in D. apply negb_false_iff, D.
Qed.

Lemma live_at_live : forall ct s, live_at ct s = true -> live s = true.
Proof. intros ct s H. unfold live_at in H. apply andb_prop in H. tauto. Qed.
Lemma dead_not_live_at : forall ct s, live s = false -> live_at ct s = false.
Proof. intros ct s H. unfold live_at. rewrite H. reflexivity. Qed.

(* past the grace window acceptance is decided by the records alone *)
Lemma check_p_chk : forall a oid parent iat ct,
  check a oid parent iat ct = true -> p_chk a (mkchk oid parent iat ct true) = true.
Proof.
  intros a oid parent iat ct H. unfold p_chk. cbn [c_oid c_parent c_iat c_ct c_res andb].
  destruct (iat + GRACE <=? ct) eqn:G; [|reflexivity].
  apply N.leb_le, N.ltb_ge in G. unfold check in H. rewrite G in H.
  destruct (lookup oid (a_o2s a)) as [o|]; [|discriminate].
  destruct (live_at ct (o_state o)); [|discriminate]. cbn [negb andb] in *.
  destruct parent as [p|]; [|reflexivity].
  destruct (lookup p (a_uats a)); [exact H|]. destruct (memN p (a_apis a)); [reflexivity | discriminate].
Qed.

Create HintDb eqb.
#[local] Hint Resolve -> N.eqb_eq : eqb.

Lemma opt_eqb_eq : forall a b, opt_eqb a b = true -> a = b.
Proof. intros [x|] [y|]; cbn [opt_eqb]; intro H; try discriminate; f_equal; auto with eqb. Qed.

Lemma sstate_eqb_eq : forall a b, sstate_eqb a b = true -> a = b.
Proof. intros [x|x|] [y|y|]; cbn [sstate_eqb]; intro H; try discriminate; f_equal; auto with eqb. Qed.

Lemma sstate_eqb_refl : forall s, sstate_eqb s s = true.
Proof. intros [x|x|]; cbn [sstate_eqb]; auto using N.eqb_refl. Qed.

Lemma list_eqb_eq : forall {A} (e : A -> A -> bool),
  (forall x y, e x y = true -> x = y) -> forall a b, list_eqb e a b = true -> a = b.
Proof.
  intros A e He. induction a as [|x r IH]; intros [|y s]; cbn [list_eqb]; intro H; try discriminate.
  - reflexivity.
  - apply andb_prop in H as [H1 H2]. f_equal; auto.
Qed.

Lemma pair_eqb_eq : forall {A} (e : A -> A -> bool),
  (forall x y, e x y = true -> x = y) -> forall a b, pair_eqb e a b = true -> a = b.
Proof.
  intros A e He [k1 v1] [k2 v2]. unfold pair_eqb. cbn [fst snd]. intro H.
  apply andb_prop in H as [H1 H2]. f_equal; auto with eqb.
Qed.

#[local] Hint Resolve opt_eqb_eq sstate_eqb_eq : eqb.

Lemma uat_eqb_eq : forall a b, uat_eqb a b = true -> a = b.
Proof.
  intros [c1 s1 i1] [c2 s2 i2]. unfold uat_eqb. cbn [u_cred u_state u_issued].
  rewrite !andb_true_iff. intros [[H1 H2] H3]. f_equal; auto with eqb.
Qed.

Lemma o2_eqb_eq : forall a b, o2_eqb a b = true -> a = b.
Proof.
  intros [p1 s1 i1 r1] [p2 s2 i2 r2]. unfold o2_eqb. cbn [o_parent o_state o_issued o_rs].
  rewrite !andb_true_iff. intros [[[H1 H2] H3] H4]. f_equal; auto with eqb.
Qed.

Lemma acct_eqb_eq : forall a b, acct_eqb a b = true -> a = b.
Proof.
  intros [p1 k1 t1 c1 u1 o1 i1] [p2 k2 t2 c2 u2 o2' i2]. unfold acct_eqb.
  cbn [a_primary a_passkeys a_attested a_o2cred a_uats a_o2s a_apis].
  rewrite !andb_true_iff. intros [[[[[[H1 H2] H3] H4] H5] H6] H7].
  f_equal; auto with eqb; eapply list_eqb_eq; eauto using pair_eqb_eq, uat_eqb_eq, o2_eqb_eq with eqb.
Qed.

Lemma step_p_same_change : forall k ct mods a,
  functional (a_uats a) -> p_same_change k a (step k ct mods a) = true.
Proof.
  intros k ct mods a F. apply forallb_forall. intros [i u] L. apply F in L. cbn [fst snd].
  destruct (step_uats k ct mods a i u L) as [u1 [L1 S1]].
  rewrite L1, (ustep_cred _ _ _ S1), N.eqb_refl. cbn [andb].
  destruct (live (u_state u)) eqn:Lv.
  - destruct (memN _ _) eqn:M; [reflexivity|].
    rewrite (step_removed k ct mods a i u L M) in L1. injection L1 as <-.
    rewrite (urevoke_live k u Lv). apply sstate_eqb_refl.
  - rewrite (ustep_dead _ _ _ Lv S1). apply sstate_eqb_refl.
Qed.

Lemma step_p_inv : forall k ct mods a, p_inv (step k ct mods a) = true.
Proof.
  intros k ct mods a. apply forallb_forall. intros [i u] H. cbn [fst snd].
  destruct (live (u_state u)) eqn:Lv; [|reflexivity]. exact (step_live_cred k ct mods a i u H Lv).
Qed.

Lemma step_p_orphans : forall k ct mods a, p_orphans ct (step k ct mods a) = true.
Proof.
  intros k ct mods a. apply forallb_forall. intros [i o] H. cbn [fst snd].
  destruct (live (o_state o)) eqn:Lv; [|reflexivity]. exact (step_o2_live k ct mods a i o H Lv).
Qed.

Lemma chk_agree_p_chk : forall a c, chk_agree a c = true -> p_chk a c = true.
Proof.
  intros a [oid parent iat ct res] H. apply eqb_prop in H. cbn [c_oid c_parent c_iat c_ct c_res] in H.
  destruct res; [exact (check_p_chk _ _ _ _ _ H) | reflexivity].
Qed.

Lemma login_agree_p_login : forall a m, login_agree a m = true -> p_login a m = true.
Proof.
  intros a m. destruct m; cbn [login_agree p_login]; try reflexivity.
  intro H. apply opt_eqb_eq in H. apply memN_In. unfold cred_ids. rewrite H. left. reflexivity.
Qed.

Lemma hist_bridge : forall steps k a,
  functional (a_uats a) -> hist_agree k a steps = true -> hist_pcheck k a steps = true.
Proof.
  induction steps as [|s r IH]; intros k a F H; cbn [hist_agree hist_pcheck] in *; [reflexivity|].
  rewrite !andb_true_iff in H. destruct H as [[[[_ Hl] E] Hc] Hr]. apply acct_eqb_eq in E. rewrite <- E.
  rewrite (forallb_imp _ _ _ (login_agree_p_login a) Hl), (forallb_imp _ _ _ (chk_agree_p_chk _) Hc).
  rewrite step_p_same_change, step_p_inv, step_p_orphans by exact F.
  apply IH; [apply step_functional; exact F | exact Hr].
Qed.
