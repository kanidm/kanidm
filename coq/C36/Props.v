(* Property C36: when a credential is removed from an account, every login session
   issued with that credential is revoked in the same change, and an OAuth2 session whose parent
   login session is revoked or missing stops being usable once the grace window has passed. *)
From Coq Require Import List NArith Bool.
Import ListNotations.
Require Import KV.C36.Model KV.C36.Proofs.
Open Scope N_scope.

(* SAME CHANGE. For every account state (well formed or not), every write transaction (any list
   of changes, any time) with change index k: a login session that was live before the transaction
   and whose credential is not among the account's credentials after it is still recorded
   afterwards, still bound to that credential, and is revoked with exactly this transaction's
   change id. In particular this covers "credential c was on the account and the transaction
   removed it", for every credential class the plugin reads. *)
Theorem C36_same_change : forall k ct mods a sid u,
  lookup sid (a_uats a) = Some u -> live (u_state u) = true ->
  ~ In (u_cred u) (cred_ids (step k ct mods a)) ->
  exists u', lookup sid (a_uats (step k ct mods a)) = Some u'
             /\ u_cred u' = u_cred u /\ u_state u' = SRevoked k.
Proof.
  intros k ct mods a sid u L Lv Hn. apply memN_false in Hn. exists (urevoke k u).
  split; [exact (step_removed k ct mods a sid u L Hn) | split; [reflexivity | exact (urevoke_live k u Lv)]].
Qed.

(* INVARIANT established by every transaction from ANY pre-state: afterwards no live login session
   is bound to a credential that is not on the account (this includes sessions that the same
   transaction added). *)
Theorem C36_no_live_session_without_credential : forall k ct mods a sid u,
  lookup sid (a_uats (step k ct mods a)) = Some u -> live (u_state u) = true ->
  In (u_cred u) (cred_ids (step k ct mods a)).
Proof.
  intros k ct mods a sid u L Lv. apply memN_In.
  exact (step_live_cred k ct mods a sid u (lookup_in _ _ _ L) Lv).
Qed.

(* ... and therefore along every history (any number of transactions, any times, any changes) that is not
   empty, written h ++ [(ct, mods)]: before the first transaction the state is arbitrary. *)
Theorem C36_history_invariant : forall h k a ct mods sid u,
  lookup sid (a_uats (run k a (h ++ [(ct, mods)]))) = Some u -> live (u_state u) = true ->
  In (u_cred u) (cred_ids (run k a (h ++ [(ct, mods)]))).
Proof.
  induction h as [|[ct0 mods0] r IH]; intros k a ct mods sid u; cbn [app run].
  - apply C36_no_live_session_without_credential.
  - apply IH.
Qed.

(* REVOCATION IS PERMANENT: over every later history the session record stays, with the same
   credential and the same revoking change id — re-adding the credential (or a session with the
   same id) does not bring it back. *)
Theorem C36_revocation_permanent : forall h k a sid u j,
  lookup sid (a_uats a) = Some u -> u_state u = SRevoked j ->
  exists u1, lookup sid (a_uats (run k a h)) = Some u1 /\ u_state u1 = SRevoked j /\ u_cred u1 = u_cred u.
Proof.
  intros h k a sid u j L S. exists u.
  split; [apply run_revoked; [exact L | rewrite S; reflexivity] | split; [exact S | reflexivity]].
Qed.

(* A revoked OAuth2 session record stays recorded and revoked over every later history. *)
Theorem C36_oauth2_revocation_permanent : forall h k a oid o,
  lookup oid (a_o2s a) = Some o -> live (o_state o) = false ->
  exists o1, lookup oid (a_o2s (run k a h)) = Some o1 /\ live (o_state o1) = false.
Proof.
  intros h k a oid o L D.
  apply (run_inv (fun a => exists o1, lookup oid (a_o2s a) = Some o1 /\ live (o_state o1) = false)); [|eauto].
  intros k' ct mods a' [o1 [L1 D1]]. destruct (step_o2s k' ct mods a' oid o1 L1) as [o2 [L2 R2]]. eauto.
Qed.

(* ORPHANED OAUTH2 TOKENS. Whenever check_oauth2_account_uuid_valid accepts a token whose grace
   window has passed, the token's OAuth2 session record is on the entry and neither revoked nor past
   its expiry at that time, and a parent named by the token is a login session of the account that
   is neither revoked nor past its expiry, or one of its API tokens. Hence a parent login session
   that is revoked, expired or missing makes the token unusable after grace. *)
Theorem C36_oauth2_orphan : forall a oid parent iat ct,
  check a oid parent iat ct = true -> iat + GRACE <= ct ->
  (exists o, lookup oid (a_o2s a) = Some o /\ live_at ct (o_state o) = true)
  /\ match parent with
     | Some p => (exists u, lookup p (a_uats a) = Some u /\ live_at ct (u_state u) = true) \/ In p (a_apis a)
     | None => True
     end.
Proof.
  intros a oid parent iat ct H G. apply check_p_chk in H. unfold p_chk in H.
  cbn [c_oid c_parent c_iat c_ct c_res andb] in H. apply N.leb_le in G. rewrite G in H.
  destruct (lookup oid (a_o2s a)) as [o|]; [|discriminate]. apply andb_prop in H as [Lo Hp].
  split; [eauto|]. destruct parent as [p|]; [|exact I].
  destruct (lookup p (a_uats a)) as [u|]; [left; eauto | right; apply memN_In, Hp].
Qed.

(* At EVERY time, grace or not: if a token is accepted and its OAuth2 session record is on the entry,
   the record is neither revoked nor expired, and a named parent that is recorded as a login session
   is neither revoked nor expired. *)
Theorem C36_accepted_token_sessions_live : forall a oid parent iat ct,
  check a oid parent iat ct = true ->
  forall o, lookup oid (a_o2s a) = Some o -> live_at ct (o_state o) = true
    /\ forall p u, parent = Some p -> lookup p (a_uats a) = Some u -> live_at ct (u_state u) = true.
Proof.
  intros a oid parent iat ct H o Lo. unfold check in H. rewrite Lo in H.
  destruct (live_at ct (o_state o)); [|discriminate].
  split; [reflexivity|]. intros p u -> Lu. rewrite Lu in H. exact H.
Qed.

(* A REVOKED OR EXPIRED parent login session rejects the token at every time once the OAuth2 session
   record is on the entry; without that record only the grace window is left. *)
Theorem C36_dead_parent : forall a oid p u iat ct,
  lookup p (a_uats a) = Some u -> live_at ct (u_state u) = false ->
  check a oid (Some p) iat ct = true ->
  lookup oid (a_o2s a) = None /\ ct < iat + GRACE.
Proof.
  intros a oid p u iat ct L Lv H. unfold check in H. rewrite L, Lv in H.
  destruct (lookup oid (a_o2s a)) as [o|].
  - destruct (negb (live_at ct (o_state o))); discriminate.
  - split; [reflexivity | apply N.ltb_lt; exact H].
Qed.

(* the revoked parent alone (live = false makes live_at ct false at every ct) *)
Theorem C36_revoked_parent : forall a oid p u iat ct,
  lookup p (a_uats a) = Some u -> live (u_state u) = false ->
  check a oid (Some p) iat ct = true ->
  lookup oid (a_o2s a) = None /\ ct < iat + GRACE.
Proof.
  intros a oid p u iat ct L Lv. exact (C36_dead_parent a oid p u iat ct L (dead_not_live_at ct _ Lv)).
Qed.

(* A revoked or expired OAuth2 session record rejects its tokens at every time, whatever the parent. *)
Theorem C36_dead_oauth2_session : forall a oid o parent iat ct,
  lookup oid (a_o2s a) = Some o -> live_at ct (o_state o) = false -> check a oid parent iat ct = false.
Proof. intros a oid o parent iat ct L Lv. unfold check. rewrite L, Lv. reflexivity. Qed.

(* the revoked record alone *)
Theorem C36_revoked_oauth2_session : forall a oid o parent iat ct,
  lookup oid (a_o2s a) = Some o -> live (o_state o) = false -> check a oid parent iat ct = false.
Proof.
  intros a oid o parent iat ct L Lv.
  exact (C36_dead_oauth2_session a oid o parent iat ct L (dead_not_live_at ct _ Lv)).
Qed.

(* END TO END over histories: a credential leaves the account in transaction k while a login
   session issued with it is live. Whatever transactions follow, a token naming that login session
   as parent is accepted only while NO OAuth2 session record exists for it and its grace window is
   still open; with the record on the entry it is rejected at every time, and after grace always. *)
Theorem C36_removed_credential_kills_oauth2 : forall k ct mods a sid u rest oid iat ct',
  lookup sid (a_uats a) = Some u -> live (u_state u) = true ->
  ~ In (u_cred u) (cred_ids (step k ct mods a)) ->
  check (run (k + 1) (step k ct mods a) rest) oid (Some sid) iat ct' = true ->
  lookup oid (a_o2s (run (k + 1) (step k ct mods a) rest)) = None /\ ct' < iat + GRACE.
Proof.
  intros k ct mods a sid u rest oid iat ct' L _ Hn. apply memN_false in Hn.
  apply C36_revoked_parent with (u := urevoke k u); [|apply urevoke_dead].
  apply run_revoked; [exact (step_removed k ct mods a sid u L Hn) | apply urevoke_dead].
Qed.

(* WHAT THE PLUGIN LEAVES BEHIND. After a transaction at time ct every OAuth2 session record that is
   still live is not past its expiry, and if its grace window has passed its parent is a live
   login session (a record without parent needs the login-session attribute to exist): orphaned
   records are revoked by the first change to the account after grace. *)
Theorem C36_orphans_revoked_by_next_change : forall k ct mods a oid o,
  lookup oid (a_o2s (step k ct mods a)) = Some o -> live (o_state o) = true ->
  (o_issued o + GRACE <= ct -> parent_live (step k ct mods a) (o_parent o) = true)
  /\ expired ct (o_state o) = false.
Proof.
  intros k ct mods a oid o L Lv.
  destruct (andb_prop _ _ (step_o2_live k ct mods a oid o (lookup_in _ _ _ L) Lv)) as [HP HE].
  split; [|apply negb_true_iff, HE]. intro G. apply N.leb_le in G. rewrite G in HP. exact HP.
Qed.

(* Soundness of the run-time tie: whenever the implementation's read-backs and answers agree with
   the model, the property's executable predicate holds on those read-backs and answers. *)
Theorem C36_agree_implies_property : forall c : case, agree c = true -> pcheck c = true.
Proof. intros [steps]. apply hist_bridge. intros i v []. Qed.
