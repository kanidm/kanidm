(* The exact acceptance condition of validate (accept_iff); what the stored-state operations preserve
   over arbitrary histories (revoked session records, revoked keys, absent API records); soundness of
   the run-time tie (hist_agree_pcheck). *)
From Coq Require Import List NArith Bool.
Import ListNotations.
Require Import KV.C32.Model.
Open Scope N_scope.
Arguments N.add : simpl never.
Arguments N.ltb : simpl never.
Arguments N.leb : simpl never.
Arguments N.eqb : simpl never.
Arguments N.sub : simpl never.
Arguments GRACE : simpl never.

Lemma lookup_upd {A} k k' (f : A -> A) l :
  lookup k' (upd k f l) = if k' =? k then option_map f (lookup k' l) else lookup k' l.
Proof.
  induction l as [|[k2 v] r IH]; cbn [upd lookup]; [destruct (k' =? k); reflexivity|].
  destruct (N.eqb_spec k k2) as [<-|Hk]; cbn [lookup].
  - destruct (k' =? k); reflexivity.
  - rewrite IH. destruct (N.eqb_spec k' k2) as [->|]; [|reflexivity].
    destruct (N.eqb_spec k2 k); [congruence|reflexivity].
Qed.

Lemma lookup_del {A} k k' (l : list (N * A)) :
  lookup k' (del k l) = if k' =? k then None else lookup k' l.
Proof.
  induction l as [|[k2 v] r IH]; cbn [del lookup]; [destruct (k' =? k); reflexivity|].
  destruct (N.eqb_spec k k2) as [<-|Hk]; cbn [lookup]; rewrite IH.
  - destruct (k' =? k); reflexivity.
  - destruct (N.eqb_spec k' k2) as [->|]; [|reflexivity].
    destruct (N.eqb_spec k2 k); [congruence|reflexivity].
Qed.

Lemma lookup_app {A} k (l l' : list (N * A)) :
  lookup k (l ++ l') = match lookup k l with Some v => Some v | None => lookup k l' end.
Proof.
  induction l as [|[k' w] r IH]; cbn [lookup app]; [reflexivity|].
  destruct (k =? k'); [reflexivity|exact IH].
Qed.

Lemma lookup_map_snd {A} (h : A -> A) k (l : list (N * A)) :
  lookup k (map (fun p => (fst p, h (snd p))) l) = option_map h (lookup k l).
Proof.
  induction l as [|[k' w] r IH]; cbn [lookup map fst snd]; [reflexivity|].
  destruct (k =? k'); [reflexivity|exact IH].
Qed.

Lemma lookup_In {A} k (l : list (N * A)) v : lookup k l = Some v -> In (k, v) l.
Proof.
  induction l as [|[k' w] r IH]; cbn [lookup]; [discriminate|].
  destruct (N.eqb_spec k k') as [<-|_]; [intros [= <-]; left; reflexivity|right; auto].
Qed.

Lemma has_true {A} k (l : list (N * A)) : has k l = true <-> exists v, lookup k l = Some v.
Proof.
  unfold has. destruct (lookup k l) as [v|]; split.
  - intros _. exists v. reflexivity.
  - reflexivity.
  - discriminate.
  - intros [v [=]].
Qed.
Lemma has_false {A} k (l : list (N * A)) : has k l = false <-> lookup k l = None.
Proof. unfold has. destruct (lookup k l); split; intros H; try discriminate; reflexivity. Qed.

Lemma memN_In k l : memN k l = true <-> In k l.
Proof.
  unfold memN. rewrite existsb_exists. split.
  - intros [x [Hi ->%N.eqb_eq]]. exact Hi.
  - intros Hi. exists k. split; [exact Hi|apply N.eqb_refl].
Qed.

Lemma mem2_In a s l : mem2 a s l = true <-> In (a, s) l.
Proof.
  unfold mem2. rewrite existsb_exists. split.
  - intros [[x y] [Hi [->%N.eqb_eq ->%N.eqb_eq]%andb_true_iff]]. exact Hi.
  - intros Hi. exists (a, s). split; [exact Hi|]. cbn [fst snd]. rewrite !N.eqb_refl. reflexivity.
Qed.

Definition SigValid (st : state) (g : sig) : Prop :=
  g_foreign g = false /\ g_sigok g = true /\ ~ In (g_kid g) (revoked st).

Definition Within (ct : N) (vf ex : option N) : Prop :=
  (forall v, vf = Some v -> v <= ct) /\ (forall x, ex = Some x -> ct <= x).

(* the record's expiry must equal the token's; SessLive_iff is the one-line form *)
Definition SessLive (ac : acct) (sid : N) (exp : option N) : Prop :=
  exists c, (exists e, lookup sid (a_sess ac) = Some (mksess (SExpires e) c) /\ exp = Some e)
         \/ (lookup sid (a_sess ac) = Some (mksess SNever c) /\ exp = None).

Definition Accept (st : state) (ct : N) (t : token) (a s : N) : Prop :=
  match t with
  | TUat g ta sid exp iat =>
      ta = a /\ sid = s /\ SigValid st g /\ (forall e, exp = Some e -> ct <= e) /\
      exists ac, live_acct st a = Some ac /\ Within ct (a_vf ac) (a_ex ac) /\
        (a = ANON \/ SessLive ac sid exp \/ (lookup sid (a_sess ac) = None /\ ct < iat + GRACE))
  | TApi g ta tid exp iat =>
      ta = a /\ tid = s /\ SigValid st g /\ (forall e, exp = Some e -> ct < e) /\
      exists ac, live_acct st a = Some ac /\ Within ct (a_vf ac) (a_ex ac) /\
        ((exists e, lookup tid (a_api ac) = Some e) \/ ct < iat + GRACE)
  | TApiC g tid =>
      tid = s /\ SigValid st g /\
      exists ac exp, find_api tid (accts st) = Some (a, ac, exp) /\
        (forall e, exp = Some e -> ct < e) /\ Within ct (a_vf ac) (a_ex ac)
  end.

Lemma sig_ok_iff st g : sig_ok st g = true <-> SigValid st g.
Proof.
  unfold sig_ok, SigValid. rewrite <- memN_In, not_true_iff_false. split.
  - intros [[->%negb_true_iff ->]%andb_prop ->%negb_true_iff]%andb_prop. auto.
  - intros (-> & -> & ->). reflexivity.
Qed.

(* a bound that applies only when it is set (v is the answer when it is not): the shape of the validity
   window and of both expiry tests *)
Lemma opt_bound_iff (o : option N) (b : N -> bool) (v : bool) (P : N -> Prop) :
  (forall x, b x = v <-> P x) ->
  (match o with Some x => b x | None => v end = v <-> forall x, o = Some x -> P x).
Proof.
  intros H. destruct o as [y|]; [rewrite H|]; split; intros H1.
  - intros x [= <-]. exact H1.
  - apply H1. reflexivity.
  - discriminate.
  - reflexivity.
Qed.

Lemma within_iff ct vf ex : within ct vf ex = true <-> Within ct vf ex.
Proof.
  unfold within, Within. rewrite andb_true_iff.
  rewrite (opt_bound_iff vf _ true (fun v => v <= ct)) by (intros v; apply N.leb_le).
  rewrite (opt_bound_iff ex _ true (fun x => ct <= x)) by (intros x; apply N.leb_le).
  reflexivity.
Qed.

Lemma uat_expired_iff exp ct : uat_expired exp ct = false <-> (forall e, exp = Some e -> ct <= e).
Proof. apply opt_bound_iff. intros e. apply N.ltb_ge. Qed.

Lemma api_expired_iff exp ct : api_expired exp ct = false <-> (forall e, exp = Some e -> ct < e).
Proof. apply opt_bound_iff. intros e. apply N.leb_gt. Qed.

Lemma SessLive_iff ac sid exp :
  SessLive ac sid exp <-> exists c, lookup sid (a_sess ac) = Some (mksess (new_state exp) c).
Proof.
  split.
  - intros [c [(e & H & ->)|[H ->]]]; exists c; exact H.
  - intros [c H]. exists c. destruct exp as [e|]; [left; exists e|right]; auto.
Qed.

Lemma sess_ok_iff ct ac sid exp iat :
  sess_ok ct ac sid exp iat = true <->
  (SessLive ac sid exp \/ (lookup sid (a_sess ac) = None /\ ct < iat + GRACE)).
Proof.
  rewrite SessLive_iff. unfold sess_ok. destruct (lookup sid (a_sess ac)) as [[stt c]|].
  - cbn [ss_state]. transitivity (stt = new_state exp).
    + destruct stt, exp; cbn [new_state]; rewrite ?N.eqb_eq; split; congruence.
    + split; [intros ->; left; exists c; reflexivity|intros [[c' [= -> _]]|[[=] _]]; reflexivity].
  - rewrite N.ltb_lt. split; [intros H; right; auto|intros [[c [=]]|[_ H]]; exact H].
Qed.

Lemma check_uat_iff ct ac a sid exp iat :
  check_uat ct ac a sid exp iat = true <->
  Within ct (a_vf ac) (a_ex ac) /\
  (a = ANON \/ SessLive ac sid exp \/ (lookup sid (a_sess ac) = None /\ ct < iat + GRACE)).
Proof.
  unfold check_uat. rewrite andb_true_iff, orb_true_iff, within_iff, N.eqb_eq, sess_ok_iff. reflexivity.
Qed.

Lemma check_api_iff ct ac tid iat :
  check_api ct ac tid iat = true <->
  Within ct (a_vf ac) (a_ex ac) /\ ((exists e, lookup tid (a_api ac) = Some e) \/ ct < iat + GRACE).
Proof.
  unfold check_api. rewrite andb_true_iff, orb_true_iff, within_iff, has_true, N.ltb_lt. reflexivity.
Qed.

Theorem accept_iff st ct t a s : validate st ct t = RIdent a s <-> Accept st ct t a s.
Proof.
  destruct t as [g ta sid exp iat|g ta tid exp iat|g tid]; cbn [validate Accept]; split.
  - (* user auth token *)
    destruct (sig_ok st g) eqn:Es; [|discriminate]. apply sig_ok_iff in Es.
    destruct (uat_expired exp ct) eqn:Ee; [discriminate|]. rewrite uat_expired_iff in Ee.
    destruct (live_acct st ta) as [ac|] eqn:El; [|discriminate].
    destruct (check_uat ct ac ta sid exp iat) eqn:Ec; [|discriminate]. apply check_uat_iff in Ec.
    intros [= <- <-]. eauto 8.
  - intros (-> & -> & Hs%sig_ok_iff & He%uat_expired_iff & ac & -> & Hc%check_uat_iff).
    rewrite Hs, He, Hc. reflexivity.
  - (* API token, JSON form *)
    destruct (sig_ok st g) eqn:Es; [|discriminate]. apply sig_ok_iff in Es.
    destruct (api_expired exp ct) eqn:Ee; [discriminate|]. rewrite api_expired_iff in Ee.
    destruct (live_acct st ta) as [ac|] eqn:El; [|discriminate].
    destruct (check_api ct ac tid iat) eqn:Ec; [|discriminate]. apply check_api_iff in Ec.
    intros [= <- <-]. eauto 8.
  - intros (-> & -> & Hs%sig_ok_iff & He%api_expired_iff & ac & -> & Hc%check_api_iff).
    rewrite Hs, He, Hc. reflexivity.
  - (* API token, compact form *)
    destruct (sig_ok st g) eqn:Es; [|discriminate]. apply sig_ok_iff in Es.
    destruct (find_api tid (accts st)) as [[[a' ac] exp]|]; [|discriminate].
    destruct (api_expired exp ct) eqn:Ee; [discriminate|]. rewrite api_expired_iff in Ee.
    destruct (within ct (a_vf ac) (a_ex ac)) eqn:Ew; [|discriminate]. apply within_iff in Ew.
    intros [= <- <-]. eauto 8.
  - intros (-> & Hs%sig_ok_iff & ac & exp & -> & He%api_expired_iff & Hw%within_iff).
    rewrite Hs, He, Hw. reflexivity.
Qed.

Lemma not_accepted st ct t : (forall a s, ~ Accept st ct t a s) -> is_ident (validate st ct t) = false.
Proof.
  intros H. destruct (validate st ct t) as [a s| | |] eqn:E; try reflexivity.
  apply accept_iff in E. destruct (H a s E).
Qed.

Lemma uat_needs_session st ct g a sid exp iat :
  a <> ANON -> (forall ac, live_acct st a = Some ac -> sess_ok ct ac sid exp iat = false) ->
  is_ident (validate st ct (TUat g a sid exp iat)) = false.
Proof.
  intros Hne H. apply not_accepted.
  intros a' s' (<- & _ & _ & _ & ac & El & _ & [Ha|Hd%sess_ok_iff]); [contradiction|].
  rewrite (H ac El) in Hd. discriminate.
Qed.

(* jws_verify comes first for every token form *)
Lemma validate_bad_sig st ct t : sig_ok st (tok_sig t) = false -> validate st ct t = RNotAuth.
Proof. destruct t; cbn [tok_sig validate]; intros ->; reflexivity. Qed.

Lemma find_api_sound tid l a ac e :
  find_api tid l = Some (a, ac, e) ->
  In (a, ac) l /\ a_live ac = true /\ lookup tid (a_api ac) = Some e.
Proof.
  induction l as [|[a' ac'] r IH]; cbn [find_api]; [discriminate|].
  destruct (a_live ac') eqn:El; [destruct (lookup tid (a_api ac')) as [e'|] eqn:Ek|].
  - intros [= <- <- <-]. split; [left; reflexivity|auto].
  - intros (H1 & H2)%IH. split; [right; exact H1|exact H2].
  - intros (H1 & H2)%IH. split; [right; exact H1|exact H2].
Qed.

Lemma find_api_none tid l :
  (forall a ac, In (a, ac) l -> a_live ac = true -> lookup tid (a_api ac) = None) -> find_api tid l = None.
Proof.
  induction l as [|[a' ac'] r IH]; intros H; cbn [find_api]; [reflexivity|].
  rewrite IH by (intros a ac Hi; apply (H a); right; exact Hi).
  destruct (a_live ac') eqn:El; [|reflexivity]. rewrite (H a' ac' (or_introl eq_refl) El). reflexivity.
Qed.

Lemma live_acct_some st a ac : live_acct st a = Some ac -> lookup a (accts st) = Some ac /\ a_live ac = true.
Proof.
  unfold live_acct. destruct (lookup a (accts st)) as [ac'|]; [|discriminate].
  destruct (a_live ac') eqn:E; [|discriminate]. intros [= <-]. auto.
Qed.

Lemma run_invariant (P : state -> Prop) ops :
  (forall st o, In o ops -> P st -> P (fst (step st o))) -> forall st, P st -> P (run st ops).
Proof.
  induction ops as [|o r IH]; intros Hstep st H; [exact H|]. cbn [run fold_left].
  apply IH; [intros st' o' Hi; apply Hstep; right; exact Hi|].
  apply Hstep; [left; reflexivity|exact H].
Qed.

Definition keeps (P : acct -> Prop) (f : acct -> acct) : Prop := forall ac, P ac -> P (f ac).

Lemma keeps_touch P ct f : keeps P (cleanup ct) -> keeps P f -> keeps P (touch ct f).
Proof. intros Hc Hf ac H. unfold touch. destruct (a_live ac); [apply Hc, Hf|]; exact H. Qed.

(* a modify is the change f, then the plugin (cleanup) *)
Lemma on_acct_touch_live st ct a f ac :
  live_acct st a = Some ac -> lookup a (accts (on_acct st a (touch ct f))) = Some (cleanup ct (f ac)).
Proof.
  intros [Hl Hlive]%live_acct_some. cbn [on_acct accts]. rewrite lookup_upd, N.eqb_refl, Hl.
  cbn [option_map]. unfold touch. rewrite Hlive. reflexivity.
Qed.

Definition acct_rev (ac : acct) (s : N) : Prop :=
  exists c, lookup s (a_sess ac) = Some (mksess SRevoked c).
Definition sess_revoked (st : state) (a s : N) : Prop :=
  exists ac, lookup a (accts st) = Some ac /\ acct_rev ac s.

Lemma lookup_cleanup ct ac s :
  lookup s (a_sess (cleanup ct ac)) = option_map (clean_sess ct (a_creds ac)) (lookup s (a_sess ac)).
Proof. apply lookup_map_snd. Qed.

(* SessionConsistency: when the plugin revokes a session *)
Lemma clean_sess_revokes ct creds x :
  ss_state x = SRevoked \/ ~ In (ss_cred x) creds \/ (exists e, ss_state x = SExpires e /\ e <= ct) ->
  clean_sess ct creds x = revoke_sess x.
Proof.
  unfold clean_sess, revoke_sess. destruct x as [stt c]. cbn [ss_state ss_cred].
  intros [->|[Hn|(e & -> & He%N.leb_le)]].
  - reflexivity.
  - rewrite <- memN_In in Hn. apply not_true_is_false in Hn. rewrite Hn. destruct stt; reflexivity.
  - rewrite He. destruct (memN c creds); reflexivity.
Qed.

Lemma touch_revokes st ct a f ac s x :
  live_acct st a = Some ac -> lookup s (a_sess (f ac)) = Some x ->
  ss_state x = SRevoked \/ ~ In (ss_cred x) (a_creds (f ac)) \/ (exists e, ss_state x = SExpires e /\ e <= ct) ->
  sess_revoked (on_acct st a (touch ct f)) a s.
Proof.
  intros El Hs Hx. exists (cleanup ct (f ac)). split; [apply on_acct_touch_live; exact El|].
  exists (ss_cred x). rewrite lookup_cleanup, Hs. cbn [option_map].
  rewrite (clean_sess_revokes _ _ _ Hx). reflexivity.
Qed.

Lemma revoke_op_revokes st ct a s ok :
  sess_present st a s = true -> sess_revoked (fst (step st (ORevoke ct a s ok))) a s.
Proof.
  intros Hp. cbn [step]. rewrite Hp. cbn [fst]. unfold sess_present in Hp.
  destruct (live_acct st a) as [ac|] eqn:El; [|discriminate]. apply has_true in Hp as [x Hs].
  eapply touch_revokes; [exact El| |].
  - cbn [set_sess a_sess]. rewrite lookup_upd, N.eqb_refl, Hs. reflexivity.
  - left. reflexivity.
Qed.

Lemma setcreds_revokes st ct a creds ac s x :
  live_acct st a = Some ac -> lookup s (a_sess ac) = Some x -> ~ In (ss_cred x) creds ->
  sess_revoked (fst (step st (OSetCreds ct a creds))) a s.
Proof.
  intros El Hs Hn. cbn [step fst]. eapply touch_revokes; [exact El|exact Hs|]. right. left. exact Hn.
Qed.

(* stated for a validity window edit; touch_revokes gives it for every modify *)
Lemma expired_session_revoked_on_touch st ct' a vf ex ac s e c :
  live_acct st a = Some ac -> lookup s (a_sess ac) = Some (mksess (SExpires e) c) -> e <= ct' ->
  sess_revoked (fst (step st (OWindow ct' a vf ex))) a s.
Proof.
  intros El Hs He. cbn [step fst]. eapply touch_revokes; [exact El|exact Hs|]. right. right. exists e. auto.
Qed.

Lemma rev_cleanup ct s : keeps (fun ac => acct_rev ac s) (cleanup ct).
Proof. intros ac [c H]. exists c. rewrite lookup_cleanup, H. reflexivity. Qed.

Lemma rev_same_sess f s : (forall ac, a_sess (f ac) = a_sess ac) -> keeps (fun ac => acct_rev ac s) f.
Proof. intros H ac [c Hc]. exists c. rewrite H. exact Hc. Qed.

Lemma on_acct_rev st a' f a s :
  keeps (fun ac => acct_rev ac s) f -> sess_revoked st a s -> sess_revoked (on_acct st a' f) a s.
Proof.
  intros Hf (ac & Hl & Hr). unfold sess_revoked. cbn [on_acct accts]. rewrite lookup_upd, Hl.
  destruct (a =? a'); [exists (f ac)|exists ac]; split; try reflexivity; [apply Hf|]; exact Hr.
Qed.

Lemma step_keeps_revoked st o a s : sess_revoked st a s -> sess_revoked (fst (step st o)) a s.
Proof.
  intros H.
  assert (T : forall ct a' f, keeps (fun ac => acct_rev ac s) f -> sess_revoked (on_acct st a' (touch ct f)) a s).
  { intros ct a' f Hf. apply on_acct_rev; [apply keeps_touch; [apply rev_cleanup|exact Hf]|exact H]. }
  destruct o as [a' creds|a'|ct a' sid cred exp|ct a' sid ok|ct a' creds|ct a' vf ex|ct a' tid exp|ct a' tid ok|k];
    cbn [step].
  - destruct (has a' (accts st)); [exact H|]. destruct H as (ac & Hl & Hr).
    exists ac. split; [|exact Hr]. cbn [fst accts]. rewrite lookup_app, Hl. reflexivity.
  - apply on_acct_rev; [apply rev_same_sess; reflexivity|exact H].
  - (* insert_checked only fills a vacant key *)
    apply T. intros ac [c Hc]. exists c. destruct (has sid (a_sess ac)); [exact Hc|].
    cbn [set_sess a_sess]. rewrite lookup_app, Hc. reflexivity.
  - destruct (sess_present st a' sid); [|exact H].
    apply T. intros ac [c Hc]. unfold acct_rev. cbn [set_sess a_sess]. rewrite lookup_upd, Hc.
    destruct (s =? sid); exists c; reflexivity.
  - apply T, rev_same_sess. reflexivity.
  - apply T, rev_same_sess. reflexivity.
  - apply T, rev_same_sess. intros ac. destruct (has tid (a_api ac)); reflexivity.
  - destruct (api_present st a' tid); [|exact H]. apply T, rev_same_sess. reflexivity.
  - exact H.
Qed.

Lemma run_keeps_revoked ops st a s : sess_revoked st a s -> sess_revoked (run st ops) a s.
Proof. apply (run_invariant (fun st => sess_revoked st a s)). intros st' o _. apply step_keeps_revoked. Qed.

Lemma revoked_rejected st a s ct g exp iat :
  sess_revoked st a s -> a <> ANON -> is_ident (validate st ct (TUat g a s exp iat)) = false.
Proof.
  intros (ac & Hl & c & Hc) Hne. apply uat_needs_session; [exact Hne|].
  intros ac' [Hl' _]%live_acct_some. rewrite Hl in Hl'. injection Hl' as <-.
  unfold sess_ok. rewrite Hc. reflexivity.
Qed.

Lemma step_revoked st o :
  revoked (fst (step st o)) = match o with OKeyRevoke k => k :: revoked st | _ => revoked st end.
Proof.
  destruct o as [a ?|?|? ? ? ? ?|? a sid ?|? ? ?|? ? ? ?|? ? ? ?|? a tid ?|?]; cbn [step]; try reflexivity.
  - destruct (has a (accts st)); reflexivity.
  - destruct (sess_present st a sid); reflexivity.
  - destruct (api_present st a tid); reflexivity.
Qed.

Lemma step_keeps_key st o k : In k (revoked st) -> In k (revoked (fst (step st o))).
Proof. intros H. rewrite step_revoked. destruct o; try exact H. right. exact H. Qed.

Lemma run_keeps_key ops st k : In k (revoked st) -> In k (revoked (run st ops)).
Proof. apply (run_invariant (fun st => In k (revoked st))). intros st' o _. apply step_keeps_key. Qed.

Lemma key_revoked_rejected st ct t :
  In (g_kid (tok_sig t)) (revoked st) -> validate st ct t = RNotAuth.
Proof.
  intros H%memN_In. apply validate_bad_sig. unfold sig_ok. rewrite H. apply andb_false_r.
Qed.

(* API records: absent stays absent until the same id is issued again on that account *)
Definition api_absent_on (st : state) (a tid : N) : Prop :=
  forall ac, lookup a (accts st) = Some ac -> lookup tid (a_api ac) = None.

Definition issues (a tid : N) (o : op) : Prop :=
  match o with OApiIssue _ a' tid' _ => a' = a /\ tid' = tid | _ => False end.

Lemma absent_same_api tid f :
  (forall ac, a_api (f ac) = a_api ac) -> keeps (fun ac => lookup tid (a_api ac) = None) f.
Proof. intros H ac Hn. rewrite H. exact Hn. Qed.

Lemma on_acct_absent st a' f a tid :
  (a' = a -> keeps (fun ac => lookup tid (a_api ac) = None) f) ->
  api_absent_on st a tid -> api_absent_on (on_acct st a' f) a tid.
Proof.
  intros Hf H ac. cbn [on_acct accts]. rewrite lookup_upd.
  destruct (N.eqb_spec a a') as [<-|_]; [|apply H].
  destruct (lookup a (accts st)) as [ac0|] eqn:E; [|discriminate].
  intros [= <-]. apply Hf; [reflexivity|]. apply H. exact E.
Qed.

Lemma step_keeps_absent st o a tid :
  ~ issues a tid o -> api_absent_on st a tid -> api_absent_on (fst (step st o)) a tid.
Proof.
  intros Hni H.
  assert (T : forall ct a' f, (a' = a -> keeps (fun ac => lookup tid (a_api ac) = None) f) ->
                api_absent_on (on_acct st a' (touch ct f)) a tid).
  { intros ct a' f Hf. apply on_acct_absent; [|exact H].
    intros E. apply keeps_touch; [apply absent_same_api; reflexivity|exact (Hf E)]. }
  destruct o as [a' creds|a'|ct a' sid cred exp|ct a' sid ok|ct a' creds|ct a' vf ex|ct a' tid' exp|ct a' tid' ok|k];
    cbn [step].
  - (* a new entry has no API records *)
    destruct (has a' (accts st)); [exact H|]. intros ac. cbn [fst accts]. rewrite lookup_app.
    destruct (lookup a (accts st)) as [ac0|] eqn:E; [intros [= <-]; apply H; exact E|].
    cbn [lookup]. destruct (a =? a'); [intros [= <-]; reflexivity|discriminate].
  - apply on_acct_absent; [|exact H]. intros _. apply absent_same_api. reflexivity.
  - apply T. intros _. apply absent_same_api. intros ac. destruct (has sid (a_sess ac)); reflexivity.
  - destruct (sess_present st a' sid); [|exact H]. apply T. intros _. apply absent_same_api. reflexivity.
  - apply T. intros _. apply absent_same_api. reflexivity.
  - apply T. intros _. apply absent_same_api. reflexivity.
  - (* issues another id, or on another account *)
    apply T. intros -> ac Hn. destruct (has tid' (a_api ac)); [exact Hn|]. cbn [set_api a_api].
    rewrite lookup_app, Hn. cbn [lookup]. destruct (N.eqb_spec tid tid') as [<-|_]; [|reflexivity].
    destruct Hni. split; reflexivity.
  - destruct (api_present st a' tid'); [|exact H]. apply T. intros _ ac Hn. cbn [set_api a_api].
    rewrite lookup_del, Hn. destruct (tid =? tid'); reflexivity.
  - exact H.
Qed.

Lemma run_keeps_absent ops st a tid :
  Forall (fun o => ~ issues a tid o) ops -> api_absent_on st a tid -> api_absent_on (run st ops) a tid.
Proof.
  intros Hf. apply (run_invariant (fun st => api_absent_on st a tid)).
  intros st' o Hi. apply step_keeps_absent. exact (proj1 (Forall_forall _ _) Hf o Hi).
Qed.

Lemma absent_rejected st a tid ct g exp iat :
  api_absent_on st a tid -> iat + GRACE <= ct -> is_ident (validate st ct (TApi g a tid exp iat)) = false.
Proof.
  intros H Hg. apply not_accepted.
  intros a' s' (<- & _ & _ & _ & ac & [Hl _]%live_acct_some & _ & [[e He]|Hlt%N.lt_nge]); [|contradiction].
  rewrite (H ac Hl) in He. discriminate.
Qed.

Lemma destroy_makes_absent st ct a tid ok :
  api_present st a tid = true -> api_absent_on (fst (step st (OApiDestroy ct a tid ok))) a tid.
Proof.
  intros Hp. cbn [step]. rewrite Hp. cbn [fst]. unfold api_present in Hp.
  destruct (live_acct st a) as [ac|] eqn:El; [|discriminate].
  intros ac'. rewrite (on_acct_touch_live _ _ _ _ _ El). intros [= <-].
  cbn [cleanup set_sess set_api a_api]. rewrite lookup_del, N.eqb_refl. reflexivity.
Qed.

Lemma optN_eqb_eq x y : optN_eqb x y = true -> x = y.
Proof. destruct x, y; cbn [optN_eqb]; try discriminate; [intros ->%N.eqb_eq|]; reflexivity. Qed.
Lemma sstate_eqb_eq x y : sstate_eqb x y = true -> x = y.
Proof. destruct x, y; cbn [sstate_eqb]; try discriminate; try reflexivity. intros ->%N.eqb_eq. reflexivity. Qed.
Lemma snap_eqb_eq x y : snap_eqb x y = true -> x = y.
Proof.
  destruct x as [o1 v1 e1 s1 a1], y as [o2 v2 e2 s2 a2]. unfold snap_eqb.
  cbn [sn_owner sn_vf sn_ex sn_sess sn_api].
  intros [[[[H1%optN_eqb_eq H2%optN_eqb_eq]%andb_prop H3%optN_eqb_eq]%andb_prop H4]%andb_prop H5]%andb_prop.
  f_equal; try assumption.
  - destruct s1, s2; try discriminate; [f_equal; apply sstate_eqb_eq; exact H4|reflexivity].
  - destruct a1, a2; try discriminate; [f_equal; apply optN_eqb_eq; exact H5|reflexivity].
Qed.
Lemma result_eqb_ident x a s : result_eqb x (RIdent a s) = true -> x = RIdent a s.
Proof.
  destruct x; cbn [result_eqb]; try discriminate.
  intros [->%N.eqb_eq ->%N.eqb_eq]%andb_true_iff. reflexivity.
Qed.

Lemma hist_agree_op st o r :
  hist_agree st (EOp o :: r) = Bool.eqb (snd (step st o)) (op_ok o) && hist_agree (fst (step st o)) r.
Proof. cbn [hist_agree]. destruct (step st o). reflexivity. Qed.

(* the history facts pcheck collects are facts of the model state *)
Definition Inv (st : state) (rk : list N) (rs : list (N * N)) : Prop :=
  (forall k, In k rk -> In k (revoked st)) /\ (forall a s, In (a, s) rs -> sess_revoked st a s).

Lemma inv_step st rk rs o : Inv st rk rs -> Inv (fst (step st o)) rk rs.
Proof.
  intros [H1 H2]. split.
  - intros k Hk. apply step_keeps_key, H1, Hk.
  - intros a s Hs. apply step_keeps_revoked, H2, Hs.
Qed.

Lemma accepted_ok_of_model st rk rs ct t a s :
  Inv st rk rs -> validate st ct t = RIdent a s -> accepted_ok rk rs ct t (model_snap st t) a s = true.
Proof.
  intros [Hk Hs] Hv. pose proof (proj1 (accept_iff _ _ _ _ _) Hv) as Ha.
  assert (Hrk : forall g, SigValid st g -> negb (g_foreign g) && g_sigok g && negb (memN (g_kid g) rk) = true).
  { intros g (-> & -> & H3). cbn [negb andb]. apply negb_true_iff, not_true_is_false.
    intros E%memN_In%Hk. contradiction. }
  unfold accepted_ok.
  destruct t as [g ta sid exp iat|g ta tid exp iat|g tid]; cbn [Accept tok_sig model_snap] in *.
  - destruct Ha as (-> & -> & Hsig & Hexp & ac & El & Hw%within_iff & Hd).
    rewrite (Hrk g Hsig), El. cbn [snap_of_acct sn_owner sn_vf sn_ex sn_sess optN_eqb].
    rewrite !N.eqb_refl, Hw, (proj2 (opt_bound_iff exp _ true _ (N.leb_le ct)) Hexp).
    cbn [andb]. destruct (N.eqb_spec a ANON) as [|Hne]; [reflexivity|]. cbn [orb].
    (* a logout seen earlier in the history left the record revoked: the model would not accept *)
    replace (mem2 a s rs) with false.
    2:{ symmetry. apply not_true_is_false. intros E%mem2_In%Hs.
        pose proof (revoked_rejected st a s ct g exp iat E Hne) as Hr. rewrite Hv in Hr. discriminate. }
    cbn [negb andb]. rewrite SessLive_iff in Hd.
    destruct Hd as [Hd|[[c ->]|[-> Hd]]]; [contradiction| |apply N.ltb_lt, Hd].
    cbn [ss_state]. destruct exp; [apply N.eqb_refl|reflexivity].
  - destruct Ha as (-> & -> & Hsig & Hexp & ac & El & Hw%within_iff & Hd).
    rewrite (Hrk g Hsig), El. cbn [snap_of_acct sn_owner sn_vf sn_ex sn_api optN_eqb].
    rewrite !N.eqb_refl, Hw, (proj2 (opt_bound_iff exp _ true _ (N.ltb_lt ct)) Hexp). cbn [andb].
    destruct Hd as [[e ->]|Hd]; [reflexivity|].
    destruct (lookup s (a_api ac)); [reflexivity|apply N.ltb_lt, Hd].
  - destruct Ha as (-> & Hsig & ac & exp & Hf & Hexp & Hw%within_iff).
    rewrite (Hrk g Hsig), Hf. cbn [snap_of_acct sn_owner sn_vf sn_ex sn_api optN_eqb].
    rewrite !N.eqb_refl, Hw. cbn [andb].
    apply find_api_sound in Hf as (_ & _ & ->). apply (opt_bound_iff exp _ true _ (N.ltb_lt ct)), Hexp.
Qed.

(* what hist_pcheck remembers of an operation: the revoked key, the logout that found its record *)
Definition seen_keys (o : op) (rk : list N) : list N :=
  match o with OKeyRevoke k => k :: rk | _ => rk end.
Definition seen_logouts (o : op) (rs : list (N * N)) : list (N * N) :=
  match o with ORevoke _ a s true => (a, s) :: rs | _ => rs end.

Lemma hist_pcheck_op rk rs o r :
  hist_pcheck rk rs (EOp o :: r) = hist_pcheck (seen_keys o rk) (seen_logouts o rs) r.
Proof. destruct o as [| | |? ? ? []| | | | |]; reflexivity. Qed.

Lemma inv_op st rk rs o :
  Inv st rk rs -> snd (step st o) = op_ok o -> Inv (fst (step st o)) (seen_keys o rk) (seen_logouts o rs).
Proof.
  intros HI Hok. destruct (inv_step st rk rs o HI) as [H1 H2]. split.
  - intros k Hk. destruct o; try exact (H1 k Hk).
    destruct Hk as [<-|Hk]; [left; reflexivity|exact (H1 k Hk)].
  - intros a s Hin. destruct o as [| | |ct a' sid [|]| | | | |]; try exact (H2 a s Hin).
    destruct Hin as [[= <- <-]|Hin]; [|exact (H2 a s Hin)].
    (* the model found the record as well *)
    apply revoke_op_revokes. cbn [step op_ok] in Hok.
    destruct (sess_present st a' sid); [reflexivity|discriminate].
Qed.

Lemma hist_agree_pcheck evs : forall st rk rs,
  Inv st rk rs -> hist_agree st evs = true -> hist_pcheck rk rs evs = true.
Proof.
  induction evs as [|e r IH]; intros st rk rs HI Hag; [reflexivity|].
  destruct e as [o|ct t sn res].
  - rewrite hist_agree_op in Hag. apply andb_true_iff in Hag as [Hok%eqb_prop Hag].
    rewrite hist_pcheck_op. exact (IH _ _ _ (inv_op _ _ _ _ HI Hok) Hag).
  - cbn [hist_agree] in Hag.
    apply andb_true_iff in Hag as [[<-%snap_eqb_eq Hres]%andb_true_iff Hag].
    specialize (IH _ _ _ HI Hag).
    destruct res as [a s| | |]; cbn [hist_pcheck]; try exact IH.
    + apply result_eqb_ident in Hres. rewrite (accepted_ok_of_model st rk rs ct t a s HI Hres). exact IH.
    + destruct (validate st ct t); discriminate.
Qed.
