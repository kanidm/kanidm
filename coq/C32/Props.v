(* Vocabulary (Model.v, Proofs.v):
     validate st ct t        the answer of validate_client_auth_info_to_ident for bearer token t at time ct
     SigValid st g           the token's key is a key of this domain, not revoked, and the signature verifies
     Within ct vf ex         valid_from <= ct <= expire (each bound only when set)
     SessLive ac sid exp     the account holds a session record sid that is not revoked and whose
                             expiry equals the token's (ExpiresAt e / Some e, or NeverExpires / None)
     run st ops              the stored state after any list of operations (account creation and
                             deletion, session records, logouts, credential changes, validity window
                             edits, API token issue / destroy, key revocation) at arbitrary times
     sess_revoked st a s     the entry of account a (live or deleted) holds session record s in state revoked
     sess_present st a s     account a is live and holds a session record s (what a logout looks for)
     api_present st a tid    account a is live and holds an API token record tid (what a destroy looks for)
     api_absent_on st a tid  the entry of account a, if there is one, holds no API token record tid
     issues a tid o          operation o is an API token issue of id tid on account a
   Account ANON is the anonymous account: its sessions are never recorded, by design. *)
From Coq Require Import List NArith Bool.
Import ListNotations.
Require Import KV.C32.Model KV.C32.Proofs.
Open Scope N_scope.

(* Exact characterisation: a bearer token is answered with an identity IF AND ONLY IF
   it is signed by a non-revoked key of the domain, has not expired, its account exists (live) and is
   inside its validity window, and
     - user auth token: the account is anonymous, or the session record is on the account, not revoked
       and with the token's expiry, or there is no record and the token is younger than the grace window;
     - API token (JSON form): its record is on the account, or the token is younger than the grace window;
     - API token (compact form): its record is on a live account (expiry taken from the record).
   The identity returned is the token's own account and session. *)
Theorem C32_accept_iff : forall st ct t a s,
  validate st ct t = RIdent a s <-> Accept st ct t a s.
Proof. exact accept_iff. Qed.

(* The property's sentence, in one statement for the three token forms (the "only if" half
   of C32_accept_iff with the account lookup spelled out). *)
Theorem C32_accepted_only_for_live_sessions : forall st ct t a s,
  validate st ct t = RIdent a s ->
  SigValid st (tok_sig t) /\
  exists ac, In (a, ac) (accts st) /\ a_live ac = true /\ Within ct (a_vf ac) (a_ex ac) /\
    match t with
    | TUat _ ta sid exp iat =>
        ta = a /\ sid = s /\ (forall e, exp = Some e -> ct <= e) /\
        (a = ANON \/ SessLive ac sid exp \/ (lookup sid (a_sess ac) = None /\ ct < iat + GRACE))
    | TApi _ ta tid exp iat =>
        ta = a /\ tid = s /\ (forall e, exp = Some e -> ct < e) /\
        ((exists e, lookup tid (a_api ac) = Some e) \/ ct < iat + GRACE)
    | TApiC _ tid =>
        tid = s /\ exists exp, lookup tid (a_api ac) = Some exp /\ (forall e, exp = Some e -> ct < e)
    end.
Proof.
  intros st ct t a s Hv. apply accept_iff in Hv.
  destruct t as [g ta sid exp iat|g ta tid exp iat|g tid]; cbn [Accept tok_sig] in *.
  - destruct Hv as (H1 & H2 & H3 & H4 & ac & [Hi%lookup_In Hl]%live_acct_some & H6 & H7). eauto 10.
  - destruct Hv as (H1 & H2 & H3 & H4 & ac & [Hi%lookup_In Hl]%live_acct_some & H6 & H7). eauto 10.
  - destruct Hv as (H1 & H3 & ac & exp & (Hi & Hl & Hk)%find_api_sound & H4 & H6). eauto 10.
Qed.

(* A revoked session stays rejected: once the record of session s on a (non-anonymous) account is
   revoked, no later history of operations, no presentation time (not even inside the grace window),
   no key and no token expiry makes a user auth token of that session acceptable again. *)
Theorem C32_revoked_session_rejected_forever : forall st a s,
  sess_revoked st a s -> a <> ANON ->
  forall ops ct g exp iat, is_ident (validate (run st ops) ct (TUat g a s exp iat)) = false.
Proof.
  intros st a s H Hne ops ct g exp iat. apply revoked_rejected; [|exact Hne].
  apply run_keeps_revoked. exact H.
Qed.

(* Logout is final: after account_destroy_session_token found the session record, the session's
   tokens are rejected for ever. *)
Theorem C32_logout_is_final : forall st t0 a s ok,
  sess_present st a s = true -> a <> ANON ->
  forall ops ct g exp iat,
    is_ident (validate (run (fst (step st (ORevoke t0 a s ok))) ops) ct (TUat g a s exp iat)) = false.
Proof.
  intros st t0 a s ok Hp Hne. apply C32_revoked_session_rejected_forever; [|exact Hne].
  apply revoke_op_revokes. exact Hp.
Qed.

(* Credential removal is final: when a credential leaves the account, every recorded session it
   issued is rejected from then on. *)
Theorem C32_credential_removal_is_final : forall st t0 a creds ac s x,
  live_acct st a = Some ac -> lookup s (a_sess ac) = Some x -> ~ In (ss_cred x) creds -> a <> ANON ->
  forall ops ct g exp iat,
    is_ident (validate (run (fst (step st (OSetCreds t0 a creds))) ops) ct (TUat g a s exp iat)) = false.
Proof.
  intros st t0 a creds ac s x Hl Hs Hn Hne. apply C32_revoked_session_rejected_forever; [|exact Hne].
  eapply setcreds_revokes; eassumption.
Qed.

(* Key revocation is final: every token whose header names a revoked key is refused
   (NotAuthenticated), whatever happens afterwards. *)
Theorem C32_key_revocation_is_final : forall st k ops ct t,
  g_kid (tok_sig t) = k ->
  validate (run (fst (step st (OKeyRevoke k))) ops) ct t = RNotAuth.
Proof.
  intros st k ops ct t Hk. apply key_revoked_rejected. apply run_keeps_key.
  cbn [step fst revoked]. left. symmetry. exact Hk.
Qed.

(* Expired tokens are rejected in every state: a user auth token strictly after its expiry,
   an API token from its expiry on. *)
Theorem C32_expired_rejected : forall st ct g a s e iat,
  (e < ct -> is_ident (validate st ct (TUat g a s (Some e) iat)) = false) /\
  (e <= ct -> is_ident (validate st ct (TApi g a s (Some e) iat)) = false).
Proof.
  intros st ct g a s e iat. split; intros H; cbn [validate uat_expired api_expired];
    destruct (negb (sig_ok st g)); try reflexivity.
  - apply N.ltb_lt in H. rewrite H. reflexivity.
  - apply N.leb_le in H. rewrite H. reflexivity.
Qed.

(* A login whose session was never recorded is accepted only inside the grace window. *)
Theorem C32_unrecorded_after_grace_rejected : forall st ct g a sid exp iat ac,
  a <> ANON -> live_acct st a = Some ac -> lookup sid (a_sess ac) = None -> iat + GRACE <= ct ->
  is_ident (validate st ct (TUat g a sid exp iat)) = false.
Proof.
  intros st ct g a sid exp iat ac Hne El Hs Hg. apply uat_needs_session; [exact Hne|].
  intros ac' El'. rewrite El in El'. injection El' as <-.
  unfold sess_ok. rewrite Hs. apply N.ltb_ge, Hg.
Qed.

(* API tokens need their own record: while the account holds no record tid — through any history
   that does not issue that id on that account again — a JSON API token tid is rejected once the
   grace window after its issue time has passed. *)
Theorem C32_api_needs_record : forall st a tid ops,
  api_absent_on st a tid -> Forall (fun o => ~ issues a tid o) ops ->
  forall ct g exp iat, iat + GRACE <= ct ->
    is_ident (validate (run st ops) ct (TApi g a tid exp iat)) = false.
Proof.
  intros st a tid ops H Hf ct g exp iat Hg. apply absent_rejected; [|exact Hg].
  apply run_keeps_absent; assumption.
Qed.

(* Destroying an API token is final (up to the grace window of the token's own issue time). *)
Theorem C32_api_destroy_is_final : forall st t0 a tid ok ops,
  api_present st a tid = true -> Forall (fun o => ~ issues a tid o) ops ->
  forall ct g exp iat, iat + GRACE <= ct ->
    is_ident (validate (run (fst (step st (OApiDestroy t0 a tid ok))) ops) ct (TApi g a tid exp iat)) = false.
Proof.
  intros st t0 a tid ok ops Hp. apply C32_api_needs_record. apply destroy_makes_absent. exact Hp.
Qed.

(* A compact API token is refused when no account holds its record (that no live account does
   would be enough: find_api_none). *)
Theorem C32_compact_api_needs_record : forall st ct g tid,
  (forall a ac, In (a, ac) (accts st) -> lookup tid (a_api ac) = None) ->
  validate st ct (TApiC g tid) = RNotAuth.
Proof.
  intros st ct g tid H. cbn [validate]. destruct (negb (sig_ok st g)); [reflexivity|].
  rewrite find_api_none; [reflexivity|]. intros a ac Hi _. exact (H a ac Hi).
Qed.

(* Soundness of the run-time tie: whenever every answer and every read-back of the real server
   in a history agrees with the model, the property's executable predicate holds of those
   answers and read-backs. *)
Theorem C32_agree_implies_property : forall c : case, agree c = true -> pcheck c = true.
Proof.
  intros [evs]. cbn [agree pcheck]. apply hist_agree_pcheck.
  split; [intros k []|intros a s []].
Qed.
