(* Non-vacuity: concrete states, histories and tokens meeting the hypotheses of every implication
   theorem, with the acceptance BEFORE the event shown next to the rejection after it. *)
From Coq Require Import List NArith Bool.
Import ListNotations.
Require Import KV.C32.Model KV.C32.Proofs.
Open Scope N_scope.

(* anonymous (0), a person (1) with credential 7 and a recorded session 5 expiring at 1000 s,
   a service account (2) with API token 9 (no expiry) and 10 (expires at 2000 s); times in ns *)
Definition S : N := 1000000000.
Definition w_state : state :=
  run init [OCreate 0 []; OCreate 1 [7]; OCreate 2 [];
            ORecord (100 * S) 1 5 7 (Some (1000 * S));
            OApiIssue (100 * S) 2 9 None; OApiIssue (100 * S) 2 10 (Some (2000 * S))].
Definition key : sig := mksig 3 false true.
Definition w_uat : token := TUat key 1 5 (Some (1000 * S)) (100 * S).
Definition w_uat_unrecorded : token := TUat key 1 6 (Some (1000 * S)) (100 * S).
Definition w_api : token := TApi key 2 9 None (100 * S).
Definition w_apic : token := TApiC key 10.

(* the tokens are accepted in the witness state (so the rejections below are real changes) *)
Example C32_witness_accepts :
  validate w_state (500 * S) w_uat = RIdent 1 5 /\
  validate w_state (1000 * S) w_uat = RIdent 1 5 /\            (* at the expiry instant: still accepted *)
  validate w_state (1000 * S + 1) w_uat = RExpired /\
  validate w_state (500 * S) w_api = RIdent 2 9 /\
  validate w_state (500 * S) w_apic = RIdent 2 10 /\
  validate w_state (2000 * S) w_apic = RExpired /\             (* API tokens: rejected from the expiry on *)
  validate w_state (399 * S) w_uat_unrecorded = RIdent 1 6 /\  (* unrecorded, inside the grace window *)
  validate w_state (400 * S) w_uat_unrecorded = RExpired /\    (* grace end is exclusive *)
  validate w_state (500 * S) (TUat key 0 77 (Some (1000 * S)) 0) = RIdent 0 77.  (* anonymous: never recorded *)
Proof. vm_compute. repeat split; reflexivity. Qed.

(* hypotheses of C32_accept_iff / C32_accepted_only_for_live_sessions: an accepted presentation exists
   for each token form (above); and the declarative side is inhabited *)
Example C32_witness_accept_spec : Accept w_state (500 * S) w_uat 1 5.
Proof. apply accept_iff. vm_compute. reflexivity. Qed.

(* C32_logout_is_final / C32_revoked_session_rejected_forever *)
Example C32_witness_logout :
  sess_present w_state 1 5 = true /\ 1 <> ANON /\
  validate w_state (500 * S) w_uat = RIdent 1 5 /\
  validate (run (fst (step w_state (ORevoke (200 * S) 1 5 true)))
                [ORecord (300 * S) 1 5 7 (Some (1000 * S)); OSetCreds (300 * S) 1 [7]])
           (300 * S) w_uat = RExpired.
Proof. vm_compute. repeat split; try reflexivity; discriminate. Qed.

Example C32_witness_revoked_state :
  sess_revoked (fst (step w_state (ORevoke (200 * S) 1 5 true))) 1 5.
Proof. apply revoke_op_revokes. vm_compute. reflexivity. Qed.

(* C32_credential_removal_is_final *)
Example C32_witness_credential_removal :
  exists ac x, live_acct w_state 1 = Some ac /\ lookup 5 (a_sess ac) = Some x /\ ~ In (ss_cred x) [8] /\
  validate (fst (step w_state (OSetCreds (200 * S) 1 [8]))) (500 * S) w_uat = RExpired.
Proof.
  eexists. eexists. split; [vm_compute; reflexivity|]. split; [vm_compute; reflexivity|].
  split; [cbn; intros [H|[]]; discriminate|vm_compute; reflexivity].
Qed.

(* C32_key_revocation_is_final *)
Example C32_witness_key_revocation :
  g_kid (tok_sig w_uat) = 3 /\
  validate (fst (step w_state (OKeyRevoke 3))) (500 * S) w_uat = RNotAuth /\
  validate (fst (step w_state (OKeyRevoke 4))) (500 * S) w_uat = RIdent 1 5.
Proof. vm_compute. repeat split; reflexivity. Qed.

(* C32_unrecorded_after_grace_rejected *)
Example C32_witness_unrecorded :
  exists ac, 1 <> ANON /\ live_acct w_state 1 = Some ac /\ lookup 6 (a_sess ac) = None /\
             100 * S + GRACE <= 400 * S.
Proof. eexists. split; [discriminate|]. split; [vm_compute; reflexivity|]. split; vm_compute; [reflexivity|discriminate]. Qed.

(* C32_api_needs_record / C32_api_destroy_is_final / C32_compact_api_needs_record *)
Example C32_witness_api_destroy :
  api_present w_state 2 9 = true /\
  Forall (fun o => ~ issues 2 9 o) [OApiIssue (300 * S) 2 11 None; OWindow (300 * S) 2 None None] /\
  validate w_state (500 * S) w_api = RIdent 2 9 /\
  validate (run (fst (step w_state (OApiDestroy (200 * S) 2 9 true)))
                [OApiIssue (300 * S) 2 11 None; OWindow (300 * S) 2 None None]) (500 * S) w_api = RExpired /\
  (* the grace window of the token's own issue time still applies right after the destroy *)
  validate (fst (step w_state (OApiDestroy (200 * S) 2 9 true))) (399 * S) w_api = RIdent 2 9 /\
  validate (fst (step w_state (OApiDestroy (200 * S) 2 10 true))) (500 * S) w_apic = RNotAuth.
Proof.
  split; [vm_compute; reflexivity|]. split.
  - repeat constructor; cbn [issues]; [intros [_ H]; discriminate|intros []].
  - vm_compute. repeat split; reflexivity.
Qed.

(* the expiry mismatch, deleted-account, foreign-key and damaged-signature arms *)
Example C32_witness_mismatch_and_deletion :
  validate w_state (500 * S) (TUat key 1 5 (Some (1001 * S)) (100 * S)) = RExpired /\
  validate w_state (500 * S) (TUat key 1 5 None (100 * S)) = RExpired /\
  validate (fst (step w_state (ODelete 1))) (500 * S) w_uat = RExpired /\
  validate (fst (step w_state (ODelete 2))) (500 * S) w_api = RNotAuth /\
  validate w_state (500 * S) (TUat (mksig 3 true true) 1 5 (Some (1000 * S)) (100 * S)) = RNotAuth /\
  validate w_state (500 * S) (TUat (mksig 3 false false) 1 5 (Some (1000 * S)) (100 * S)) = RNotAuth.
Proof. vm_compute. repeat split; reflexivity. Qed.

(* C32_agree_implies_property: a history on which the model agrees; and pcheck is not trivially
   true — the same observations with an acceptance AFTER the logout are flagged *)
Definition w_snap (st : sstate) : snap := mksnap (Some 1) None None (Some st) None.
Definition w_hist (after_logout : result) (after_state : sstate) : case :=
  CHist [EOp (OCreate 0 []); EOp (OCreate 1 [7]);
         EOp (ORecord (100 * S) 1 5 7 (Some (1000 * S)));
         EPresent (500 * S) w_uat (w_snap (SExpires (1000 * S))) (RIdent 1 5);
         EOp (ORevoke (600 * S) 1 5 true);
         EPresent (700 * S) w_uat (w_snap after_state) after_logout].

Example C32_witness_agree :
  agree (w_hist RExpired SRevoked) = true /\ pcheck (w_hist RExpired SRevoked) = true.
Proof. vm_compute. split; reflexivity. Qed.

Example C32_witness_pcheck_flags_acceptance_after_logout :
  pcheck (w_hist (RIdent 1 5) SRevoked) = false /\
  pcheck (w_hist (RIdent 1 5) (SExpires (1000 * S))) = false /\
  agree (w_hist (RIdent 1 5) SRevoked) = false.
Proof. vm_compute. repeat split; reflexivity. Qed.
