(* C12: every stored / replicated value and entry reads back as an equivalent value with
   identical behaviour; a password verifies the same cleartexts after reload as before. *)
From Coq Require Import List NArith Bool.
Import ListNotations.
Require Import KV.C12.Model KV.C12.Proofs.
Open Scope N_scope.

(* The full sentence on the model of the current (repaired, /repo ef762e7) code: every password of
   every KDF, with any parameters / salt / hash, reads back as itself and verifies identically;
   every valueset type reads back as its own type. No class is excluded. *)
Definition C12_full_statement : Prop :=
  (forall k, reload k = Some k) /\
  (forall o k pw k', reload k = Some k' -> verify o k' pw = verify o k pw) /\
  (forall k, k <> VK_Other -> vs_reload k = Some k).
Theorem C12_full_statement_holds : C12_full_statement.
Proof. split; [exact reload_ok | split; [exact verify_stable | exact vs_reload_ok]]. Qed.

(* every password reads back as exactly the same password *)
Theorem C12_password_roundtrip : forall k, reload k = Some k.
Proof. exact reload_ok. Qed.

(* ... and verifies exactly the same cleartexts (same Ok/Err, same answer), whatever the hash
   primitives compute *)
Theorem C12_verify_stable : forall o k pw k',
  reload k = Some k' -> verify o k' pw = verify o k pw.
Proof. exact verify_stable. Qed.

(* the stored form of a password is reproduced by load-then-store *)
Theorem C12_load_store : forall d, option_map db_of_kdf (kdf_of_db d) = Some d.
Proof. intros d. destruct (load_store d) as (k & E & <-). rewrite E. reflexivity. Qed.

(* storing is injective: two different passwords never share a stored form *)
Theorem C12_store_injective : forall a b, db_of_kdf a = db_of_kdf b -> a = b.
Proof. intros a b H. generalize (reload_ok a) (reload_ok b). unfold reload. congruence. Qed.

(* THE REPAIRED DEFECT (a), documented on the pre-fix transcription kdf_of_db_prefix
   (libs/crypto lib.rs:487 was `CRYPT_SHA512 {h} => Kdf::CRYPT_SHA256 {h}`; witness confirmed on
   the pre-fix code: import `{crypt}$6$aXn8azL8DXUyuMvj$9aJJ...` verified "password" before the
   round trip and not after): the statement was false, exactly for CRYPT_SHA512, where the
   reloaded password was checked by the SHA256-crypt routine. *)
Theorem C12_prefix_refuted_password : ~ (forall k, reload_prefix k = Some k).
Proof. intros H. specialize (H (K_CRYPT_SHA512 [])). discriminate H. Qed.
Theorem C12_prefix_refuted_behaviour :
  ~ (forall o k pw k', reload_prefix k = Some k' -> verify o k' pw = verify o k pw).
Proof.
  intros H. specialize (H toy_oracle (K_CRYPT_SHA512 []) [] (K_CRYPT_SHA256 []) eq_refl).
  vm_compute in H. discriminate H.
Qed.
Theorem C12_prefix_defect_exact : forall o h pw,
  N.of_nat (length pw) <= PW_MAX_LENGTH_CHECK ->
  reload_prefix (K_CRYPT_SHA512 h) = Some (K_CRYPT_SHA256 h) /\
  option_map (fun k' => verify o k' pw) (reload_prefix (K_CRYPT_SHA512 h)) = Some (Some (o_sha256_check o h pw)) /\
  verify o (K_CRYPT_SHA512 h) pw = Some (o_sha512_check o h pw) /\
  (forall k, ktag k <> TAG_CRYPT_SHA512 -> reload_prefix k = Some k).
Proof.
  intros o h pw Hl. rewrite prefix_reload_sha512. cbn [option_map]. unfold verify.
  rewrite (proj2 (N.ltb_ge _ _) Hl). repeat (split; [reflexivity|]). exact prefix_reload_other.
Qed.

(* every valueset type writes a variant that the loader hands back to the same type *)
Theorem C12_valueset_dispatch : forall k, k <> VK_Other -> vs_reload k = Some k.
Proof. exact vs_reload_ok. Qed.

(* a load never turns a valueset into one of another type: it is the same type or an error.  This
   holds by the type test inside vs_reload_with, for any dispatch table (dispatch_prefix too); what
   is particular to kanidm's table is said by C12_tags_distinct and C12_dispatch_sound. *)
Theorem C12_valueset_never_other_type : forall k k', vs_reload k = Some k' -> k' = k.
Proof. exact (vs_reload_with_self dispatch). Qed.

(* no two types share a stored variant; every variant goes to the type that writes it; the only
   refused variants are the three retired ones and an unknown tag (T_Other) *)
Theorem C12_tags_distinct : forall a b, tag_of a = tag_of b -> a = b.
Proof. intros a b H. rewrite <- (dispatch_tag_of a), H. apply dispatch_tag_of. Qed.
Theorem C12_dispatch_sound : forall t k, dispatch t = Some k -> t = tag_of k.
Proof. intros t k H. destruct t; cbn [dispatch] in H; try discriminate H; injection H as <-; reflexivity. Qed.
Theorem C12_dispatch_refused : forall t,
  dispatch t = None <-> (t = T_PN \/ t = T_TE \/ t = T_EK \/ t = T_Other).
Proof.
  intros t. split.
  - intros H. destruct t; cbn [dispatch] in H; try discriminate H; auto.
  - intros [->|[->|[->| ->]]]; reflexivity.
Qed.

(* THE REPAIRED DEFECT (b), documented on the pre-fix transcription dispatch_prefix
   (valueset/mod.rs:1049 was `JwsKeyRs256(set) => ValueSetJwsKeyEs256::from_dbvs2(&set)`; witness
   confirmed on the pre-fix code: every JwsKeyRs256 valueset failed to load with
   InvalidValueState and from_dbentry returned None for an entry holding one). *)
Theorem C12_prefix_refuted_valueset :
  ~ (forall k, k <> VK_Other -> vs_reload_with dispatch_prefix k = Some k).
Proof. intros H. specialize (H VK_JwsKeyRs256). rewrite prefix_vs_rs256 in H. discriminate H. discriminate. Qed.
Theorem C12_prefix_valueset_defect_exact :
  vs_reload_with dispatch_prefix VK_JwsKeyRs256 = None /\
  (forall k, k <> VK_JwsKeyRs256 -> k <> VK_Other -> vs_reload_with dispatch_prefix k = Some k).
Proof. split; [exact prefix_vs_rs256|]. intros k H1 H2. destruct k; try reflexivity; contradiction. Qed.

(* KNOWN FINDING class=message-subsecond-expiry. A queued CredentialResetV1 message stores its
   expiry in whole seconds. Full sentence for this encoding: *)
Definition C12_message_full_statement : Prop := forall t, msg_time_reload t = t.
Theorem C12_message_refuted : ~ C12_message_full_statement.
Proof. intros H. specialize (H 1). vm_compute in H. discriminate H. Qed.
(* PROVED PART: exact iff the expiry has no sub-second part (the other expiries are the class that
   Model.known recognises) *)
Theorem C12_message_roundtrip_partial : forall t, t mod NS = 0 -> msg_time_reload t = t.
Proof. intros t H. apply msg_reload_exact. exact H. Qed.
Theorem C12_message_loss_iff : forall t, msg_time_reload t = t <-> t mod NS = 0.
Proof. exact msg_reload_exact. Qed.
(* inside the class the expiry only moves earlier, by less than one second, and the reloaded
   message stores to the same bytes again *)
Theorem C12_message_loss_bounded : forall t, msg_time_reload t <= t /\ t < msg_time_reload t + NS.
Proof. exact msg_reload_le. Qed.
Theorem C12_message_store_stable : forall t, msg_time_store (msg_time_reload t) = msg_time_store t.
Proof. intros t. apply N.div_mul. exact NS_pos. Qed.

(* For entries of ANY number of attributes and change records. `values_ok attrs` = every
   non-empty value of the entry reads back as itself (Parts A/B and the per-value runs). *)

(* Database / backup: an entry with exactly one uuid comes back with the same change state and
   exactly its stored attributes, each with an equal value. *)
Theorem C12_db_entry_roundtrip : forall st attrs,
  values_ok attrs -> has_uuid attrs = true ->
  db_trip st attrs = EOut st (ids (stored attrs)).
Proof. intros st attrs Hv Hu. rewrite db_trip_eq, (stored_load_ok attrs Hv), Hu. reflexivity. Qed.

(* ... an entry is refused only if one of its values fails to load or it has no single uuid ... *)
Theorem C12_db_entry_errors : forall st attrs, db_trip st attrs = EErr ->
  (exists a, In a attrs /\ db_empty a = false /\ a_back a = None) \/ has_uuid attrs = false.
Proof.
  intros st attrs H. rewrite db_trip_eq in H. destruct (mapM load_attr (stored attrs)) eqn:E.
  - right. destruct (has_uuid attrs); [discriminate H | reflexivity].
  - left. apply mapM_load_none in E as (a & Ha & Hn). apply stored_in in Ha as [Ha He]. exists a. auto.
Qed.
(* ... and when every value reads back, the outcome, refusal included, is the one db_spec asks for. *)
Theorem C12_db_entry_meets_spec : forall st attrs,
  values_ok attrs -> db_spec st attrs (db_trip st attrs) = true.
Proof.
  intros st attrs Hv. rewrite db_trip_eq, (stored_load_ok attrs Hv).
  destruct (has_uuid attrs) eqn:Hu; cbn [db_spec]; rewrite Hu; [|reflexivity].
  autorewrite with eqb. auto.
Qed.

(* C12_db_entry_roundtrip over any list of entries.  Nothing else of a backup (its version, the
   entry ids) is modelled here; that is C13. *)
Theorem C12_backup_roundtrip : forall (db : list (estate * list aval)),
  (forall e, In e db -> values_ok (snd e) /\ has_uuid (snd e) = true) ->
  map (fun e => db_trip (fst e) (snd e)) db = map (fun e => EOut (fst e) (ids (stored (snd e)))) db.
Proof.
  intros db H. apply map_ext_in. intros e He. destruct (H e He) as [Hv Hu].
  exact (C12_db_entry_roundtrip (fst e) (snd e) Hv Hu).
Qed.

(* Refresh replication: the receiver gets the creation cid, exactly the change records of
   replicated attributes, and for each of them the sender's current non-empty value, equal. *)
Theorem C12_refresh_roundtrip : forall repl tomb a changes attrs,
  values_ok attrs -> strictly_sorted (map fst changes) = true ->
  refresh_trip repl tomb (Live a changes) attrs =
    EOut (Live a (filter (sel_refresh repl) changes)) (ids (sent_all attrs (filter (sel_refresh repl) changes))) /\
  repl_spec (sel_refresh repl) tomb (Live a changes) attrs (refresh_trip repl tomb (Live a changes) attrs) = true.
Proof. intros repl tomb. exact (repl_live_roundtrip (sel_refresh repl) tomb). Qed.

(* Incremental replication: the same for the change records inside the requested window
   (ts_min < ts <= ts_max of the record's server). *)
Theorem C12_incremental_roundtrip : forall repl ranges a changes attrs,
  values_ok attrs -> strictly_sorted (map fst changes) = true ->
  incr_trip repl ranges (Live a changes) attrs =
    EOut (Live a (filter (sel_incr repl ranges) changes))
         (ids (sent_all attrs (filter (sel_incr repl ranges) changes))) /\
  repl_spec (sel_incr repl ranges) [] (Live a changes) attrs (incr_trip repl ranges (Live a changes) attrs) = true.
Proof. intros repl ranges. exact (repl_live_roundtrip (sel_incr repl ranges) []). Qed.

(* Replication of a live entry fails only if a value that has to be sent fails to load. *)
Theorem C12_replication_errors : forall repl tomb ranges a changes attrs,
  (refresh_trip repl tomb (Live a changes) attrs = EErr \/ incr_trip repl ranges (Live a changes) attrs = EErr) ->
  exists c x, In c changes /\ find_attr (fst c) attrs = Some x /\ a_empty x = false /\ a_back x = None.
Proof.
  intros repl tomb ranges a changes attrs [H|H];
    [rewrite refresh_trip_eq in H | rewrite incr_trip_eq in H];
    apply repl_trip_err in H as (c & x & Hc & _ & Hx); exists c, x; exact (conj Hc Hx).
Qed.

(* Tombstones: the deletion cid is preserved in both encodings.  The attributes refresh re-creates
   are the input `tomb` of refresh_trip, handed back as they are; incremental sends none. *)
Theorem C12_tombstone_roundtrip : forall repl tomb ranges a attrs,
  refresh_trip repl tomb (Tomb a) attrs = EOut (Tomb a) tomb /\
  incr_trip repl ranges (Tomb a) attrs = EOut (Tomb a) [].
Proof. intros. split; reflexivity. Qed.

(* If the real code agreed with the model on a recorded case (a run reports zero
   disagreements), the property holds of the real code's own output on that case.  For entries
   (db, refresh, incremental) this is under values_ok, and for replication under sorted change
   records; neither agree nor pcheck evaluates these two premises. *)

(* passwords: all of the sentence except the recorded verify vectors (which are compared
   directly by pcheck) follows *)
Theorem C12_agree_implies_property_password : forall kt d kt2 d2 eq vb va,
  agree (CPw kt d kt2 d2 eq vb va) = true -> pcheck_pw_struct kt d kt2 d2 eq = true.
Proof.
  intros kt d kt2 d2 eq vb va H. cbn [agree] in H. destruct (load_store d) as (k & E & <-).
  rewrite E, db_of_kdf_tag in H. autorewrite with eqb in H. destruct H as (<- & (<- & <-) & ->).
  unfold pcheck_pw_struct. autorewrite with eqb. auto.
Qed.
Theorem C12_agree_implies_property_load : forall d kt2 d2,
  agree (CLoad d kt2 d2) = true -> pcheck (CLoad d kt2 d2) = true.
Proof.
  intros d kt2 d2 H. cbn [agree] in H. destruct (load_store d) as (k & E & <-).
  rewrite E in H. autorewrite with eqb in H. destruct H as [<- <-].
  cbn [pcheck]. autorewrite with eqb. auto using db_of_kdf_tag.
Qed.
Theorem C12_agree_implies_property_message : forall t t2,
  agree (CMsg t t2) = true -> known (CMsg t t2) = false -> pcheck (CMsg t t2) = true.
Proof.
  intros t t2 H Hk. cbn [agree known pcheck] in *. apply N.eqb_eq in H as <-.
  apply negb_false_iff, N.eqb_eq in Hk. apply N.eqb_eq, msg_reload_exact, Hk.
Qed.
(* valuesets: same type, equal, and stores to the same bytes *)
Theorem C12_agree_implies_property_valueset_partial : forall k pw tag res same restore obs,
  agree (CVs k pw tag res same restore obs) = true -> k <> VK_Other ->
  known (CVs k pw tag res same restore obs) = false ->
  res = Some k /\ same = true /\ restore = true.
Proof.
  intros k pw tag res same restore obs H Ho Hk. cbn [agree known] in H, Hk.
  rewrite (vs_reload_ok k Ho), expect_equal_known, Hk in H. autorewrite with eqb in H.
  destruct H as [[_ H] H3]. apply opt_kind_eqb_eq in H. subst res.
  autorewrite with eqb in H3. destruct H3 as [-> ->]. auto.
Qed.
Theorem C12_agree_implies_property_db : forall st attrs out,
  agree (CDb st attrs out) = true -> values_ok attrs -> pcheck (CDb st attrs out) = true.
Proof.
  intros st attrs out H Hv. apply eout_eqb_iff in H as <-. exact (C12_db_entry_meets_spec st attrs Hv).
Qed.
Theorem C12_agree_implies_property_refresh : forall repl tomb st attrs out,
  agree (CRefresh repl tomb st attrs out) = true -> values_ok attrs ->
  (forall a changes, st = Live a changes -> strictly_sorted (map fst changes) = true) ->
  pcheck (CRefresh repl tomb st attrs out) = true.
Proof.
  intros repl tomb st attrs out H Hv Hs. apply eout_eqb_iff in H as <-.
  exact (repl_trip_meets_spec (sel_refresh repl) tomb st attrs Hv Hs).
Qed.
Theorem C12_agree_implies_property_incremental : forall repl ranges st attrs out,
  agree (CIncr repl ranges st attrs out) = true -> values_ok attrs ->
  (forall a changes, st = Live a changes -> strictly_sorted (map fst changes) = true) ->
  pcheck (CIncr repl ranges st attrs out) = true.
Proof.
  intros repl ranges st attrs out H Hv Hs. apply eout_eqb_iff in H as <-.
  exact (repl_trip_meets_spec (sel_incr repl ranges) [] st attrs Hv Hs).
Qed.
