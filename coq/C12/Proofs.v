(* Passwords and valueset types are case analyses over the constructors (dispatch undoes tag_of).  A
   reloaded expiry is the original minus its sub-second part.  Both replication encodings are repl_trip;
   under values_ok it returns the selected change records and their values, which meet repl_spec when
   the change records are sorted. *)
From Coq Require Import List NArith Bool Lia.
Import ListNotations.
Require Import KV.C12.Model.
Open Scope N_scope.

(* each statement joins the rewrite set `eqb` as soon as it is proved: the test of a compound type is
   settled by rewriting with the tests of its parts *)
#[global] Hint Rewrite andb_true_iff N.eqb_eq eqb_true_iff : eqb.

Lemma bytes_eqb_iff : forall a b, bytes_eqb a b = true <-> a = b.
Proof.
  induction a as [|x a IH]; intros [|y b]; cbn [bytes_eqb]; try (split; discriminate); [tauto|].
  autorewrite with eqb. rewrite IH. intuition congruence.
Qed.
#[global] Hint Rewrite bytes_eqb_iff : eqb.
Lemma dbpw_eqb_iff : forall a b, dbpw_eqb a b = true <-> a = b.
Proof.
  intros a b. destruct a, b; cbn [dbpw_eqb]; try (split; discriminate);
    autorewrite with eqb; intuition congruence.
Qed.
#[global] Hint Rewrite dbpw_eqb_iff : eqb.
Lemma cid_eqb_iff : forall a b, cid_eqb a b = true <-> a = b.
Proof. intros [a1 a2] [b1 b2]. unfold cid_eqb. cbn [fst snd]. autorewrite with eqb. intuition congruence. Qed.
#[global] Hint Rewrite cid_eqb_iff : eqb.
Lemma changes_eqb_iff : forall a b, changes_eqb a b = true <-> a = b.
Proof.
  induction a as [|[n c] a IH]; intros [|[n' c'] b]; cbn [changes_eqb]; try (split; discriminate); [tauto|].
  autorewrite with eqb. rewrite IH. intuition congruence.
Qed.
Lemma pairs_eqb_iff : forall a b, pairs_eqb a b = true <-> a = b.
Proof.
  induction a as [|[n v] a IH]; intros [|[n' v'] b]; cbn [pairs_eqb]; try (split; discriminate); [tauto|].
  autorewrite with eqb. rewrite IH. intuition congruence.
Qed.
#[global] Hint Rewrite changes_eqb_iff pairs_eqb_iff : eqb.
Lemma estate_eqb_iff : forall a b, estate_eqb a b = true <-> a = b.
Proof. intros a b. destruct a, b; cbn [estate_eqb]; autorewrite with eqb; intuition congruence. Qed.
#[global] Hint Rewrite estate_eqb_iff : eqb.
Lemma eout_eqb_iff : forall a b, eout_eqb a b = true <-> a = b.
Proof. intros a b. destruct a, b; cbn [eout_eqb]; autorewrite with eqb; intuition congruence. Qed.
#[global] Hint Rewrite eout_eqb_iff : eqb.

(* for an enumeration, `(if eqb a b then b else a) = a` holds for every pair of constructors by
   computation (on the diagonal b is a, off it the test is false), so all pairs close by reflexivity *)
Lemma eqb_choice_sound : forall {A} (eqb : A -> A -> bool) a b,
  (if eqb a b then b else a) = a -> eqb a b = true -> a = b.
Proof. intros A eqb a b E H. rewrite H in E. symmetry. exact E. Qed.

Lemma vskind_eqb_refl : forall k, vskind_eqb k k = true.
Proof. destruct k; reflexivity. Qed.
Lemma vskind_eqb_eq : forall a b, vskind_eqb a b = true -> a = b.
Proof. intros a b. apply eqb_choice_sound. case a; case b; reflexivity. Qed.
Lemma dbtag_eqb_eq : forall a b, dbtag_eqb a b = true -> a = b.
Proof. intros a b. apply eqb_choice_sound. case a; case b; reflexivity. Qed.
Lemma opt_kind_eqb_eq : forall a b, opt_kind_eqb a b = true -> a = b.
Proof.
  intros [x|] [y|] H; cbn [opt_kind_eqb] in H; try discriminate; [|reflexivity].
  apply vskind_eqb_eq in H. subst. reflexivity.
Qed.

Lemma reload_ok : forall k, reload k = Some k.
Proof. destruct k; reflexivity. Qed.

Lemma db_of_kdf_tag : forall k, dtag (db_of_kdf k) = ktag k.
Proof. destruct k; reflexivity. Qed.

Lemma verify_stable : forall o k pw k', reload k = Some k' -> verify o k' pw = verify o k pw.
Proof. intros o k pw k' H. rewrite reload_ok in H. injection H as <-. reflexivity. Qed.

Lemma load_store : forall d, exists k, kdf_of_db d = Some k /\ db_of_kdf k = d.
Proof. destruct d; eexists; split; reflexivity. Qed.

Lemma prefix_reload_sha512 : forall h, reload_prefix (K_CRYPT_SHA512 h) = Some (K_CRYPT_SHA256 h).
Proof. reflexivity. Qed.
Lemma prefix_reload_other : forall k, ktag k <> TAG_CRYPT_SHA512 -> reload_prefix k = Some k.
Proof. intros k H. destruct k; try reflexivity. exfalso. apply H. reflexivity. Qed.

(* VK_Other, which no loader produces, stands for the refusal of T_Other *)
Lemma dispatch_tag_of : forall k,
  match dispatch (tag_of k) with Some k' => k' | None => VK_Other end = k.
Proof. destruct k; reflexivity. Qed.

Lemma vs_reload_ok : forall k, k <> VK_Other -> vs_reload k = Some k.
Proof.
  intros k H. unfold vs_reload, vs_reload_with. pose proof (dispatch_tag_of k) as E.
  destruct (dispatch (tag_of k)) as [p|]; subst; [rewrite vskind_eqb_refl; reflexivity | contradiction].
Qed.
Lemma vs_reload_with_self : forall disp k k', vs_reload_with disp k = Some k' -> k' = k.
Proof.
  intros disp k k' H. unfold vs_reload_with in H. destruct (disp (tag_of k)) as [p|]; [|discriminate].
  destruct (vskind_eqb p k) eqn:E; [|discriminate]. injection H as <-. apply vskind_eqb_eq. exact E.
Qed.
Lemma expect_equal_known : forall k marks, expect_equal k marks = negb (value_known k marks).
Proof. destruct k; reflexivity. Qed.

Lemma prefix_vs_rs256 : vs_reload_with dispatch_prefix VK_JwsKeyRs256 = None.
Proof. reflexivity. Qed.

Lemma NS_pos : NS <> 0.
Proof. discriminate. Qed.
Lemma msg_reload_mod : forall t, t = msg_time_reload t + t mod NS.
Proof.
  intros t. unfold msg_time_reload, msg_time_load, msg_time_store. rewrite N.mul_comm.
  apply N.div_mod. exact NS_pos.
Qed.
Lemma msg_reload_le : forall t, msg_time_reload t <= t /\ t < msg_time_reload t + NS.
Proof.
  intros t. generalize (msg_reload_mod t) (N.mod_lt t NS NS_pos).
  generalize (msg_time_reload t) (t mod NS). lia.
Qed.
Lemma msg_reload_exact : forall t, msg_time_reload t = t <-> t mod NS = 0.
Proof. intros t. generalize (msg_reload_mod t). generalize (msg_time_reload t) (t mod NS). lia. Qed.

Definition values_ok (attrs : list aval) : Prop :=
  forall a, In a attrs -> db_empty a = false -> a_back a = Some (a_vid a).
Lemma db_empty_of_nonempty : forall a, a_empty a = false -> db_empty a = false.
Proof. intros a H. unfold db_empty. rewrite H. reflexivity. Qed.

Lemma mapM_load_ok : forall l,
  (forall a, In a l -> a_back a = Some (a_vid a)) -> mapM load_attr l = Some (ids l).
Proof.
  induction l as [|a l IH]; intros H; [reflexivity|].
  cbn [mapM ids map]. unfold load_attr at 1. rewrite (H a (in_eq a l)).
  unfold ids in IH. rewrite IH by (intros b Hb; apply H, in_cons, Hb). reflexivity.
Qed.
Lemma mapM_load_none : forall l, mapM load_attr l = None -> exists a, In a l /\ a_back a = None.
Proof.
  induction l as [|a l IH]; cbn [mapM]; [discriminate|]. unfold load_attr at 1.
  destruct (a_back a) eqn:E; [|intros _; exists a; auto using in_eq].
  destruct (mapM load_attr l); [discriminate|]. intros _.
  destruct (IH eq_refl) as (b & Hb & Hn). exists b. auto using in_cons.
Qed.

Lemma find_attr_in : forall n l a, find_attr n l = Some a -> In a l /\ a_attr a = n.
Proof.
  induction l as [|x l IH]; intros a H; cbn [find_attr] in H; [discriminate|].
  destruct (a_attr x =? n) eqn:E.
  - injection H as <-. apply N.eqb_eq in E. auto using in_eq.
  - destruct (IH a H). auto using in_cons.
Qed.

Lemma stored_in : forall attrs a, In a (stored attrs) <-> In a attrs /\ db_empty a = false.
Proof. intros attrs a. unfold stored. rewrite filter_In, negb_true_iff. reflexivity. Qed.
Lemma stored_load_ok : forall attrs,
  values_ok attrs -> mapM load_attr (stored attrs) = Some (ids (stored attrs)).
Proof. intros attrs Hv. apply mapM_load_ok. intros a Ha. apply stored_in in Ha as [Ha He]. exact (Hv a Ha He). Qed.

(* the uuid lookup of from_dbentry is the test has_uuid *)
Lemma db_trip_eq : forall st attrs,
  db_trip st attrs = match mapM load_attr (stored attrs) with
                     | Some l => if has_uuid attrs then EOut st l else EErr
                     | None => EErr
                     end.
Proof.
  intros st attrs. unfold db_trip, has_uuid. destruct (mapM load_attr (stored attrs)); [|reflexivity].
  destruct (find_attr ATTR_UUID (stored attrs)); reflexivity.
Qed.

(* both replication encodings are one function of a selection predicate and of the attributes a
   tombstone is rehydrated with *)
Definition sel_refresh (repl : list N) : N * cid -> bool := fun c => mem (fst c) repl.
Definition sel_incr (repl : list N) (ranges : list (N * (N * N))) : N * cid -> bool :=
  fun c => mem (fst c) repl && within ranges (snd c).
Definition sent_all (attrs : list aval) (chg : list (N * cid)) : list aval :=
  flat_map (fun c => sent attrs (fst c)) chg.
Definition repl_trip (sel : N * cid -> bool) (tomb : list (N * N)) (st : estate) (attrs : list aval) : eout :=
  match st with
  | Tomb a => EOut (Tomb a) tomb
  | Live a changes =>
      match mapM load_attr (sent_all attrs (filter sel changes)) with
      | Some l => EOut (Live a (filter sel changes)) l
      | None => EErr
      end
  end.
Lemma refresh_trip_eq : forall repl tomb, refresh_trip repl tomb = repl_trip (sel_refresh repl) tomb.
Proof. reflexivity. Qed.
Lemma incr_trip_eq : forall repl ranges, incr_trip repl ranges = repl_trip (sel_incr repl ranges) [].
Proof. reflexivity. Qed.

Lemma sent_in : forall attrs n x, In x (sent attrs n) <-> find_attr n attrs = Some x /\ a_empty x = false.
Proof.
  intros attrs n x. unfold sent. destruct (find_attr n attrs) as [y|]; [destruct (a_empty y) eqn:E|];
    cbn [In]; intuition congruence.
Qed.
Lemma sent_all_in : forall attrs chg x, In x (sent_all attrs chg) <->
  exists c, In c chg /\ find_attr (fst c) attrs = Some x /\ a_empty x = false.
Proof. intros attrs chg x. unfold sent_all. rewrite in_flat_map. setoid_rewrite sent_in. reflexivity. Qed.

Lemma repl_trip_ok : forall sel tomb a changes attrs,
  values_ok attrs ->
  repl_trip sel tomb (Live a changes) attrs =
    EOut (Live a (filter sel changes)) (ids (sent_all attrs (filter sel changes))).
Proof.
  intros sel tomb a changes attrs Hv. cbn [repl_trip]. rewrite mapM_load_ok; [reflexivity|].
  intros x Hx. apply sent_all_in in Hx as (c & _ & Hf & He). apply find_attr_in in Hf as [Hi _].
  exact (Hv x Hi (db_empty_of_nonempty x He)).
Qed.
Lemma repl_trip_err : forall sel tomb a changes attrs, repl_trip sel tomb (Live a changes) attrs = EErr ->
  exists c x, In c changes /\ sel c = true /\ find_attr (fst c) attrs = Some x /\
              a_empty x = false /\ a_back x = None.
Proof.
  intros sel tomb a changes attrs H. cbn [repl_trip] in H.
  destruct (mapM load_attr _) as [l|] eqn:E; [discriminate|].
  apply mapM_load_none in E as (x & Hx & Hn). apply sent_all_in in Hx as (c & Hc & Hf & He).
  apply filter_In in Hc as [Hc Hs]. exists c, x. auto.
Qed.

Definition keys_sorted {A} (l : list (N * A)) : Prop := strictly_sorted (map fst l) = true.

Lemma strictly_sorted_cons : forall x l,
  strictly_sorted (x :: l) = true <-> strictly_sorted l = true /\ forall y, In y l -> x < y.
Proof.
  intros x l. revert x. induction l as [|y l IH]; intros x.
  - split; [split; [reflexivity | intros y []] | reflexivity].
  - change (strictly_sorted (x :: y :: l)) with ((x <? y) && strictly_sorted (y :: l)).
    rewrite andb_true_iff, N.ltb_lt. split; intros [H1 H2].
    + split; [exact H2|]. intros z [<-|Hz]; [exact H1|]. apply IH in H2 as [_ H2]. specialize (H2 z Hz). lia.
    + split; [apply H2, in_eq | exact H1].
Qed.
Lemma filter_sorted : forall {A} (f : A -> N) (sel : A -> bool) l,
  strictly_sorted (map f l) = true -> strictly_sorted (map f (filter sel l)) = true.
Proof.
  intros A f sel. induction l as [|c l IH]; [reflexivity|]. cbn [map filter].
  rewrite strictly_sorted_cons. intros [Hs Hlt]. destruct (sel c); [|exact (IH Hs)].
  cbn [map]. apply strictly_sorted_cons. split; [exact (IH Hs)|].
  intros y Hy. apply Hlt, (incl_map f (incl_filter sel l)), Hy.
Qed.
Lemma sent_all_keys : forall attrs chg, map fst (ids (sent_all attrs chg)) =
  map fst (filter (fun c => match find_attr (fst c) attrs with Some x => negb (a_empty x) | None => false end) chg).
Proof.
  intros attrs. induction chg as [|c chg IH]; [reflexivity|].
  unfold sent_all in *. cbn [flat_map filter]. unfold sent at 1.
  destruct (find_attr (fst c) attrs) as [x|] eqn:E; [|exact IH]. destruct (a_empty x); [exact IH|].
  cbn [negb app ids map fst]. apply find_attr_in in E as [_ ->]. f_equal. exact IH.
Qed.

Lemma live_spec_ok : forall sel tomb a changes attrs,
  keys_sorted changes ->
  repl_spec sel tomb (Live a changes) attrs
    (EOut (Live a (filter sel changes)) (ids (sent_all attrs (filter sel changes)))) = true.
Proof.
  intros sel tomb a changes attrs Hs. cbn [repl_spec].
  rewrite !andb_true_iff, cid_eqb_iff, changes_eqb_iff, !forallb_forall. repeat split.
  - intros [n v] Hnv. cbn [fst snd]. apply in_map_iff in Hnv as (x & [= <- <-] & Hx).
    apply sent_all_in in Hx as (c & Hc & Hf & He). apply filter_In in Hc as [Hc Hsel].
    destruct (find_attr_in _ _ _ Hf) as [_ Hn]. rewrite Hn, Hf, He, N.eqb_refl, andb_true_r.
    apply existsb_exists. exists c. rewrite Hsel, N.eqb_refl. auto.
  - intros c Hc. destruct (sel c) eqn:Hsel; [|reflexivity]. cbn [negb orb].
    destruct (find_attr (fst c) attrs) as [x|] eqn:Hf; [|reflexivity].
    destruct (a_empty x) eqn:He; [reflexivity|]. cbn [orb].
    apply existsb_exists. exists (a_attr x, a_vid x). split.
    + apply (in_map (fun y => (a_attr y, a_vid y))), sent_all_in. exists c. rewrite filter_In. auto.
    + cbn [fst snd]. apply find_attr_in in Hf as [_ ->]. rewrite !N.eqb_refl. reflexivity.
  - rewrite sent_all_keys. apply filter_sorted, filter_sorted. exact Hs.
Qed.

Lemma repl_live_roundtrip : forall sel tomb a changes attrs,
  values_ok attrs -> keys_sorted changes ->
  repl_trip sel tomb (Live a changes) attrs =
    EOut (Live a (filter sel changes)) (ids (sent_all attrs (filter sel changes))) /\
  repl_spec sel tomb (Live a changes) attrs (repl_trip sel tomb (Live a changes) attrs) = true.
Proof.
  intros sel tomb a changes attrs Hv Hs. rewrite (repl_trip_ok sel tomb a changes attrs Hv).
  split; [reflexivity | apply live_spec_ok; exact Hs].
Qed.
Lemma repl_trip_meets_spec : forall sel tomb st attrs,
  values_ok attrs ->
  (forall a changes, st = Live a changes -> keys_sorted changes) ->
  repl_spec sel tomb st attrs (repl_trip sel tomb st attrs) = true.
Proof.
  intros sel tomb [a changes|a] attrs Hv Hs.
  - apply repl_live_roundtrip; [exact Hv | exact (Hs a changes eq_refl)].
  - cbn [repl_trip repl_spec]. autorewrite with eqb. auto.
Qed.
