(* KV.C35.Props.
   fold_from is the transcription of ResolvedAccountPolicy::fold_from (all lists of group policies, any
   length, any values).  A policy is well formed (wf_policy) when the key ids of its attestation CA list
   are pairwise distinct — which a BTreeMap guarantees.  otrusts o k g = "a device with aaguid g attested
   by CA k is acceptable under the optional CA list o" (None = attestation unconstrained).  scalars and
   obs_equiv are defined in Proofs.v; scalars r is every field of r but the CA list (search limits and
   fallback flag included). *)
From Coq Require Import List NArith Bool Permutation.
Import ListNotations.
Require Import KV.C35.Model KV.C35.Proofs.
Open Scope N_scope.

(* ORDER INDEPENDENCE.  Considering the groups in another order resolves to a policy that enforces the
   same thing: identical privilege/session expiry, password minimum and maximum length, minimum
   credential type, search limits and fallback flag; attestation is constrained in both or in neither;
   and exactly the same (CA, device) pairs are accepted. *)
Theorem C35_perm : forall l1 l2, Forall wf_policy l1 -> Permutation l1 l2 ->
  obs_equiv (fold_from l1) (fold_from l2).
Proof. exact perm_obs. Qed.

(* for every field other than the CA list the equality is literal and needs no hypothesis *)
Theorem C35_perm_scalars : forall l1 l2, Permutation l1 l2 ->
  scalars (fold_from l1) = scalars (fold_from l2).
Proof. exact scalars_perm. Qed.

(* ... but the resolved CA list as a DATA STRUCTURE is not order independent: device description labels
   (and the aaguids recorded under a blanket-allowing CA) are taken from whichever group comes first.
   They carry no authority (webauthn-rs consults blanket_allow and the aaguid keys only), hence
   C35_perm is stated on what is enforced. *)
Theorem C35_structural_order_dependence :
  ~ (forall l1 l2, Forall wf_policy l1 -> Permutation l1 l2 -> fold_from l1 = fold_from l2).
Proof.
  intros H.
  pose (a := mkpol 100 100 10 0 (Some [(1, mkca false [(7, 100)])]) None None None).
  pose (b := mkpol 100 100 10 0 (Some [(1, mkca false [(7, 200)])]) None None None).
  specialize (H [a; b] [b; a]).
  assert (Hwf : Forall wf_policy [a; b]) by (apply wf_policies_sound; vm_compute; reflexivity).
  specialize (H Hwf (perm_swap b a [])). vm_compute in H. discriminate H.
Qed.

(* STRICTEST.  The resolved policy is at least as strict as every group's policy: expiries no longer,
   minimum password length no shorter, minimum credential type no weaker, it accepts only attested
   devices that this group accepts, and it constrains attestation if this group does. *)
Theorem C35_strictest : forall l p, Forall wf_policy l -> In p l ->
  r_priv (fold_from l) <= p_priv p /\
  r_sess (fold_from l) <= p_sess p /\
  p_pwmin p <= r_pwmin (fold_from l) /\
  p_cred p <= r_cred (fold_from l) /\
  (forall k g, otrusts (r_ca (fold_from l)) k g = true -> otrusts (p_ca p) k g = true) /\
  (is_some (p_ca p) = true -> is_some (r_ca (fold_from l)) = true).
Proof.
  intros l p Hwf Hin. destruct (strictest_scalar l p Hin) as (H1 & H2 & H3 & H4).
  repeat split; try assumption.
  - intros k g Ht. rewrite (ca_exact l k g Hwf), forallb_forall in Ht. apply Ht, Hin.
  - intros Hs. rewrite ca_some. apply existsb_exists. exists p. split; assumption.
Qed.

(* TRUSTS ONLY AUTHORITIES TRUSTED BY ALL — and exactly those: a (CA, device) pair is accepted iff every
   group accepts it; attestation is constrained iff some group constrains it. *)
Theorem C35_ca_exact : forall l, Forall wf_policy l ->
  (forall k g, otrusts (r_ca (fold_from l)) k g = true <->
               forall p, In p l -> otrusts (p_ca p) k g = true) /\
  (is_some (r_ca (fold_from l)) = true <-> exists p, In p l /\ is_some (p_ca p) = true).
Proof.
  intros l Hwf. split.
  - intros k g. rewrite (ca_exact l k g Hwf). apply forallb_forall.
  - rewrite ca_some. apply existsb_exists.
Qed.

(* NO STRICTER THAN NECESSARY: every resolved value is a built-in bound or is demanded by some group
   (the password minimum may also be the single-factor minimum, only when second factors are optional);
   the built-in bounds always hold; the maximum length is the constant 128. *)
Theorem C35_tight : forall l,
  (r_priv (fold_from l) <= MAX_PRIV /\ r_sess (fold_from l) <= MAX_SESS /\
   PW_MFA_MIN <= r_pwmin (fold_from l) /\ r_pwmax (fold_from l) = PW_MAX) /\
  (r_priv (fold_from l) = MAX_PRIV \/ exists p, In p l /\ p_priv p = r_priv (fold_from l)) /\
  (r_sess (fold_from l) = MAX_SESS \/ exists p, In p l /\ p_sess p = r_sess (fold_from l)) /\
  (r_cred (fold_from l) = CT_ANY \/ exists p, In p l /\ p_cred p = r_cred (fold_from l)) /\
  (r_pwmin (fold_from l) = PW_MFA_MIN \/ (exists p, In p l /\ p_pwmin p = r_pwmin (fold_from l)) \/
   (r_pwmin (fold_from l) = PW_SFA_MIN /\ r_cred (fold_from l) < CT_MFA)).
Proof. intros l. split; [apply bounds_scalar | apply tight_scalar]. Qed.

(* SINGLE FACTOR MINIMUM: whenever the resolved minimum credential type is below Mfa (a password alone
   may be accepted), the minimum password length is at least PW_SFA_MIN_LENGTH_NIST = 15. *)
Theorem C35_sfa_min : forall l, r_cred (fold_from l) < CT_MFA -> PW_SFA_MIN <= r_pwmin (fold_from l).
Proof. exact sfa_min. Qed.

(* search limits resolve to the largest limit set by any group (None if none sets one); the primary
   credential fallback flag to the conjunction of the flags that are set (None if none) *)
Theorem C35_limits_fallback : forall l,
  r_lft (fold_from l) = spec_lim (map p_lft l) /\
  r_lres (fold_from l) = spec_lim (map p_lres l) /\
  r_fb (fold_from l) = spec_fb (map p_fb l).
Proof. exact rest_exact. Qed.

(* DEFAULTS: an account-policy group that sets no attribute converts to a policy that is neutral
   wherever it occurs; a group without the class contributes nothing. *)
Theorem C35_unset_group_neutral :
  policy_of_entry (mkea true None None None None None None None None) = Some unset_policy /\
  (forall e, e_class e = false -> policy_of_entry e = None) /\
  forall l1 l2, fold_from (l1 ++ unset_policy :: l2) = fold_from (l1 ++ l2).
Proof.
  split; [reflexivity|]. split; [|exact unset_neutral].
  intros e H. unfold policy_of_entry. rewrite H. reflexivity.
Qed.

(* BRIDGE: on every recorded case where the model reproduces the implementation's answers (and the
   inputs are well formed, l' a rearrangement of l), the executable property holds of those answers. *)
Theorem C35_agree_implies_property : forall c, agree c = true -> pcheck c = true.
Proof. exact agree_pcheck. Qed.
