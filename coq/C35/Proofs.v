(* KV.C35.Proofs — fold_from computes each field of the resolved policy by a fold of its own over that field of
   the group policies (fold_from_fields); every property is then a fact about one of these folds. *)
From Coq Require Import List NArith Bool Lia Permutation.
Import ListNotations.
Require Import KV.C35.Model.
Open Scope N_scope.
Arguments N.ltb : simpl never.
Arguments N.eqb : simpl never.

Lemma fold_map_perm {X Y P} (op : X -> Y -> X) (g : P -> Y) l1 l2 :
  Permutation l1 l2 -> (forall a x y, op (op a x) y = op (op a y) x) ->
  forall a, fold_left op (map g l1) a = fold_left op (map g l2) a.
Proof.
  intros HP Hc. induction HP as [|x l1 l2 HP IH|x y l|l1 l2 l3 HP1 IH1 HP2 IH2]; intros a; cbn.
  - reflexivity.
  - apply IH.
  - rewrite Hc. reflexivity.
  - rewrite IH1. apply IH2.
Qed.

Lemma forallb_perm {A} (f : A -> bool) l1 l2 : Permutation l1 l2 -> forallb f l1 = forallb f l2.
Proof.
  intros HP. induction HP as [|x l1 l2 HP IH|x y l|l1 l2 l3 HP1 IH1 HP2 IH2]; cbn.
  - reflexivity.
  - rewrite IH. reflexivity.
  - destruct (f x), (f y); reflexivity.
  - rewrite IH1. exact IH2.
Qed.
Lemma existsb_perm {A} (f : A -> bool) l1 l2 : Permutation l1 l2 -> existsb f l1 = existsb f l2.
Proof.
  intros HP. induction HP as [|x l1 l2 HP IH|x y l|l1 l2 l3 HP1 IH1 HP2 IH2]; cbn.
  - reflexivity.
  - rewrite IH. reflexivity.
  - destruct (f x), (f y); reflexivity.
  - rewrite IH1. exact IH2.
Qed.

(* min and max written as `step` writes them, so that fold_step_fields holds by computation *)
Definition opmin (a x : N) : N := if x <? a then x else a.
Definition opmax (a x : N) : N := if a <? x then x else a.
Lemma opmin_min a x : opmin a x = N.min a x.
Proof. unfold opmin. destruct (N.ltb_spec x a); lia. Qed.
Lemma opmax_max a x : opmax a x = N.max a x.
Proof. unfold opmax. destruct (N.ltb_spec a x); lia. Qed.

Section FieldFold.
  Context {P : Type} (g : P -> N) (op : N -> N -> N).

  Lemma fold_pick : (forall a x, op a x = a \/ op a x = x) ->
    forall l a, fold_left op (map g l) a = a \/ exists p, In p l /\ g p = fold_left op (map g l) a.
  Proof.
    intros Hop. induction l as [|q l IH]; intros a; cbn [map fold_left]; [left; reflexivity|].
    destruct (IH (op a (g q))) as [E|(p & Hin & E)].
    - rewrite E. destruct (Hop a (g q)) as [E'|E']; rewrite E'; [left; reflexivity|].
      right. exists q. split; [left|]; reflexivity.
    - right. exists p. split; [right; exact Hin | exact E].
  Qed.

  (* R is <= for the minimum folds and >= for the maximum folds *)
  Lemma fold_below (R : N -> N -> Prop) :
    (forall a, R a a) -> (forall a b c, R a b -> R b c -> R a c) -> (forall a x, R (op a x) a /\ R (op a x) x) ->
    forall l a, R (fold_left op (map g l) a) a /\ forall p, In p l -> R (fold_left op (map g l) a) (g p).
  Proof.
    intros Hrefl Htrans Hop. induction l as [|q l IH]; intros a; cbn [map fold_left].
    - split; [apply Hrefl | intros p []].
    - destruct (IH (op a (g q))) as [H1 H2], (Hop a (g q)) as [Ha Hq].
      split; [exact (Htrans _ _ _ H1 Ha)|]. intros p [<-|Hin]; [exact (Htrans _ _ _ H1 Hq) | apply H2, Hin].
  Qed.
End FieldFold.

Definition fmin {P} (g : P -> N) (l : list P) (a : N) := fold_left opmin (map g l) a.
Definition fmax {P} (g : P -> N) (l : list P) (a : N) := fold_left opmax (map g l) a.

Lemma fmin_pick {P} (g : P -> N) l a : fmin g l a = a \/ exists p, In p l /\ g p = fmin g l a.
Proof. apply fold_pick. intros b x. rewrite opmin_min. lia. Qed.
Lemma fmax_pick {P} (g : P -> N) l a : fmax g l a = a \/ exists p, In p l /\ g p = fmax g l a.
Proof. apply fold_pick. intros b x. rewrite opmax_max. lia. Qed.
Lemma fmin_le {P} (g : P -> N) l a : fmin g l a <= a /\ forall p, In p l -> fmin g l a <= g p.
Proof. apply (fold_below g opmin N.le N.le_refl N.le_trans). intros b x. rewrite opmin_min. lia. Qed.
Lemma fmax_ge {P} (g : P -> N) l a : a <= fmax g l a /\ forall p, In p l -> g p <= fmax g l a.
Proof.
  apply (fold_below g opmax (fun x y => y <= x) N.le_refl (fun x y z Hxy Hyz => N.le_trans z y x Hyz Hxy)).
  intros b x. rewrite opmax_max. lia.
Qed.

(* what `finish` does to the minimum password length *)
Definition bump (cred pw : N) : N := if (cred <? CT_MFA) && (pw <? PW_SFA_MIN) then PW_SFA_MIN else pw.
Lemma bump_spec cred pw :
  bump cred pw = pw /\ (CT_MFA <= cred \/ PW_SFA_MIN <= pw) \/
  bump cred pw = PW_SFA_MIN /\ cred < CT_MFA /\ pw < PW_SFA_MIN.
Proof. unfold bump. destruct (N.ltb_spec cred CT_MFA), (N.ltb_spec pw PW_SFA_MIN); cbn [andb]; lia. Qed.

Lemma finish_fields a :
  finish a = mkres (r_priv a) (r_sess a) (bump (r_cred a) (r_pwmin a)) (r_pwmax a) (r_cred a)
                   (r_ca a) (r_lft a) (r_lres a) (r_fb a).
Proof. unfold finish, bump. destruct a, (_ && _); reflexivity. Qed.

Lemma fold_step_fields l : forall a, fold_left step l a =
  mkres (fmin p_priv l (r_priv a)) (fmin p_sess l (r_sess a)) (fmax p_pwmin l (r_pwmin a)) (r_pwmax a)
        (fmax p_cred l (r_cred a)) (fold_left merge_ca (map p_ca l) (r_ca a))
        (fold_left merge_lim (map p_lft l) (r_lft a)) (fold_left merge_lim (map p_lres l) (r_lres a))
        (fold_left merge_fb (map p_fb l) (r_fb a)).
Proof.
  induction l as [|p l IH]; intros a; cbn [fold_left]; [destruct a; reflexivity | rewrite IH; reflexivity].
Qed.

Theorem fold_from_fields l : fold_from l =
  mkres (fmin p_priv l MAX_PRIV) (fmin p_sess l MAX_SESS)
        (bump (fmax p_cred l CT_ANY) (fmax p_pwmin l PW_MFA_MIN)) PW_MAX (fmax p_cred l CT_ANY)
        (fold_left merge_ca (map p_ca l) None) (fold_left merge_lim (map p_lft l) None)
        (fold_left merge_lim (map p_lres l) None) (fold_left merge_fb (map p_fb l) None).
Proof. unfold fold_from. rewrite fold_step_fields, finish_fields. reflexivity. Qed.

Lemma strictest_scalar l p : In p l ->
  r_priv (fold_from l) <= p_priv p /\ r_sess (fold_from l) <= p_sess p /\
  p_pwmin p <= r_pwmin (fold_from l) /\ p_cred p <= r_cred (fold_from l).
Proof.
  intros Hin. rewrite fold_from_fields. cbn [r_priv r_sess r_pwmin r_cred].
  pose proof (proj2 (fmin_le p_priv l MAX_PRIV) p Hin).
  pose proof (proj2 (fmin_le p_sess l MAX_SESS) p Hin).
  pose proof (proj2 (fmax_ge p_pwmin l PW_MFA_MIN) p Hin).
  pose proof (proj2 (fmax_ge p_cred l CT_ANY) p Hin).
  pose proof (bump_spec (fmax p_cred l CT_ANY) (fmax p_pwmin l PW_MFA_MIN)). lia.
Qed.

Lemma bounds_scalar l :
  r_priv (fold_from l) <= MAX_PRIV /\ r_sess (fold_from l) <= MAX_SESS /\
  PW_MFA_MIN <= r_pwmin (fold_from l) /\ r_pwmax (fold_from l) = PW_MAX.
Proof.
  rewrite fold_from_fields. cbn [r_priv r_sess r_pwmin r_pwmax].
  pose proof (proj1 (fmin_le p_priv l MAX_PRIV)). pose proof (proj1 (fmin_le p_sess l MAX_SESS)).
  pose proof (proj1 (fmax_ge p_pwmin l PW_MFA_MIN)).
  pose proof (bump_spec (fmax p_cred l CT_ANY) (fmax p_pwmin l PW_MFA_MIN)). lia.
Qed.

Lemma tight_scalar l :
  (r_priv (fold_from l) = MAX_PRIV \/ exists p, In p l /\ p_priv p = r_priv (fold_from l)) /\
  (r_sess (fold_from l) = MAX_SESS \/ exists p, In p l /\ p_sess p = r_sess (fold_from l)) /\
  (r_cred (fold_from l) = CT_ANY \/ exists p, In p l /\ p_cred p = r_cred (fold_from l)) /\
  (r_pwmin (fold_from l) = PW_MFA_MIN \/ (exists p, In p l /\ p_pwmin p = r_pwmin (fold_from l)) \/
   (r_pwmin (fold_from l) = PW_SFA_MIN /\ r_cred (fold_from l) < CT_MFA)).
Proof.
  rewrite fold_from_fields. cbn [r_priv r_sess r_pwmin r_cred].
  split; [apply fmin_pick|]. split; [apply fmin_pick|]. split; [apply fmax_pick|].
  destruct (bump_spec (fmax p_cred l CT_ANY) (fmax p_pwmin l PW_MFA_MIN)) as [[-> _]|[-> [H _]]].
  - destruct (fmax_pick p_pwmin l PW_MFA_MIN); auto.
  - auto.
Qed.

Lemma sfa_min l : r_cred (fold_from l) < CT_MFA -> PW_SFA_MIN <= r_pwmin (fold_from l).
Proof.
  rewrite fold_from_fields. cbn [r_pwmin r_cred].
  pose proof (bump_spec (fmax p_cred l CT_ANY) (fmax p_pwmin l PW_MFA_MIN)). lia.
Qed.

Lemma lookup_notin {V} k (m : list (N * V)) : ~ In k (map fst m) -> lookup k m = None.
Proof.
  induction m as [|[k' v] m IH]; cbn; intros H; [reflexivity|].
  destruct (N.eqb_spec k k') as [->|Hne]; [exfalso; apply H; left; reflexivity|].
  apply IH. intros Hin. apply H. right. exact Hin.
Qed.

Lemma cal_inter_keys a p k : In k (map fst (cal_inter a p)) -> In k (map fst a).
Proof.
  induction a as [|[k' s] a IH]; cbn; [tauto|].
  destruct (lookup k' p) as [o|]; [destruct (can_retain (ca_inter s o))|]; cbn; intuition.
Qed.

Lemma cal_inter_nodup a p : NoDup (map fst a) -> NoDup (map fst (cal_inter a p)).
Proof.
  induction a as [|[k' s] a IH]; cbn; intros H; [constructor|].
  inversion H as [|x xs Hnotin Hnd]; subst.
  destruct (lookup k' p) as [o|]; [destruct (can_retain (ca_inter s o))|]; cbn; auto.
  constructor; [|auto]. intros Hin. apply Hnotin. eapply cal_inter_keys. exact Hin.
Qed.

Lemma lookup_cal_inter a p k : NoDup (map fst a) ->
  lookup k (cal_inter a p) =
  match lookup k a with
  | Some s => match lookup k p with
              | Some o => if can_retain (ca_inter s o) then Some (ca_inter s o) else None
              | None => None
              end
  | None => None
  end.
Proof.
  induction a as [|[k' s] a IH]; cbn [cal_inter lookup map fst]; intros H; [reflexivity|].
  inversion H as [|x xs Hnotin Hnd]; subst.
  assert (Hnone : lookup k' (cal_inter a p) = None).
  { apply lookup_notin. intros Hin. apply Hnotin. eapply cal_inter_keys. exact Hin. }
  destruct (N.eqb_spec k k') as [->|Hne].
  - destruct (lookup k' p) as [o|]; [|exact Hnone].
    destruct (can_retain (ca_inter s o)); [|exact Hnone].
    cbn [lookup]. rewrite N.eqb_refl. reflexivity.
  - apply N.eqb_neq in Hne.
    destruct (lookup k' p) as [o|]; [destruct (can_retain (ca_inter s o))|]; cbn [lookup];
      rewrite ?Hne; apply IH; exact Hnd.
Qed.

Lemma has_key_cons {V} g g' (v : V) m :
  has_key g ((g', v) :: m) = if g =? g' then true else has_key g m.
Proof. unfold has_key. cbn [lookup]. destruct (g =? g'); reflexivity. Qed.

Lemma has_key_filter g (sd od : list (N * N)) :
  has_key g (filter (fun d => has_key (fst d) od) sd) = has_key g sd && has_key g od.
Proof.
  induction sd as [|[g' v] sd IH]; [reflexivity|].
  cbn [filter fst]. rewrite has_key_cons.
  destruct (N.eqb_spec g g') as [->|Hne].
  - destruct (has_key g' od) eqn:E.
    + rewrite has_key_cons, N.eqb_refl. reflexivity.
    + rewrite IH. apply andb_false_r.
  - apply N.eqb_neq in Hne.
    destruct (has_key g' od); [|exact IH].
    rewrite has_key_cons, Hne. exact IH.
Qed.

Lemma ca_trusts_inter s o g : ca_trusts (ca_inter s o) g = ca_trusts s g && ca_trusts o g.
Proof.
  destruct s as [sb sd], o as [ob od]. unfold ca_inter, ca_trusts. cbn [ca_blanket ca_devs].
  destruct ob; cbn [orb].
  - cbn [ca_blanket ca_devs]. rewrite andb_true_r. reflexivity.
  - destruct sb; cbn [ca_blanket ca_devs orb andb]; [reflexivity|]. apply has_key_filter.
Qed.

Lemma not_retain_trusts s g : can_retain s = false -> ca_trusts s g = false.
Proof.
  destruct s as [b d]. unfold can_retain, ca_trusts. cbn [ca_blanket ca_devs].
  destruct b; cbn [orb]; [discriminate|]. destruct d; [reflexivity | discriminate].
Qed.

Lemma trusts_inter a p k g : NoDup (map fst a) ->
  trusts (cal_inter a p) k g = trusts a k g && trusts p k g.
Proof.
  intros H. unfold trusts. rewrite (lookup_cal_inter a p k H).
  destruct (lookup k a) as [s|]; [|reflexivity].
  destruct (lookup k p) as [o|]; [|rewrite andb_false_r; reflexivity].
  destruct (can_retain (ca_inter s o)) eqn:E; [apply ca_trusts_inter|].
  rewrite <- ca_trusts_inter. symmetry. apply not_retain_trusts. exact E.
Qed.

Definition owf (o : option calist) : Prop :=
  match o with Some c => NoDup (map fst c) | None => True end.
Definition wf_policy (p : policy) : Prop := owf (p_ca p).

Lemma merge_ca_trusts acc p k g : owf acc ->
  otrusts (merge_ca acc p) k g = otrusts acc k g && otrusts p k g.
Proof.
  destruct p as [pc|], acc as [ac|]; cbn; intros H; try reflexivity.
  - apply trusts_inter. exact H.
  - rewrite andb_true_r. reflexivity.
Qed.
Lemma merge_ca_wf acc p : owf acc -> owf p -> owf (merge_ca acc p).
Proof.
  destruct p as [pc|], acc as [ac|]; cbn; intros H1 H2; auto. apply cal_inter_nodup. exact H1.
Qed.
Lemma merge_ca_some acc p : is_some (merge_ca acc p) = is_some acc || is_some p.
Proof. destruct p, acc; reflexivity. Qed.

Lemma fold_ca_some l : forall acc,
  is_some (fold_left merge_ca (map p_ca l) acc) = is_some acc || existsb (fun p => is_some (p_ca p)) l.
Proof.
  induction l as [|p l IH]; intros acc; cbn [map fold_left existsb]; [symmetry; apply orb_false_r|].
  rewrite IH, merge_ca_some. symmetry. apply orb_assoc.
Qed.

Lemma fold_ca_trusts k g l : Forall wf_policy l -> forall acc, owf acc ->
  otrusts (fold_left merge_ca (map p_ca l) acc) k g =
  otrusts acc k g && forallb (fun p => otrusts (p_ca p) k g) l.
Proof.
  induction 1 as [|p l Hp _ IH]; intros acc Hacc; cbn [map fold_left forallb]; [symmetry; apply andb_true_r|].
  rewrite IH, merge_ca_trusts by auto using merge_ca_wf. symmetry. apply andb_assoc.
Qed.

Lemma ca_some l : is_some (r_ca (fold_from l)) = existsb (fun p => is_some (p_ca p)) l.
Proof. rewrite fold_from_fields. apply fold_ca_some. Qed.
Lemma ca_exact l k g : Forall wf_policy l ->
  otrusts (r_ca (fold_from l)) k g = forallb (fun p => otrusts (p_ca p) k g) l.
Proof. intros H. rewrite fold_from_fields. apply (fold_ca_trusts k g l H None I). Qed.

Lemma merge_lim_max a x : merge_lim (Some a) (Some x) = Some (N.max a x).
Proof. cbn. destruct (N.ltb_spec a x); f_equal; lia. Qed.

Lemma flim_spec xs : forall a,
  fold_left merge_lim xs a =
  match a with
  | None => spec_lim xs
  | Some v => Some (fold_left N.max (somes xs) v)
  end.
Proof.
  induction xs as [|x xs IH]; intros a; cbn [fold_left]; [destruct a; reflexivity|].
  rewrite IH. destruct x as [y|], a as [v|]; rewrite ?merge_lim_max; reflexivity.
Qed.

Lemma ffb_spec xs : forall a,
  fold_left merge_fb xs a =
  match a with
  | None => spec_fb xs
  | Some b => Some (b && forallb (fun b => b) (somes xs))
  end.
Proof.
  induction xs as [|x xs IH]; intros a; cbn [fold_left].
  - destruct a as [b|]; [|reflexivity]. cbn. rewrite andb_true_r. reflexivity.
  - rewrite IH. destruct x as [[]|], a as [[]|]; reflexivity.
Qed.

Lemma rest_exact l :
  r_lft (fold_from l) = spec_lim (map p_lft l) /\
  r_lres (fold_from l) = spec_lim (map p_lres l) /\
  r_fb (fold_from l) = spec_fb (map p_fb l).
Proof. rewrite fold_from_fields. cbn [r_lft r_lres r_fb]. rewrite !flim_spec, ffb_spec. auto. Qed.

Definition scalars (r : resolved) :=
  (r_priv r, r_sess r, r_pwmin r, r_pwmax r, r_cred r, r_lft r, r_lres r, r_fb r).

Lemma opmin_comm a x y : opmin (opmin a x) y = opmin (opmin a y) x.
Proof. rewrite !opmin_min. lia. Qed.
Lemma opmax_comm a x y : opmax (opmax a x) y = opmax (opmax a y) x.
Proof. rewrite !opmax_max. lia. Qed.
Lemma merge_lim_comm a x y : merge_lim (merge_lim a x) y = merge_lim (merge_lim a y) x.
Proof.
  destruct a as [a|], x as [x|], y as [y|]; try reflexivity.
  - rewrite !merge_lim_max. f_equal. lia.
  - change (merge_lim (Some x) (Some y) = merge_lim (Some y) (Some x)). rewrite !merge_lim_max. f_equal. lia.
Qed.
Lemma merge_fb_comm a x y : merge_fb (merge_fb a x) y = merge_fb (merge_fb a y) x.
Proof. destruct a as [[]|], x as [[]|], y as [[]|]; reflexivity. Qed.

Lemma scalars_perm l1 l2 : Permutation l1 l2 -> scalars (fold_from l1) = scalars (fold_from l2).
Proof.
  intros HP. rewrite !fold_from_fields. unfold fmin, fmax.
  rewrite !(fold_map_perm opmin _ l1 l2 HP opmin_comm), !(fold_map_perm opmax _ l1 l2 HP opmax_comm),
          !(fold_map_perm merge_lim _ l1 l2 HP merge_lim_comm), (fold_map_perm merge_fb _ l1 l2 HP merge_fb_comm).
  reflexivity.
Qed.

(* same enforcement: same scalar fields, attestation constrained in both or in neither, and the
   same (CA, device) pairs accepted *)
Definition obs_equiv (a b : resolved) : Prop :=
  scalars a = scalars b /\ is_some (r_ca a) = is_some (r_ca b) /\
  forall k g, otrusts (r_ca a) k g = otrusts (r_ca b) k g.

Lemma perm_obs l1 l2 : Forall wf_policy l1 -> Permutation l1 l2 ->
  obs_equiv (fold_from l1) (fold_from l2).
Proof.
  intros Hwf HP. pose proof (Permutation_Forall HP Hwf) as Hwf'.
  split; [apply scalars_perm, HP|]. split.
  - rewrite !ca_some. apply existsb_perm, HP.
  - intros k g. rewrite !ca_exact by assumption. apply forallb_perm, HP.
Qed.

Lemma step_unset a :
  r_priv a <= MAX_PRIV -> r_sess a <= MAX_SESS -> PW_MFA_MIN <= r_pwmin a -> step a unset_policy = a.
Proof.
  intros H1 H2 H3. destruct a as [pr se pw pm cr ca lf lr fb]. unfold step, unset_policy. cbn in *.
  destruct (N.ltb_spec MAX_PRIV pr); [lia|]. destruct (N.ltb_spec MAX_SESS se); [lia|].
  destruct (N.ltb_spec pw PW_MFA_MIN); [lia|]. destruct (N.ltb_spec cr CT_ANY); [unfold CT_ANY in *; lia|].
  reflexivity.
Qed.

Lemma unset_neutral l1 l2 : fold_from (l1 ++ unset_policy :: l2) = fold_from (l1 ++ l2).
Proof.
  unfold fold_from. rewrite !fold_left_app. cbn [fold_left].
  rewrite step_unset; [reflexivity| | |]; rewrite fold_step_fields; cbn [r_priv r_sess r_pwmin].
  - apply fmin_le.
  - apply fmin_le.
  - apply fmax_ge.
Qed.

Lemma opt_eqb_eq {A} (e : A -> A -> bool) :
  (forall x y, e x y = true <-> x = y) -> forall a b, opt_eqb e a b = true <-> a = b.
Proof. intros He [x|] [y|]; cbn; rewrite ?He; split; congruence. Qed.
Lemma list_eqb_eq {A} (e : A -> A -> bool) :
  (forall x y, e x y = true <-> x = y) -> forall a b, list_eqb e a b = true <-> a = b.
Proof.
  intros He. induction a as [|x a IH]; intros [|y b]; cbn; try (split; congruence).
  rewrite andb_true_iff, He, IH. split; [intros [-> ->]; reflexivity | intros [= -> ->]; auto].
Qed.
Lemma pairN_eqb_eq a b : pairN_eqb a b = true <-> a = b.
Proof.
  destruct a as [a1 a2], b as [b1 b2]. unfold pairN_eqb. cbn [fst snd]. rewrite andb_true_iff, !N.eqb_eq.
  split; [intros [-> ->]; reflexivity | intros [= -> ->]; auto].
Qed.
Lemma ca_eqb_eq a b : ca_eqb a b = true <-> a = b.
Proof.
  destruct a as [ab ad], b as [bb bd]. unfold ca_eqb. cbn [ca_blanket ca_devs].
  rewrite andb_true_iff, eqb_true_iff, (list_eqb_eq _ pairN_eqb_eq).
  split; [intros [-> ->]; reflexivity | intros [= -> ->]; auto].
Qed.
Lemma cal_eqb_eq a b : cal_eqb a b = true <-> a = b.
Proof.
  apply list_eqb_eq. intros [k s] [k' s']. cbn [fst snd]. rewrite andb_true_iff, N.eqb_eq, ca_eqb_eq.
  split; [intros [-> ->]; reflexivity | intros [= -> ->]; auto].
Qed.
Lemma optN_eqb_eq a b : opt_eqb N.eqb a b = true <-> a = b.
Proof. apply opt_eqb_eq, N.eqb_eq. Qed.
Lemma optb_eqb_eq a b : opt_eqb Bool.eqb a b = true <-> a = b.
Proof. apply opt_eqb_eq, eqb_true_iff. Qed.
Lemma ocal_eqb_eq a b : opt_eqb cal_eqb a b = true <-> a = b.
Proof. apply opt_eqb_eq, cal_eqb_eq. Qed.

(* repeated, this turns a premise b1 && .. && bn = true into the n premises bi = true *)
Lemma andb_imp (b c : bool) (P : Prop) : (b = true -> c = true -> P) -> b && c = true -> P.
Proof. intros H E. apply andb_prop in E as [Eb Ec]. exact (H Eb Ec). Qed.

Lemma policy_eqb_sound a b : policy_eqb a b = true -> a = b.
Proof.
  destruct a, b. unfold policy_eqb. cbn. repeat refine (andb_imp _ _ _ _).
  intros ->%N.eqb_eq ->%N.eqb_eq ->%N.eqb_eq ->%N.eqb_eq ->%ocal_eqb_eq ->%optN_eqb_eq ->%optN_eqb_eq ->%optb_eqb_eq.
  reflexivity.
Qed.
Lemma resolved_eqb_sound a b : resolved_eqb a b = true -> a = b.
Proof.
  destruct a, b. unfold resolved_eqb. cbn. repeat refine (andb_imp _ _ _ _).
  intros ->%N.eqb_eq ->%N.eqb_eq ->%N.eqb_eq ->%N.eqb_eq ->%N.eqb_eq ->%ocal_eqb_eq ->%optN_eqb_eq ->%optN_eqb_eq
         ->%optb_eqb_eq.
  reflexivity.
Qed.

Lemma nodupb_sound l : nodupb l = true -> NoDup l.
Proof.
  induction l as [|x l IH]; cbn; [constructor|].
  rewrite andb_true_iff, negb_true_iff. intros [Hx Hl]. constructor; [|auto].
  intros Hin. rewrite <- not_true_iff_false in Hx. apply Hx, existsb_exists.
  exists x. split; [exact Hin | apply N.eqb_refl].
Qed.
(* wf_policyb p and wf_eattrsb e are this test on p_ca p and e_ca e *)
Lemma owf_sound o : match o with Some c => wf_calb c | None => true end = true -> owf o.
Proof. destruct o; [apply nodupb_sound | exact (fun _ => I)]. Qed.
Lemma wf_policies_sound l : forallb wf_policyb l = true -> Forall wf_policy l.
Proof.
  rewrite forallb_forall, Forall_forall. intros H p Hin. apply owf_sound, H, Hin.
Qed.
Lemma wf_groups_sound gs : forallb wf_eattrsb gs = true -> Forall wf_policy (filter_map policy_of_entry gs).
Proof.
  induction gs as [|e gs IH]; cbn [forallb filter_map]; [constructor|].
  rewrite andb_true_iff. intros [He Hgs]. unfold policy_of_entry at 1.
  destruct (e_class e); cbn [negb]; [|auto].
  constructor; [apply owf_sound, He | auto].
Qed.

Lemma remove1_perm : forall l x r, remove1 x l = Some r -> Permutation l (x :: r).
Proof.
  induction l as [|y l IH]; cbn; intros x r H; [discriminate|].
  destruct (policy_eqb x y) eqn:E.
  - apply policy_eqb_sound in E. subst. injection H as <-. apply Permutation_refl.
  - destruct (remove1 x l) as [r'|] eqn:R; [|discriminate]. injection H as <-.
    eapply perm_trans; [apply perm_skip, (IH _ _ R) | apply perm_swap].
Qed.
Lemma permb_sound : forall l l', permb l l' = true -> Permutation l l'.
Proof.
  induction l as [|x l IH]; cbn; intros l' H.
  - destruct l'; [constructor | discriminate].
  - destruct (remove1 x l') as [r|] eqn:R; [|discriminate].
    apply IH in H. apply remove1_perm in R.
    eapply perm_trans; [apply perm_skip, H | apply Permutation_sym, R].
Qed.

Lemma strict_ok_fold l : strict_ok l (fold_from l) = true.
Proof.
  apply forallb_forall. intros p Hin. destruct (strictest_scalar l p Hin) as (H1 & H2 & H3 & H4).
  repeat (apply andb_true_intro; split); apply N.leb_le; assumption.
Qed.

Lemma attained_b (l : list policy) (g : policy -> N) x m :
  (x = m \/ exists p, In p l /\ g p = x) -> (x =? m) || existsb (fun p => g p =? x) l = true.
Proof.
  intros [->|(p & Hin & E)]; [rewrite N.eqb_refl; reflexivity|].
  apply orb_true_iff. right. apply existsb_exists. exists p. split; [exact Hin | apply N.eqb_eq, E].
Qed.

Lemma tight_ok_fold l : tight_ok l (fold_from l) = true.
Proof.
  destruct (bounds_scalar l) as (B1 & B2 & B3 & B4). destruct (tight_scalar l) as (T1 & T2 & T3 & T4).
  unfold tight_ok. repeat (apply andb_true_intro; split).
  - apply N.leb_le, B1.
  - apply attained_b, T1.
  - apply N.leb_le, B2.
  - apply attained_b, T2.
  - apply attained_b, T3.
  - apply N.leb_le, B3.
  - destruct T4 as [T4|[T4|[T4 T5]]].
    + rewrite T4, N.eqb_refl. reflexivity.
    + rewrite (attained_b l p_pwmin _ PW_MFA_MIN (or_intror T4)). reflexivity.
    + apply N.ltb_lt in T5. rewrite T4, T5, N.eqb_refl. apply orb_true_r.
  - apply N.eqb_eq, B4.
Qed.

Lemma sfa_ok_fold l : sfa_ok (fold_from l) = true.
Proof.
  unfold sfa_ok. destruct (N.leb_spec CT_MFA (r_cred (fold_from l))) as [|Hlt]; [reflexivity|].
  apply N.leb_le, sfa_min, Hlt.
Qed.

Lemma ca_ok_fold u l : Forall wf_policy l -> ca_ok u l (fold_from l) = true.
Proof.
  intros Hwf. unfold ca_ok. rewrite ca_some, eqb_reflx. apply forallb_forall. intros kg _.
  rewrite (ca_exact l _ _ Hwf). apply eqb_reflx.
Qed.

Lemma rest_ok_fold l : rest_ok l (fold_from l) = true.
Proof.
  destruct (rest_exact l) as (R1 & R2 & R3). unfold rest_ok.
  repeat (apply andb_true_intro; split); [apply optN_eqb_eq, R1 | apply optN_eqb_eq, R2 | apply optb_eqb_eq, R3].
Qed.

Lemma spec_ok_fold l u : Forall wf_policy l -> spec_ok u l (fold_from l) = true.
Proof.
  intros Hwf. unfold spec_ok.
  rewrite strict_ok_fold, tight_ok_fold, sfa_ok_fold, (ca_ok_fold u l Hwf), rest_ok_fold. reflexivity.
Qed.

Lemma obs_eqb_of_equiv a b u : obs_equiv a b -> obs_eqb u a b = true.
Proof.
  intros (Hs & Hi & Ht). injection Hs as H1 H2 H3 H4 H5 H6 H7 H8.
  unfold obs_eqb. repeat (apply andb_true_intro; split); try (apply N.eqb_eq; assumption).
  - apply eqb_true_iff, Hi.
  - apply forallb_forall. intros kg _. apply eqb_true_iff, Ht.
  - apply optN_eqb_eq, H6.
  - apply optN_eqb_eq, H7.
  - apply optb_eqb_eq, H8.
Qed.

Lemma agree_pcheck c : agree c = true -> pcheck c = true.
Proof.
  destruct c as [l l' o o' | e impl | gs impl]; unfold agree, pcheck; cbn [case_wf]; repeat refine (andb_imp _ _ _ _).
  - intros Hwf%wf_policies_sound HP%permb_sound [<-%resolved_eqb_sound <-%resolved_eqb_sound]%andb_prop.
    pose proof (Permutation_Forall HP Hwf) as Hwf'. rewrite !spec_ok_fold by assumption.
    apply obs_eqb_of_equiv, perm_obs; assumption.
  - intros _. unfold policy_of_entry. destruct (e_class e), impl as [p|]; cbn [negb opt_eqb]; try discriminate; [|reflexivity].
    intros <-%policy_eqb_sound. cbn [p_priv p_sess p_pwmin p_cred p_ca p_lft p_lres p_fb andb].
    repeat (apply andb_true_intro; split); try apply N.eqb_refl;
      [apply ocal_eqb_eq | apply optN_eqb_eq | apply optN_eqb_eq | apply optb_eqb_eq]; reflexivity.
  - intros Hwf%wf_groups_sound <-%resolved_eqb_sound. apply spec_ok_fold, Hwf.
Qed.
