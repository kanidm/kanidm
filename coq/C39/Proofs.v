(* An exchange or a refresh that succeeds is [issue] on inputs that passed every
   gate (exchange_ok, refresh_ok); one refusal lemma per endpoint for a token that fails a gate;
   the invariant over histories behind C39_refresh_subset; the vectors for K1 and K2. *)
From Coq Require Import List NArith Bool.
Import ListNotations.
Require Import KV.C39.Model.
Open Scope N_scope.

Lemma mem_In x l : mem x l = true -> In x l.
Proof.
  unfold mem. rewrite existsb_exists. intros (y & Hy & E). apply N.eqb_eq in E. subst. exact Hy.
Qed.

Lemma subset_incl a b : subset a b = true -> incl a b.
Proof.
  unfold subset. rewrite forallb_forall. intros H x Hx. apply mem_In, H, Hx.
Qed.

Lemma lookup_In {A} k (l : list (N * A)) v : lookup k l = Some v -> In (k, v) l.
Proof.
  induction l as [|[k' v'] r IH]; cbn [lookup]; [discriminate|].
  destruct (N.eqb_spec k k') as [->|_].
  - intros [= ->]. left. reflexivity.
  - intros H. right. apply IH, H.
Qed.

Lemma lookup_cons_ne {A} k k' (v' : A) l : k <> k' -> lookup k ((k', v') :: l) = lookup k l.
Proof. intros H. cbn [lookup]. destruct (N.eqb_spec k k'); [contradiction|reflexivity]. Qed.

Lemma find_os_id sid l o : find_os sid l = Some o -> os_id o = sid.
Proof.
  induction l as [|x r IH]; cbn [find_os]; [discriminate|].
  destruct (N.eqb_spec (os_id x) sid) as [E|_]; [intros [= <-]; exact E | exact IH].
Qed.

Lemma find_os_map f sid l :
  (forall o, os_id (f o) = os_id o) ->
  find_os sid (map f l) = option_map f (find_os sid l).
Proof.
  intros Hid. induction l as [|o r IH]; [reflexivity|].
  cbn [map find_os]. rewrite Hid. destruct (os_id o =? sid); [reflexivity|exact IH].
Qed.

Lemma revoke_os_id o : os_id (revoke_os o) = os_id o.
Proof. reflexivity. Qed.

Lemma orphan_rule_id ct us o : os_id (orphan_rule ct us o) = os_id o.
Proof. unfold orphan_rule. destruct (parent_live _ _); [reflexivity|]. destruct (_ <=? _); reflexivity. Qed.

Lemma sweep_os_id ct us o : os_id (sweep_os ct us o) = os_id o.
Proof.
  unfold sweep_os. destruct (os_state o) as [|e|]; [reflexivity| |apply orphan_rule_id].
  destruct (e <=? ct); [reflexivity|apply orphan_rule_id].
Qed.

Lemma sweep_os_revoked ct us o : os_state o = SRevoked -> os_state (sweep_os ct us o) = SRevoked.
Proof. intros H. unfold sweep_os. rewrite H. exact H. Qed.

Lemma find_os_sweep ct s sid :
  find_os sid (o2s (sweep ct s)) =
  option_map (sweep_os ct (map (sweep_uat ct) (uats s))) (find_os sid (o2s s)).
Proof. unfold sweep; cbn [o2s]. apply find_os_map. intros o. apply sweep_os_id. Qed.

Lemma find_os_revoke_sid sid l o :
  find_os sid l = Some o -> find_os sid (revoke_sid sid l) = Some (revoke_os o).
Proof.
  intros H. unfold revoke_sid.
  rewrite find_os_map by (intros x; destruct (os_id x =? sid); [apply revoke_os_id|reflexivity]).
  rewrite H. cbn [option_map]. rewrite (find_os_id _ _ _ H), N.eqb_refl. reflexivity.
Qed.

(* Removed(OAuth2Session, sid) followed by the plugin sweep, as done on reuse detection and by
   oauth2_token_revoke: the record is still there, revoked *)
Lemma revoke_sid_sweep ct s sid o :
  find_os sid (o2s s) = Some o ->
  exists o', find_os sid (o2s (sweep ct (with_o2s s (revoke_sid sid (o2s s))))) = Some o' /\
             os_state o' = SRevoked.
Proof.
  intros H. rewrite find_os_sweep. unfold with_o2s; cbn [o2s uats].
  rewrite (find_os_revoke_sid _ _ _ H). eexists. split; [reflexivity|].
  apply sweep_os_revoked. reflexivity.
Qed.

Lemma client_auth_some cf client sec_ok k :
  client_auth cf client sec_ok = Some k <-> nth_error cf (N.to_nat client) = Some k /\ sec_ok = true.
Proof.
  unfold client_auth. destruct (nth_error cf (N.to_nat client)); [destruct sec_ok|]; intuition congruence.
Qed.

Lemma code_checks_none h pkce client c redir ver ct :
  code_checks h pkce client c redir ver ct = None <->
  (c_client c = client /\ secs ct < c_exp c /\ redir = c_redir c /\
   match c_chal c with
   | Some ch => exists v, ver = Some v /\ h v = ch
   | None => pkce = false /\ ver = None
   end).
Proof.
  unfold code_checks, pkce_verify. split.
  - (* every test that fails answers Some error *)
    destruct (N.eqb_spec (c_client c) client) as [Ec|_]; [|discriminate].
    destruct (N.leb_spec (c_exp c) (secs ct)) as [_|Hx]; [discriminate|].
    cbn [negb]. intros H. split; [exact Ec|]. split; [exact Hx|]. revert H.
    destruct (c_chal c) as [ch|].
    + destruct ver as [v|]; [|discriminate].
      destruct (N.eqb_spec (h v) ch) as [Eh|_]; [|discriminate].
      destruct (N.eqb_spec redir (c_redir c)) as [Er|_]; [|discriminate].
      intros _. split; [exact Er|]. exists v. split; [reflexivity|exact Eh].
    + destruct pkce; [discriminate|]. destruct ver; [discriminate|].
      destruct (N.eqb_spec redir (c_redir c)) as [Er|_]; [|discriminate].
      intros _. repeat split. exact Er.
  - intros (Ec & Hx & Er & Hch). apply N.eqb_eq in Ec, Er. apply N.leb_gt in Hx.
    rewrite Ec, Hx, Er. cbn [negb].
    destruct (c_chal c) as [ch|].
    + destruct Hch as (v & -> & Eh). apply N.eqb_eq in Eh. rewrite Eh. reflexivity.
    + destruct Hch as (-> & ->). reflexivity.
Qed.

Definition redeemable (h : N -> N) (cf : cfg) (client : N) (sec_ok : bool) (oc : option (N * code))
                      (redir : N) (ver : option N) (ct : N) : Prop :=
  exists pkce rexp cid c,
    nth_error cf (N.to_nat client) = Some (pkce, rexp) /\ sec_ok = true /\ oc = Some (cid, c) /\
    c_client c = client /\ secs ct < c_exp c /\ redir = c_redir c /\
    match c_chal c with
    | Some ch => exists v, ver = Some v /\ h v = ch
    | None => pkce = false /\ ver = None
    end.

Lemma exchange_ok h cf client sec_ok oc redir ver ct fresh s t s' :
  exchange h cf client sec_ok oc redir ver ct fresh s = (inr t, s') <->
  exists pkce rexp cid c,
    client_auth cf client sec_ok = Some (pkce, rexp) /\ oc = Some (cid, c) /\
    code_checks h pkce client c redir ver ct = None /\
    issue rexp client ct (c_scopes c) (Some (c_parent c)) fresh cid s = (t, s').
Proof.
  unfold exchange. split.
  - destruct (client_auth cf client sec_ok) as [[pkce rexp]|]; [|discriminate].
    destruct oc as [[cid c]|]; [|discriminate].
    destruct (code_checks h pkce client c redir ver ct) eqn:Hk; [discriminate|].
    intros [= <- <-]. exists pkce, rexp, cid, c. auto.
  - intros (pkce & rexp & cid & c & -> & -> & -> & ->). reflexivity.
Qed.

Lemma exchange_err_state h cf client sec_ok oc redir ver ct fresh s e s' :
  exchange h cf client sec_ok oc redir ver ct fresh s = (inl e, s') -> s' = s.
Proof.
  unfold exchange. destruct (client_auth cf client sec_ok) as [[pkce rexp]|]; [|intros [= _ <-]; reflexivity].
  destruct oc as [[cid c]|]; [|intros [= _ <-]; reflexivity].
  destruct (code_checks h pkce client c redir ver ct); [intros [= _ <-]; reflexivity|].
  unfold issue. discriminate.
Qed.

Lemma refresh_ok cf client sec_ok ot req ct s t' s' :
  refresh cf client sec_ok ot req ct s = (inr t', s') ->
  exists pkce rexp t o sc,
    client_auth cf client sec_ok = Some (pkce, rexp) /\ ot = Some t /\ t_client t = client /\
    secs ct < t_rexp t /\ acct_valid s (t_sid t) (t_parent t) (t_iat t) ct = true /\
    find_os (t_sid t) (o2s s) = Some o /\ secs (os_issued o) <= t_iat t /\
    incl sc (t_scopes t) /\ match req with Some rs => sc = rs | None => sc = t_scopes t end /\
    issue rexp client ct sc (t_parent t) (t_sid t) (t_code t) s = (t', s').
Proof.
  unfold refresh.
  destruct (client_auth cf client sec_ok) as [[pkce rexp]|]; [|discriminate].
  destruct ot as [t|]; [|discriminate].
  destruct (N.eqb_spec (t_client t) client) as [Hc|_]; [|discriminate].
  destruct (N.leb_spec (t_rexp t) (secs ct)) as [_|Hx]; [discriminate|].
  destruct (acct_valid s (t_sid t) (t_parent t) (t_iat t) ct) eqn:Hv; [|discriminate].
  destruct (find_os (t_sid t) (o2s s)) as [o|] eqn:Hf; [|discriminate].
  destruct (N.ltb_spec (t_iat t) (secs (os_issued o))) as [_|Hr]; [discriminate|].
  cbn [negb]. intros H. exists pkce, rexp, t, o.
  destruct req as [rs|]; [destruct (subset rs (t_scopes t)) eqn:Hs; [|discriminate]|].
  - apply subset_incl in Hs. injection H as <- <-. exists rs. auto 12.
  - injection H as <- <-. exists (t_scopes t). auto 12 using incl_refl.
Qed.

Lemma refresh_reuse cf client sec_ok k t req ct s o :
  client_auth cf client sec_ok = Some k -> t_client t = client -> secs ct < t_rexp t ->
  acct_valid s (t_sid t) (t_parent t) (t_iat t) ct = true ->
  find_os (t_sid t) (o2s s) = Some o -> t_iat t < secs (os_issued o) ->
  refresh cf client sec_ok (Some t) req ct s =
  (inl E_GRANT, sweep ct (with_o2s s (revoke_sid (t_sid t) (o2s s)))).
Proof.
  intros Hk Hc Hx Hv Hf Hr. unfold refresh. destruct k as [pkce rexp].
  apply N.eqb_eq in Hc. apply N.leb_gt in Hx. apply N.ltb_lt in Hr.
  rewrite Hk, Hc, Hx, Hv, Hf, Hr. reflexivity.
Qed.

Lemma refresh_refused cf client sec_ok t req ct s :
  t_client t <> client \/ t_rexp t <= secs ct \/
  acct_valid s (t_sid t) (t_parent t) (t_iat t) ct = false ->
  exists e, refresh cf client sec_ok (Some t) req ct s = (inl e, s).
Proof.
  intros H. unfold refresh.
  destruct (client_auth cf client sec_ok) as [[pkce rexp]|]; [|eexists; reflexivity].
  destruct (N.eqb_spec (t_client t) client); [|eexists; reflexivity].
  destruct (N.leb_spec (t_rexp t) (secs ct)) as [_|Hx]; [eexists; reflexivity|]. apply N.lt_nge in Hx.
  destruct H as [H|[H| ->]]; [contradiction|contradiction|]. eexists; reflexivity.
Qed.

Lemma userinfo_refused cf client t ct s :
  t_client t <> client \/ t_aexp t <= secs ct \/
  acct_valid s (t_sid t) (t_parent t) (t_iat t) ct = false ->
  exists e, userinfo cf client t ct s = RErr e.
Proof.
  intros H. unfold userinfo.
  destruct (nth_error cf (N.to_nat client)); [|eexists; reflexivity].
  destruct (N.eqb_spec (t_client t) client); [|eexists; reflexivity].
  destruct (N.leb_spec (t_aexp t) (secs ct)) as [_|Hx]; [eexists; reflexivity|]. apply N.lt_nge in Hx.
  destruct H as [H|[H| ->]]; [contradiction|contradiction|]. eexists; reflexivity.
Qed.

Lemma introspect_refused t ct s :
  t_aexp t <= secs ct \/ acct_valid s (t_sid t) (t_parent t) (t_iat t) ct = false ->
  introspect t false ct s = RIntro false [].
Proof.
  intros H. unfold introspect.
  destruct (N.leb_spec (t_aexp t) (secs ct)) as [_|Hx]; [reflexivity|]. apply N.lt_nge in Hx.
  destruct H as [H| ->]; [contradiction|reflexivity].
Qed.

Definition refused_everywhere (cf : cfg) (s : st) (t : tok) (ct : N) : Prop :=
  (forall client sec_ok req, exists e, refresh cf client sec_ok (Some t) req ct s = (inl e, s)) /\
  introspect t false ct s = RIntro false [] /\
  (forall client, exists e, userinfo cf client t ct s = RErr e).

Lemma refused_if cf s t ct :
  acct_valid s (t_sid t) (t_parent t) (t_iat t) ct = false \/
  (t_rexp t <= secs ct /\ t_aexp t <= secs ct) ->
  refused_everywhere cf s t ct.
Proof.
  intros H. split; [|split]; intros.
  - apply refresh_refused. tauto.
  - apply introspect_refused. tauto.
  - apply userinfo_refused. tauto.
Qed.

Lemma live_at_false ct st :
  live_at ct st = false <-> st = SRevoked \/ exists e, st = SExpires e /\ e <= ct.
Proof.
  destruct st as [|e|]; cbn [live_at].
  - split; [left|]; reflexivity.
  - rewrite N.ltb_ge. split.
    + intros H. right. exists e. split; [reflexivity|exact H].
    + intros [E|(e' & [= <-] & H)]; [discriminate|exact H].
  - split; [discriminate | intros [E|(e' & E & _)]; discriminate].
Qed.

Definition dead (s : st) (t : tok) (ct : N) : Prop :=
  (exists o, find_os (t_sid t) (o2s s) = Some o /\ live_at ct (os_state o) = false) \/
  (exists o p us, find_os (t_sid t) (o2s s) = Some o /\ t_parent t = Some p /\
                  lookup p (uats s) = Some us /\ live_at ct us = false) \/
  in_window s ct = false.

Lemma dead_invalid s t ct : dead s t ct -> acct_valid s (t_sid t) (t_parent t) (t_iat t) ct = false.
Proof.
  unfold acct_valid. intros [(o & Hf & Hs) | [(o & p & us & Hf & Hp & Hu & Hl) | Hw]].
  - rewrite Hf, Hs. apply andb_false_r.
  - rewrite Hf, Hp, Hu, Hl. destruct (negb (live_at ct (os_state o))); apply andb_false_r.
  - rewrite Hw. reflexivity.
Qed.

Definition lapsed (s : st) (t : tok) (ct : N) : Prop :=
  exists o p e, find_os (t_sid t) (o2s s) = Some o /\ t_parent t = Some p /\
                lookup p (uats s) = Some (SExpires e) /\ e <= ct.

Lemma lapsed_dead s t ct : lapsed s t ct -> dead s t ct.
Proof.
  intros (o & p & e & Hf & Hp & Hu & He). right. left. exists o, p, (SExpires e).
  repeat split; try assumption. apply live_at_false. right. exists e. split; [reflexivity|exact He].
Qed.

Definition tok_ok (codes : list (N * code)) (t : tok) : Prop :=
  exists c, lookup (t_code t) codes = Some c /\ incl (t_scopes t) (c_scopes c) /\
            t_client t = c_client c /\ t_parent t = Some (c_parent c).

Lemma exchange_tok_ok h cf client sec_ok oc redir ver ct fresh s t s' codes :
  exchange h cf client sec_ok oc redir ver ct fresh s = (inr t, s') ->
  (forall cid c, oc = Some (cid, c) -> lookup cid codes = Some c) ->
  tok_ok codes t.
Proof.
  intros H Hoc. apply exchange_ok in H. destruct H as (pkce & rexp & cid & c & _ & E & Hk & [= <- _]).
  apply code_checks_none in Hk. exists c. cbn [t_code t_scopes t_client t_parent].
  split; [exact (Hoc cid c E)|]. split; [apply incl_refl|]. split; [symmetry; apply Hk|reflexivity].
Qed.

Lemma refresh_tok_ok cf client sec_ok ot req ct s t' s' codes :
  refresh cf client sec_ok ot req ct s = (inr t', s') ->
  (forall t, ot = Some t -> tok_ok codes t) ->
  tok_ok codes t'.
Proof.
  intros H Hot. apply refresh_ok in H.
  destruct H as (pkce & rexp & t & o & sc & _ & E & Hc & _ & _ & _ & _ & Hsc & _ & [= <- _]).
  destruct (Hot t E) as (c & Hl & Hincl & Hcl & Hp). exists c. cbn [t_code t_scopes t_client t_parent].
  split; [exact Hl|]. split; [exact (incl_tran Hsc Hincl)|]. split; [rewrite <- Hc; exact Hcl|exact Hp].
Qed.

(* code keys lie below the index of the next operation, so the key of a new code is fresh.
   Only e_codes and e_toks matter: Inv i (with_st e s) IS Inv i e. *)
Definition Inv (i : N) (e : env) : Prop :=
  (forall k c, In (k, c) (e_codes e) -> k < i) /\
  (forall k t, In (k, t) (e_toks e) -> tok_ok (e_codes e) t).

Lemma Inv_S i e : Inv i e -> Inv (N.succ i) e.
Proof. intros [H1 H2]. split; [|exact H2]. intros k c Hk. apply N.lt_lt_succ_r, (H1 k c Hk). Qed.

Lemma Inv_code i e c :
  Inv i e -> Inv (N.succ i) (mkenv (e_st e) ((i, c) :: e_codes e) (e_toks e) (e_cur e)).
Proof.
  intros [H1 H2]. split; cbn [e_codes e_toks].
  - intros k c' [[= <- <-]|Hin]; [apply N.lt_succ_diag_r | apply N.lt_lt_succ_r, (H1 k c' Hin)].
  - intros k t Hin. destruct (H2 k t Hin) as (c' & Hl & Hrest). exists c'. split; [|exact Hrest].
    rewrite lookup_cons_ne; [exact Hl|]. apply lookup_In, H1, N.lt_neq in Hl. exact Hl.
Qed.

Lemma Inv_add_tok i e k t s : Inv i e -> tok_ok (e_codes e) t -> Inv i (add_tok e k t s).
Proof.
  intros [H1 H2] Ht. split; [exact H1|]. unfold add_tok; cbn [e_toks e_codes].
  intros k' t' [[= <- <-]|Hin]; [exact Ht | eapply H2; exact Hin].
Qed.

Lemma step_Inv h cf i e o : Inv i e -> Inv (N.succ i) (fst (step h cf i e o)).
Proof.
  intros HI.
  destruct o as [| ct client sec_ok cd redir ver | ct client sec_ok tk req | | | ct tk r | | | |];
    cbn [step].
  1: exact (Inv_code i e _ HI).
  all: apply Inv_S.
  1: { (* OExch: the code presented was looked up in e_codes *)
    destruct (exchange _ _ _ _ _ _ _ _ _ _) as [[er|t] s'] eqn:Ex; [exact HI|].
    apply Inv_add_tok; [exact HI|]. eapply exchange_tok_ok; [exact Ex|].
    intros cid c. destruct cd as [ci|]; [|discriminate].
    destruct (lookup ci (e_codes e)) eqn:El; intros [= <- <-]. exact El. }
  1: { (* ORefr: the token presented was looked up in e_toks *)
    destruct (refresh _ _ _ _ _ _ _) as [[er|t'] s'] eqn:Er; [exact HI|].
    apply Inv_add_tok; [exact HI|]. eapply refresh_tok_ok; [exact Er|].
    intros t Hot. destruct tk as [[ti [|]]|]; try discriminate.
    apply lookup_In in Hot. exact (proj2 HI _ _ Hot). }
  (* the other operations keep the codes and the tokens; ORevoke after a lookup *)
  all: try exact HI.
  destruct (lookup tk (e_toks e)); exact HI.
Qed.

Lemma run_Inv h cf : forall ops i e, Inv i e -> exists j, Inv j (fst (run_from h cf i e ops)).
Proof.
  induction ops as [|o r IH]; intros i e HI; cbn [run_from].
  - exists i. exact HI.
  - pose proof (step_Inv h cf i e o HI) as HS.
    destruct (step h cf i e o) as [e1 x]. cbn [fst] in HS.
    destruct (IH (N.succ i) e1 HS) as (j & Hj).
    destruct (run_from h cf (N.succ i) e1 r) as [e2 xs]. exists j. exact Hj.
Qed.

Lemma Inv0 us : Inv 0 (env0 us).
Proof. split; intros k x []. Qed.

(* executable form of "a presented refresh token that is not the latest issuance of its session
   (right client, right secret, unexpired) is refused" over a model run *)
Fixpoint reuse_refused (h : N -> N) (cf : cfg) (i : N) (e : env) (ops : list op) : bool :=
  match ops with
  | [] => true
  | o :: r =>
      let '(e1, x) := step h cf i e o in
      (match o with
       | ORefr ct client true (Some (ti, true)) _ =>
           match lookup ti (e_toks e) with
           | Some t =>
               match lookup (t_sid t) (e_cur e) with
               | Some j => if negb (j =? ti) && (t_client t =? client) && (secs ct <? t_rexp t)
                           then is_err x else true
               | None => true
               end
           | None => true
           end
       | _ => true
       end) && reuse_refused h cf (N.succ i) e1 r
  end.

Fixpoint times_sorted (last : N) (ops : list op) : bool :=
  match ops with
  | [] => true
  | o :: r => (last <=? op_ct o) && times_sorted (op_ct o) r
  end.

(* K2 (documentation of the behaviour BEFORE fix 8607e8e): parent session expired at 10400 s and
   not swept; at 10500 s the old validity function still said valid, the fixed one refuses *)
Definition k2_st : st :=
  mkst None None [(0, SExpires (10400 * NS))]
       [mkos 1 (Some 0) (SExpires (10100 * NS + 57600 * NS)) (10100 * NS) 0].
Definition k2_tok : tok := mktok 0 [0; 1] (Some 0) 1 10100 11000 67700 0.

Lemma k2_lapsed : lapsed k2_st k2_tok (10500 * NS).
Proof.
  eexists. exists 0, (10400 * NS). repeat split; try reflexivity. vm_compute. discriminate.
Qed.

Lemma k2_prefix_valid :
  acct_valid_prefix k2_st (t_sid k2_tok) (t_parent k2_tok) (t_iat k2_tok) (10500 * NS) = true.
Proof. vm_compute. reflexivity. Qed.

Lemma k2_fixed_inactive : introspect k2_tok false (10500 * NS) k2_st = RIntro false [].
Proof. vm_compute. reflexivity. Qed.

(* K1: reuse of a rotated refresh token within the second of its issue is accepted.
   History: code, exchange (tokens #1), refresh with #1 (tokens #2) in the same second,
   refresh with #1 AGAIN 40 s later. *)
Definition k1_cf : cfg := [(false, 57600)].
Definition k1_ops : list op :=
  [ OCode (10000 * NS) 0 0 None 0 [0; 1];
    OExch (10000 * NS + 100) 0 true (Some 0) 0 None;
    ORefr (10000 * NS + 500) 0 true (Some (1, true)) None;
    ORefr (10040 * NS) 0 true (Some (1, true)) None ].

Lemma k1_sorted : times_sorted 0 k1_ops = true.
Proof. vm_compute. reflexivity. Qed.

Lemma k1_reused : reuse_refused (fun _ => 0) k1_cf 0 (env0 [(0, SNever)]) k1_ops = false.
Proof. vm_compute. reflexivity. Qed.
