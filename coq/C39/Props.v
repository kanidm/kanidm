(* The model has one account, its parent sessions and OAuth2 sessions, and confidential clients;
   [h] is the PKCE hash (SHA-256 in the implementation), a parameter here. *)
From Coq Require Import List NArith Bool.
Import ListNotations.
Require Import KV.C39.Model KV.C39.Proofs.
Open Scope N_scope.

(* An authorisation code yields tokens EXACTLY when: the client is known and authenticated, the
   code is a code of this client, it has not expired (whole seconds, 60 s after issue), the
   redirect URI equals the one of the authorisation request, and — when a PKCE challenge was
   recorded — a verifier is presented and hashes to it; without a recorded challenge the
   client must not enforce PKCE and no verifier may be presented. Nothing else is consulted
   (in particular not the state of the account or of the login session). *)
Theorem C39_code_redeem_iff : forall h cf client sec_ok oc redir ver ct fresh s,
  (exists t s', exchange h cf client sec_ok oc redir ver ct fresh s = (inr t, s')) <->
  redeemable h cf client sec_ok oc redir ver ct.
Proof.
  intros. unfold redeemable. split.
  - intros (t & s' & H). apply exchange_ok in H. destruct H as (pkce & rexp & cid & c & Ha & Hoc & Hk & _).
    apply client_auth_some in Ha. apply code_checks_none in Hk.
    exists pkce, rexp, cid, c. exact (conj (proj1 Ha) (conj (proj2 Ha) (conj Hoc Hk))).
  - intros (pkce & rexp & cid & c & Hn & Hs & Hoc & Hk).
    apply (conj Hn), client_auth_some in Hs. apply code_checks_none in Hk.
    destruct (issue rexp client ct (c_scopes c) (Some (c_parent c)) fresh cid s) as [t s'] eqn:Hi.
    exists t, s'. apply exchange_ok. exists pkce, rexp, cid, c. exact (conj Hs (conj Hoc (conj Hk Hi))).
Qed.

(* The tokens obtained from a code carry exactly the code's grant: its scopes, its parent (login)
   session, this client, a fresh session. *)
Theorem C39_code_grant_exact : forall h cf client sec_ok cid c redir ver ct fresh s t s',
  exchange h cf client sec_ok (Some (cid, c)) redir ver ct fresh s = (inr t, s') ->
  t_scopes t = c_scopes c /\ t_parent t = Some (c_parent c) /\ t_client t = client /\
  c_client c = client /\ t_sid t = fresh /\ t_code t = cid /\
  t_iat t = secs ct /\ t_aexp t = secs ct + ACCESS_EXP.
Proof.
  intros * H. apply exchange_ok in H.
  destruct H as (pkce & rexp & cid' & c' & _ & [= <- <-] & Hk & [= <- _]).
  apply code_checks_none in Hk. repeat split. apply Hk.
Qed.

(* A refused exchange leaves the account untouched. *)
Theorem C39_code_refusal_is_silent : forall h cf client sec_ok oc redir ver ct fresh s e s',
  exchange h cf client sec_ok oc redir ver ct fresh s = (inl e, s') -> s' = s.
Proof. exact exchange_err_state. Qed.

(* A successful refresh was made with a genuine, unexpired refresh token of THIS client whose
   account and sessions are valid; the new grant is within the presented token's scopes (equal
   to the request when one is made), for the same session, parent session and original code. *)
Theorem C39_refresh_within_token : forall cf client sec_ok ot req ct s t' s',
  refresh cf client sec_ok ot req ct s = (inr t', s') ->
  exists t, ot = Some t /\ sec_ok = true /\ t_client t = client /\ secs ct < t_rexp t /\
    acct_valid s (t_sid t) (t_parent t) (t_iat t) ct = true /\
    incl (t_scopes t') (t_scopes t) /\
    match req with Some rs => t_scopes t' = rs | None => t_scopes t' = t_scopes t end /\
    t_client t' = client /\ t_sid t' = t_sid t /\ t_parent t' = t_parent t /\ t_code t' = t_code t /\
    (exists o, find_os (t_sid t) (o2s s) = Some o /\ secs (os_issued o) <= t_iat t).
Proof.
  intros * H. apply refresh_ok in H.
  destruct H as (pkce & rexp & t & o & sc & Ha & Hot & Hc & Hx & Hv & Hf & Hr & Hsc & Hreq & [= <- _]).
  apply client_auth_some in Ha. exists t. cbn [t_scopes t_client t_sid t_parent t_code].
  repeat split; try assumption. apply Ha. exists o. exact (conj Hf Hr).
Qed.

(* Over EVERY history of operations (any length, any interleaving, any times): every token ever
   issued descends from an authorisation code of the same client and the same parent session,
   and its scopes are within that code's scopes — a refresh never grants beyond the original
   grant, however many refreshes (narrowing or not) lie in between. *)
Theorem C39_refresh_subset : forall h cf us ops k t,
  let e := fst (run_from h cf 0 (env0 us) ops) in
  In (k, t) (e_toks e) ->
  exists c, lookup (t_code t) (e_codes e) = Some c /\ incl (t_scopes t) (c_scopes c) /\
            t_client t = c_client c /\ t_parent t = Some (c_parent c).
Proof.
  intros h cf us ops k t e Hin.
  destruct (run_Inv h cf ops 0 (env0 us) (Inv0 us)) as (j & _ & H2).
  exact (H2 k t Hin).
Qed.

(* Reuse detection, one step: when an otherwise acceptable refresh token was issued in an earlier
   clock second than the session's latest issuance, the refresh is refused with invalid_grant AND
   the session is revoked in the resulting account.
   PARTIAL: the link "the token has been rotated" => "it was issued in an earlier second than the
   session's latest issuance" is not proved over histories here (it needs non-decreasing
   clocks); it is false when the rotation happened within the same second, see C39_refuted_replay. *)
Theorem C39_replay_revokes_partial : forall cf client k t req ct s o,
  client_auth cf client true = Some k -> t_client t = client -> secs ct < t_rexp t ->
  acct_valid s (t_sid t) (t_parent t) (t_iat t) ct = true ->
  find_os (t_sid t) (o2s s) = Some o -> t_iat t < secs (os_issued o) ->
  exists s' o', refresh cf client true (Some t) req ct s = (inl E_GRANT, s') /\
    find_os (t_sid t) (o2s s') = Some o' /\ os_state o' = SRevoked.
Proof.
  intros * Hk Hc Hx Hv Hf Hr. destruct (revoke_sid_sweep ct s _ o Hf) as (o' & Ho').
  eexists. exists o'. split; [exact (refresh_reuse _ _ _ _ _ req _ _ _ Hk Hc Hx Hv Hf Hr) | exact Ho'].
Qed.

(* A revoked session record stays revoked through the consistency sweep. (In the model a revocation
   and a later Present keep it too: `revoke_os` sets SRevoked and `state_gt _ SRevoked = false`; no
   theorem here says so.) *)
Theorem C39_revoked_is_final : forall ct us o, os_state o = SRevoked -> os_state (sweep_os ct us o) = SRevoked.
Proof. exact sweep_os_revoked. Qed.

(* Tokens whose OAuth2 session record is revoked or past its expiry, or whose parent (login)
   session record is revoked or past its expiry (while the OAuth2 session record exists; a token
   without one falls under the 300 s grace rule of `acct_valid`), or whose account is outside its
   validity window are refused by the refresh exchange (for every client, secret and scope request,
   leaving the account unchanged), by introspection (inactive) and by userinfo — whether or
   not the consistency sweep has already turned the expired session into a revoked one. *)
Theorem C39_dead_session_rejected : forall cf s t ct,
  dead s t ct -> refused_everywhere cf s t ct.
Proof. intros cf s t ct H. apply refused_if. left. apply dead_invalid, H. Qed.

(* ... spelled out for the case found by this check (K2, fixed by 8607e8e): an expired parent
   session that nothing has swept yet. *)
Theorem C39_lapsed_session_rejected : forall cf s t ct,
  lapsed s t ct -> refused_everywhere cf s t ct.
Proof. intros cf s t ct H. apply C39_dead_session_rejected. apply lapsed_dead. exact H. Qed.

(* `live_at .. = false`, as `dead` uses it, unfolded. *)
Theorem C39_session_over_iff : forall ct st,
  live_at ct st = false <-> st = SRevoked \/ exists e, st = SExpires e /\ e <= ct.
Proof. exact live_at_false. Qed.

(* Documentation of the behaviour BEFORE fix 8607e8e: the validity function that only looked for
   RevokedAt accepted a token whose parent session had expired 100 s earlier; the current one
   reports it inactive. *)
Theorem C39_prefix_lapsed_accepted :
  lapsed k2_st k2_tok (10500 * NS) /\
  acct_valid_prefix k2_st (t_sid k2_tok) (t_parent k2_tok) (t_iat k2_tok) (10500 * NS) = true /\
  introspect k2_tok false (10500 * NS) k2_st = RIntro false [].
Proof. exact (conj k2_lapsed (conj k2_prefix_valid k2_fixed_inactive)). Qed.

(* Expired tokens are refused by all three endpoints. *)
Theorem C39_expired_token_rejected : forall cf s t ct,
  t_rexp t <= secs ct -> t_aexp t <= secs ct -> refused_everywhere cf s t ct.
Proof. intros cf s t ct Hr Ha. apply refused_if. right. exact (conj Hr Ha). Qed.

(* A token is useless at any other client. *)
Theorem C39_foreign_client_refused : forall cf client t req ct s sec_ok,
  t_client t <> client ->
  (exists e, refresh cf client sec_ok (Some t) req ct s = (inl e, s)) /\
  (exists e, userinfo cf client t ct s = RErr e).
Proof.
  intros * Hc. split; [apply refresh_refused | apply userinfo_refused]; left; exact Hc.
Qed.

(* (a) dead tokens (revoked or expired session / parent session, account outside its window) are
   refused everywhere — proved: C39_dead_session_rejected *)
Definition C39_full_dead : Prop :=
  forall cf s t ct, dead s t ct -> refused_everywhere cf s t ct.
(* (b) in every history with non-decreasing clocks, an unexpired refresh token that is no longer the
   latest issuance of its session is refused when presented by its own, authenticated client *)
Definition C39_full_replay : Prop :=
  forall h cf us ops, times_sorted 0 ops = true -> reuse_refused h cf 0 (env0 us) ops = true.
Definition C39_full_statement : Prop := C39_full_dead /\ C39_full_replay.

Theorem C39_full_dead_holds : C39_full_dead.
Proof. exact C39_dead_session_rejected. Qed.

(* K1: code exchange and first refresh within one clock second; the rotated first refresh token
   is accepted again 40 s later. *)
Theorem C39_refuted_replay : ~ C39_full_replay.
Proof.
  intros H. specialize (H (fun _ => 0) k1_cf [(0, SNever)] k1_ops k1_sorted).
  rewrite k1_reused in H. discriminate.
Qed.

Theorem C39_refuted : ~ C39_full_statement.
Proof. intros [_ H]. exact (C39_refuted_replay H). Qed.
