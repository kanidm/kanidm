(* Concrete values meeting the hypotheses of the implication theorems,
   and concrete cases inside / outside the known classes. *)
From Coq Require Import List NArith Bool.
Import ListNotations.
Require Import KV.C39.Model KV.C39.Proofs.
Open Scope N_scope.

Definition w_cf : cfg := [(true, 1200); (false, 600)].
Definition w_h (v : N) : N := v + 1.
Definition w_s0 : st := mkst None None [(0, SExpires (20000 * NS)); (1, SNever)] [].
Definition w_code : code := mkcode 0 10060 (Some 1) 1 [0; 2; 3] 0.

(* C39_code_redeem_iff / C39_code_grant_exact: a PKCE code redeemed at its client with the right verifier *)
Example C39_witness_redeem :
  exists t s', exchange w_h w_cf 0 true (Some (7, w_code)) 1 (Some 0) (10059 * NS + 999999999) 8 w_s0 = (inr t, s')
               /\ t_scopes t = [0; 2; 3] /\ t_sid t = 8 /\ o2s s' <> [].
Proof. eexists. eexists. vm_compute. repeat split; discriminate. Qed.

(* ... and each of these deviations is refused: other client, late by one tick, other URI, wrong verifier,
   missing verifier, wrong client secret *)
Example C39_witness_redeem_refused :
  fst (exchange w_h w_cf 1 true (Some (7, w_code)) 1 (Some 0) (10059 * NS) 8 w_s0) = inl E_REQ /\
  fst (exchange w_h w_cf 0 true (Some (7, w_code)) 1 (Some 0) (10060 * NS) 8 w_s0) = inl E_REQ /\
  fst (exchange w_h w_cf 0 true (Some (7, w_code)) 0 (Some 0) (10059 * NS) 8 w_s0) = inl E_ORIGIN /\
  fst (exchange w_h w_cf 0 true (Some (7, w_code)) 1 (Some 1) (10059 * NS) 8 w_s0) = inl E_REQ /\
  fst (exchange w_h w_cf 0 true (Some (7, w_code)) 1 None (10059 * NS) 8 w_s0) = inl E_REQ /\
  fst (exchange w_h w_cf 0 false (Some (7, w_code)) 1 (Some 0) (10059 * NS) 8 w_s0) = inl E_AUTH.
Proof. vm_compute. repeat split; reflexivity. Qed.

(* a live session with one rotation in a LATER second: the state and the two tokens *)
Definition w_s1 : st :=
  mkst None None [(0, SExpires (20000 * NS)); (1, SNever)]
       [mkos 8 (Some 0) (SExpires (10030 * NS + 1200 * NS)) (10030 * NS) 0].
Definition w_old : tok := mktok 0 [0; 2; 3] (Some 0) 8 10010 10910 11210 7.
Definition w_new : tok := mktok 0 [0; 2] (Some 0) 8 10030 10930 11230 7.

(* C39_refresh_within_token: the current token refreshes, narrowing further *)
Example C39_witness_refresh_ok :
  exists t' s', refresh w_cf 0 true (Some w_new) (Some [2]) (10100 * NS) w_s1 = (inr t', s') /\ t_scopes t' = [2].
Proof. eexists. eexists. vm_compute. split; reflexivity. Qed.
(* ... but cannot widen back to what the FIRST token had *)
Example C39_witness_refresh_no_widen :
  fst (refresh w_cf 0 true (Some w_new) (Some [0; 2; 3]) (10100 * NS) w_s1) = inl E_SCOPE.
Proof. vm_compute. reflexivity. Qed.

(* C39_replay_revokes_partial: all six hypotheses hold for the rotated token *)
Example C39_witness_replay_hyps :
  client_auth w_cf 0 true = Some (true, 1200) /\ t_client w_old = 0 /\ secs (10100 * NS) < t_rexp w_old /\
  acct_valid w_s1 (t_sid w_old) (t_parent w_old) (t_iat w_old) (10100 * NS) = true /\
  find_os (t_sid w_old) (o2s w_s1) = Some (mkos 8 (Some 0) (SExpires (10030 * NS + 1200 * NS)) (10030 * NS) 0) /\
  t_iat w_old < secs (10030 * NS).
Proof. vm_compute. repeat split; reflexivity. Qed.

(* C39_dead_session_rejected: each way of being dead occurs *)
Definition w_s_rev : st := mkst None None [(0, SNever)] [mkos 8 (Some 0) SRevoked (10030 * NS) 0].
Definition w_s_prev : st := mkst None None [(0, SRevoked)] [mkos 8 (Some 0) (SExpires (99999 * NS)) (10030 * NS) 0].
Definition w_s_pexp : st := mkst None None [(0, SExpires (10099 * NS))] [mkos 8 (Some 0) (SExpires (99999 * NS)) (10030 * NS) 0].
Definition w_s_oexp : st := mkst None None [(0, SNever)] [mkos 8 (Some 0) (SExpires (10100 * NS)) (10030 * NS) 0].
Definition w_s_win : st := mkst None (Some (10050 * NS)) [(0, SNever)] [mkos 8 (Some 0) (SExpires (99999 * NS)) (10030 * NS) 0].
Example C39_witness_dead_session : dead w_s_rev w_new (10100 * NS).
Proof. left. eexists. split; reflexivity. Qed.
Example C39_witness_dead_session_expired : dead w_s_oexp w_new (10100 * NS).
Proof. left. eexists. split; [reflexivity | vm_compute; reflexivity]. Qed.
Example C39_witness_dead_parent : dead w_s_prev w_new (10100 * NS).
Proof. right. left. eexists. exists 0, SRevoked. repeat split; reflexivity. Qed.
Example C39_witness_dead_parent_expired : dead w_s_pexp w_new (10100 * NS) /\ lapsed w_s_pexp w_new (10100 * NS).
Proof.
  assert (L : lapsed w_s_pexp w_new (10100 * NS)).
  { eexists. exists 0, (10099 * NS). repeat split; try reflexivity. vm_compute. discriminate. }
  exact (conj (lapsed_dead _ _ _ L) L).
Qed.
Example C39_witness_dead_window : dead w_s_win w_new (10100 * NS).
Proof. right. right. vm_compute. reflexivity. Qed.
(* ... while the same token is accepted in the live state (the theorem is not about a model that refuses everything) *)
Example C39_witness_live_accepted :
  introspect w_new false (10100 * NS) w_s1 = RIntro true [0; 2] /\ userinfo w_cf 0 w_new (10100 * NS) w_s1 = RUnit.
Proof. vm_compute. split; reflexivity. Qed.

(* C39_expired_token_rejected / C39_foreign_client_refused *)
Example C39_witness_expired : t_rexp w_old <= secs (11210 * NS) /\ t_aexp w_old <= secs (11210 * NS).
Proof. vm_compute. split; discriminate. Qed.
Example C39_witness_foreign : t_client w_new <> 1.
Proof. discriminate. Qed.

(* C39_refresh_subset: a history with a narrowing refresh, a refused widening, a reuse that revokes *)
Definition w_ops : list op :=
  [ OCode (10000 * NS) 0 0 (Some 1) 1 [0; 2; 3];
    OExch (10010 * NS) 0 true (Some 0) 1 (Some 0);
    ORefr (10030 * NS) 0 true (Some (1, true)) (Some [0; 2]);
    ORefr (10040 * NS) 0 true (Some (2, true)) (Some [0; 2; 3]);
    OIntro (10041 * NS) 2 false;
    ORefr (10050 * NS) 0 true (Some (1, true)) None;
    OIntro (10051 * NS) 2 false ].
Example C39_witness_history :
  snd (run_from w_h w_cf 0 (env0 [(0, SNever)]) w_ops) =
  [ RUnit; RTok 1 [0; 2; 3] 10010 10910 11210 (Some 0); RTok 1 [0; 2] 10030 10930 11230 (Some 0);
    RErr E_SCOPE; RIntro true [0; 2]; RErr E_GRANT; RIntro false [] ] /\
  length (e_toks (fst (run_from w_h w_cf 0 (env0 [(0, SNever)]) w_ops))) = 2%nat.
Proof. vm_compute. split; reflexivity. Qed.

Definition w_obs1 : obs := ([(0, SNever)], [(1, Some 0, SExpires (10010 * NS + 1200 * NS), 10010 * NS, 0)]).
Definition w_case_ok : case :=
  CHist w_cf [(0, 1)] [(0, SNever)]
    [ (OCode (10000 * NS) 0 0 (Some 1) 1 [0; 2; 3], RUnit, ([(0, SNever)], []));
      (OExch (10010 * NS) 0 true (Some 0) 1 (Some 0), RTok 1 [0; 2; 3] 10010 10910 11210 (Some 0), w_obs1);
      (OIntro (10011 * NS) 1 false, RIntro true [0; 2; 3], w_obs1) ].
Example C39_witness_case_ok : agree w_case_ok = true /\ pcheck w_case_ok = true /\ known w_case_ok = false.
Proof. vm_compute. repeat split; reflexivity. Qed.

(* an implementation that redeems the code at ANOTHER redirect URI fails pcheck outside the known classes *)
Definition w_case_bad : case :=
  CHist w_cf [(0, 1)] [(0, SNever)]
    [ (OCode (10000 * NS) 0 0 (Some 1) 1 [0; 2; 3], RUnit, ([(0, SNever)], []));
      (OExch (10010 * NS) 0 true (Some 0) 0 (Some 0), RTok 1 [0; 2; 3] 10010 10910 11210 (Some 0), w_obs1) ].
Example C39_witness_case_bad : pcheck w_case_bad = false /\ known w_case_bad = false /\ agree w_case_bad = false.
Proof. vm_compute. repeat split; reflexivity. Qed.

(* parent session expired and unswept (the defect repaired by 8607e8e) as a case: parent session 0
   expires at 10400 s. The fixed server reports the token inactive at 10500 s (agrees with the model, property holds) ... *)
Definition w_obs_k2 : obs :=
  ([(0, SExpires (10400 * NS))], [(1, Some 0, SExpires (10010 * NS + 1200 * NS), 10010 * NS, 0)]).
Definition w_case_k2 (answer : res) : case :=
  CHist w_cf [(0, 1)] [(0, SExpires (10400 * NS))]
    [ (OCode (10000 * NS) 0 0 (Some 1) 1 [0], RUnit, ([(0, SExpires (10400 * NS))], []));
      (OExch (10010 * NS) 0 true (Some 0) 1 (Some 0), RTok 1 [0] 10010 10910 11210 (Some 0), w_obs_k2);
      (OIntro (10500 * NS) 1 false, answer, w_obs_k2) ].
Example C39_witness_case_k2_fixed :
  agree (w_case_k2 (RIntro false [])) = true /\ pcheck (w_case_k2 (RIntro false [])) = true.
Proof. vm_compute. split; reflexivity. Qed.
(* ... and the answer of the server before fix 8607e8e (active) is a property failure OUTSIDE the
   known class, and a disagreement with the model *)
Example C39_witness_case_k2_prefix :
  pcheck (w_case_k2 (RIntro true [0])) = false /\ known (w_case_k2 (RIntro true [0])) = false /\
  agree (w_case_k2 (RIntro true [0])) = false.
Proof. vm_compute. repeat split; reflexivity. Qed.

(* K1 as a case: exchange and first refresh in second 10010; the rotated token works again at 10050 *)
Definition w_case_k1 : case :=
  CHist w_cf [(0, 1)] [(0, SNever)]
    [ (OCode (10000 * NS) 0 0 (Some 1) 1 [0], RUnit, ([(0, SNever)], []));
      (OExch (10010 * NS) 0 true (Some 0) 1 (Some 0), RTok 1 [0] 10010 10910 11210 (Some 0),
       ([(0, SNever)], [(1, Some 0, SExpires (10010 * NS + 1200 * NS), 10010 * NS, 0)]));
      (ORefr (10010 * NS + 500) 0 true (Some (1, true)) None, RTok 1 [0] 10010 10910 11210 (Some 0),
       ([(0, SNever)], [(1, Some 0, SExpires (10010 * NS + 500 + 1200 * NS), 10010 * NS + 500, 0)]));
      (ORefr (10050 * NS) 0 true (Some (1, true)) None, RTok 1 [0] 10050 10950 11250 (Some 0),
       ([(0, SNever)], [(1, Some 0, SExpires (10050 * NS + 1200 * NS), 10050 * NS, 0)])) ].
Example C39_witness_case_k1 : agree w_case_k1 = true /\ pcheck w_case_k1 = false /\ known w_case_k1 = true.
Proof. vm_compute. repeat split; reflexivity. Qed.
