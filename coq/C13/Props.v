(* Vocabulary: a [dump] is the database as observed: the three identifiers (server uuid, domain
   uuid, maximum change time), the key handles, the id2entry rows (id, uuid, body, change ids),
   the in-memory replication update vector (change id -> entry ids, and per-server time
   ranges), the persisted `ruv` table and the cached maximum entry id.  [cont r] is a row
   without its id (what a backup stores).  [src_wf] is what every source database looks like
   (ids ascending from 1 or more, RUV keys ascending, ranges = the RUV keys grouped by server);
   it is checked on every source dump of every run.  [backup here], [restore_commit here tm]
   (restore followed by commit into a target whose cached maximum id was [tm]), [reopen]
   (close the database and open it again: the RUV is reloaded from the `ruv` table and rebuilt
   from the entries) and [create] transcribe the kanidm code. *)
From Coq Require Import List NArith Bool.
Import ListNotations.
Require Import KV.C13.Model KV.C13.Proofs.
Require KV.Base.Filter.
Require KV.C03.Model KV.C03.Proofs.
Open Scope N_scope.

(* ROUND TRIP. For EVERY well-formed source database that has its identifiers, every server
   version string and every target: the backup succeeds, restoring it succeeds, and both right
   after the restore (m) and after the database has been closed and opened again (reopen m)
   the target has the same server uuid, domain uuid, maximum change time and key handles, the
   same entries in the same order (only the ids are renumbered 1..n), the same RUV change
   ids, the same per-server ranges and the same persisted `ruv` table.  Right after the
   restore the id lists of the RUV are empty; after the re-open every change id lists exactly
   the restored entries whose change state carries it, and the cached maximum id is n. *)
Theorem C13_roundtrip : forall here src tm, src_wf src = true -> has_ids src ->
  exists b m, backup here src = Some b /\ restore_commit here tm b = Ok m /\
    SameDb src m /\ SameDb src (reopen m) /\
    g_ruv m = map (fun k => (k, [])) (map fst (g_ruv src)) /\
    g_ruv (reopen m) = map (fun k => (k, idl_spec (g_rows (reopen m)) k)) (map fst (g_ruv src)) /\
    g_maxid (reopen m) = N.of_nat (length (g_rows src)).
Proof.
  intros here src tm Hwf Hids. destruct (backup_restore_ok here src tm Hids) as (b & Hb & Hr).
  exists b, (restored src tm).
  exact (conj Hb (conj Hr (conj (restored_same _ tm Hwf) (conj (reopened_same _ tm Hwf)
    (conj (restored_ruv _ tm Hwf) (conj (reopened_ruv _ tm Hwf) (reopened_maxid src tm))))))).
Qed.

(* The same rule governs the source's own restart: re-opening ANY database whose rows and
   persisted change ids ascend gives every change id exactly the entries that carry it.  With
   the theorem above: the restored server's RUV is the one the source itself would have after
   a restart, entry for entry (C13_same_entries_per_cid below), modulo the new ids. *)
Theorem C13_reopen_ruv : forall d, asc (map rid (g_rows d)) = true -> casc (g_dbruv d) = true ->
  g_ruv (reopen d) = map (fun k => (k, idl_spec (g_rows d) k)) (g_dbruv d).
Proof. exact reopen_ruv. Qed.

(* EVERY SELECTION BY CONTENT GIVES THE SAME ENTRIES. For any predicate on entry contents — in
   particular `ematch (sem (cont r)) f` for any filter f of KV.Base.Filter and any leaf semantics
   that reads the entry's content — selecting from the restored rows gives the same entries in
   the same order as selecting from the source rows. (That a real search answers exactly the
   stored entries matching the filter is C01_search_exact; that the index rows reindex builds
   are the exact ones is C03, below.) *)
Theorem C13_search_same : forall here src tm b m (p : content -> bool),
  src_wf src = true -> backup here src = Some b -> restore_commit here tm b = Ok m ->
  map cont (filter (fun r => p (cont r)) (g_rows (reopen m))) =
  map cont (filter (fun r => p (cont r)) (g_rows src)).
Proof.
  intros here src tm b m p _ Hb Hr. rewrite (backup_restore _ _ _ _ _ Hb Hr).
  apply answers_same, number_cont.
Qed.
Corollary C13_search_same_filter : forall here src tm b m
    (sem : content -> KV.Base.Filter.leafsem) (f : KV.Base.Filter.filt),
  src_wf src = true -> backup here src = Some b -> restore_commit here tm b = Ok m ->
  map cont (filter (fun r => KV.Base.Filter.ematch (sem (cont r)) f) (g_rows (reopen m))) =
  map cont (filter (fun r => KV.Base.Filter.ematch (sem (cont r)) f) (g_rows src)).
Proof.
  intros here src tm b m sem f. exact (C13_search_same here src tm b m (fun c => KV.Base.Filter.ematch (sem c) f)).
Qed.

(* The same holds per change id: the entries replication would send for a change id are the
   same entries before and after. *)
Theorem C13_same_entries_per_cid : forall here src tm b m c,
  src_wf src = true -> backup here src = Some b -> restore_commit here tm b = Ok m ->
  map cont (filter (fun r => cmem c (rcids r)) (g_rows (reopen m))) =
  map cont (filter (fun r => cmem c (rcids r)) (g_rows src)).
Proof.
  intros here src tm b m c. exact (C13_search_same here src tm b m (fun x => cmem c (snd x))).
Qed.

(* VERSION GATE. A backup whose version field is not exactly this server's version string —
   or that has no version field at all (the older shapes) — is refused, whatever it contains
   and whatever the target holds. *)
Theorem C13_version_gate : forall here tm b, b_ver b <> Some here ->
  restore_commit here tm b = Err 1 \/ restore_commit here tm b = Err 2.
Proof. exact gate_refuses. Qed.

(* LINK TO C03: KV.C03.Proofs.reindex_mirror for any list of rows read through any [view] of a
   stored entry as what indexing looks at: if the entries are unique (ids, uuids, names, external
   ids) reindex succeeds and leaves every index row and name table an exact mirror of them.  The
   statement does not mention backup or restore: that [rows] are the restored rows (whose ids are
   1..n by C13_roundtrip), that [view] keeps the row's id, and Uniq are left to the caller. *)
Theorem C13_restored_mirror : forall (view : row -> KV.C03.Model.ent) (rows : list row) s,
  KV.C03.Model.ents s = map (fun r => (rid r, view r)) rows ->
  KV.C03.Proofs.Uniq (map view rows) -> KV.C03.Proofs.Wf (map view rows) ->
  exists s', KV.C03.Model.reindex s = Some s' /\ KV.C03.Proofs.Mirror (map view rows) s'.
Proof.
  intros view rows s He Hu Hw.
  assert (E : map snd (KV.C03.Model.ents s) = map view rows).
  { rewrite He, map_map. reflexivity. }
  destruct (KV.C03.Proofs.reindex_mirror s) as [s' [H1 [H2 _]]].
  - rewrite E. exact Hu.
  - rewrite E. exact Hw.
  - exists s'. rewrite E in H2. auto.
Qed.

(* THE RESTORING PROCESS MAY GO ON WRITING. An entry created after the restore in the same
   process (the migrations that restore_server_core runs on the same Backend create built-in
   entries that the backup lacks) leaves every restored entry in place, for every source,
   every target (whatever its cached maximum id was) and every new entry: restore hands out
   the ids 1..n and sets the cached maximum id to n, so the new entry gets n+1. *)
Theorem C13_create_keeps : forall here src tm c b m, src_wf src = true ->
  backup here src = Some b -> restore_commit here tm b = Ok m ->
  forall r, In r (g_rows m) -> In r (g_rows (create c m)).
Proof. exact create_keeps. Qed.

(* ... and likewise once the database has been closed and opened again. *)
Theorem C13_create_keeps_after_reopen : forall here src tm c b m, src_wf src = true ->
  backup here src = Some b -> restore_commit here tm b = Ok m ->
  forall r, In r (g_rows (reopen m)) -> In r (g_rows (create c (reopen m))).
Proof.
  intros here src tm c b m _ Hb Hr. rewrite (backup_restore _ _ _ _ _ Hb Hr).
  apply create_keeps_le. intros x Hx. rewrite reopened_maxid. exact (restored_ids src tm x Hx).
Qed.

(* DOCUMENTATION OF THE REPAIRED DEFECT (fix 5cb740a in /repo, found by this check). Before the
   fix restore left the cached maximum id at the value the target had before (0 for a new
   database): [prefix_restore_commit].  For that function the statement above is FALSE — the
   new entry is numbered from the stale value and replaces a restored row.  Confirmed on the
   code before the fix (props/C13.json): a source in which the built-in group system_admins
   had been deleted and purged; after restore + reindex the start-up migration re-created it
   with id 1, the restored key_provider_internal entry was gone, verify() = [Err(Unknown)]. *)
Theorem C13_prefix_refuted : ~ create_keeps_all_for prefix_restore_commit.
Proof. exact prefix_create_refuted. Qed.

(* Soundness of the run-time tie: whenever the implementation's observations agree with the
   model, the property's executable predicate holds on them. *)
Theorem C13_agree_implies_property : forall c : case, agree c = true -> pcheck c = true.
Proof. exact agree_pcheck. Qed.

(* ... and pcheck means what it says: a CRound case that passes has, on the implementation's
   own dumps, the same identifiers, entries, RUV change ids, ranges and persisted ruv table
   after the restore and after the re-open. *)
Theorem C13_pcheck_sound : forall gz src bc sj tm rc mid re ve before after se,
  pcheck (CRound gz src bc sj tm rc mid re ve before after se) = true -> has_idsb src = true ->
  same_db src mid = true /\ same_db src re = true /\ ve = 0 /\ before = after /\
  (forall c x, In (c, x) (g_ruv re) -> x = idl_spec (g_rows re) c).
Proof. exact pcheck_sound. Qed.
