(* Concrete databases meeting the hypotheses of the theorems. *)
From Coq Require Import List NArith Bool.
Import ListNotations.
Require Import KV.C13.Model KV.C13.Proofs.
Open Scope N_scope.

(* A source with gaps in its ids (5, 9, 12), a tombstone-like entry with a single change id,
   two servers, an RUV anchor (3,2) that no entry carries, an entry change id (1,1) that has
   been trimmed from the RUV, and id lists that still mention purged ids (7). *)
Definition w_src : dump :=
  mkdump (Some 100) (Some 200) (Some 777) 5
    [mkrow 5 50 500 [(1, 1); (2, 1)]; mkrow 9 51 501 [(4, 2)]; mkrow 12 52 502 [(2, 1); (4, 2)]]
    [((2, 1), [5; 7; 12]); ((3, 2), []); ((4, 2), [9; 12])]
    [(1, [2]); (2, [3; 4])]
    [(2, 1); (3, 2); (4, 2)]
    12.

Example C13_witness_src_wf : src_wf w_src = true /\ has_ids w_src.
Proof. split; [vm_compute; reflexivity | exists 100, 200, 777; auto]. Qed.

(* what the round trip computes on it (target whose cached max id was 40) *)
Example C13_witness_roundtrip :
  match backup [49; 46; 49] w_src with
  | Some b =>
      match restore_commit [49; 46; 49] 40 b with
      | Ok m =>
          map rid (g_rows m) = [1; 2; 3] /\ map cont (g_rows m) = map cont (g_rows w_src) /\
          g_ruv m = [((2, 1), []); ((3, 2), []); ((4, 2), [])] /\
          g_ruv (reopen m) = [((2, 1), [1; 3]); ((3, 2), []); ((4, 2), [2; 3])] /\
          g_ranged (reopen m) = g_ranged w_src /\ g_maxid m = 3 /\ g_maxid (reopen m) = 3
      | Err _ => False
      end
  | None => False
  end.
Proof. vm_compute. repeat split; reflexivity. Qed.

(* the source's own restart gives the same RUV modulo the ids (5,9,12 -> 1,2,3) *)
Example C13_witness_own_restart :
  g_ruv (reopen w_src) = [((2, 1), [5; 12]); ((3, 2), []); ((4, 2), [9; 12])].
Proof. vm_compute. reflexivity. Qed.

(* version gate: other version, older shape *)
Example C13_witness_gate :
  restore_commit [49; 46; 49] 0 (mkbak (Some [49; 46; 56]) 1 2 3 4 [] []) = Err 1 /\
  restore_commit [49; 46; 49] 0 (mkbak None 1 2 3 4 [] []) = Err 2 /\
  (Some [49; 46; 56] <> Some [49; 46; 49]).
Proof. vm_compute. repeat split; try reflexivity. discriminate. Qed.

(* an entry created right after the restore gets id 4 and nothing is lost ... *)
Example C13_witness_create :
  match backup [] w_src with
  | Some b =>
      match restore_commit [] 0 b with
      | Ok m => map ruuid (g_rows (create (99, 999, [(5, 1)]) m)) = [50; 51; 52; 99] /\
                map ruuid (g_rows (create (99, 999, [(5, 1)]) (reopen m))) = [50; 51; 52; 99]
      | Err _ => False
      end
  | None => False
  end.
Proof. vm_compute. split; reflexivity. Qed.

(* ... whereas before the fix (new database: cached max id 0) it replaced the entry with id 1 *)
Example C13_witness_prefix_refuted :
  match backup [] w_src with
  | Some b =>
      match prefix_restore_commit [] 0 b with
      | Ok m => map ruuid (g_rows (create (99, 999, [(5, 1)]) m)) = [99; 51; 52]
      | Err _ => False
      end
  | None => False
  end.
Proof. vm_compute. reflexivity. Qed.

(* cases of each kind on which model and property predicate agree; the pre-fix observation is rejected by both *)
Example C13_witness_agree :
  let b := match backup [] w_src with Some b => b | None => mkbak None 0 0 0 0 [] [] end in
  let m := match restore_commit [] 40 b with Ok m => m | Err _ => w_src end in
  agree (CRound true w_src 0 true 40 0 m (reopen m) 0 [[50; 51]; []] [[50; 51]; []] true) = true /\
  pcheck (CRound true w_src 0 true 40 0 m (reopen m) 0 [[50; 51]; []] [[50; 51]; []] true) = true /\
  agree (CGate true (Some [49]) [50] 1 true) = true /\ pcheck (CGate true (Some [49]) [50] 1 true) = true /\
  agree (CInproc 98 98 98 true 99 0) = true /\ pcheck (CInproc 98 98 98 true 99 0) = true /\
  agree (CInproc 98 98 0 true 1 1) = false /\ pcheck (CInproc 98 98 0 true 1 1) = false.
Proof. vm_compute. repeat split; reflexivity. Qed.
