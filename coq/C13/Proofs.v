(* ruv_restore of an ascending list of change ids is that list with empty id lists (fold_cins: every
   insertion lands at the end).  rebuild goes through the rows in ascending id order and appends each id
   to the lists of the row's change ids; with the rows P done, every key lists idl_spec P (rebuild_spec).
   [restored src tm] is what backup, restore and commit leave in the target, in closed form
   (backup_restore). *)
From Coq Require Import List NArith Bool Lia Sorted.
Import ListNotations.
Require Import KV.C13.Model.
Require KV.C04.Proofs KV.C07.Proofs.
Open Scope N_scope.
Arguments N.add : simpl never.
Arguments N.sub : simpl never.
Arguments N.ltb : simpl never.
Arguments N.leb : simpl never.
Arguments N.eqb : simpl never.
Arguments N.compare : simpl never.

Lemma list_eqb_iff : forall A (eqb : A -> A -> bool),
  (forall x y, eqb x y = true <-> x = y) -> forall a b, list_eqb eqb a b = true <-> a = b.
Proof.
  intros A eqb H. induction a as [|x r IH]; intros [|y t]; cbn;
    [split; reflexivity | split; discriminate | split; discriminate |].
  rewrite andb_true_iff, H, IH. split; [intros [-> ->] | intros [= -> ->]]; auto.
Qed.
Lemma pair_eqb_iff : forall A B (ea : A -> A -> bool) (eb : B -> B -> bool),
  (forall x y, ea x y = true <-> x = y) -> (forall x y, eb x y = true <-> x = y) ->
  forall a b : A * B, ea (fst a) (fst b) && eb (snd a) (snd b) = true <-> a = b.
Proof.
  intros A B ea eb Ha Hb [a1 a2] [b1 b2]. cbn. rewrite andb_true_iff, Ha, Hb.
  split; [intros [-> ->] | intros [= -> ->]]; auto.
Qed.

Lemma cid_eqb_iff : forall a b, cid_eqb a b = true <-> a = b.
Proof. exact (pair_eqb_iff _ _ _ _ N.eqb_eq N.eqb_eq). Qed.
Lemma leqb_iff : forall a b, leqb a b = true <-> a = b.
Proof. exact (list_eqb_iff _ _ N.eqb_eq). Qed.
Lemma cids_eqb_iff : forall a b, cids_eqb a b = true <-> a = b.
Proof. exact (list_eqb_iff _ _ cid_eqb_iff). Qed.
Lemma cont_eqb_iff : forall a b, cont_eqb a b = true <-> a = b.
Proof. exact (pair_eqb_iff _ _ _ _ (pair_eqb_iff _ _ _ _ N.eqb_eq N.eqb_eq) cids_eqb_iff). Qed.
Lemma ranges_eqb_iff : forall a b, ranges_eqb a b = true <-> a = b.
Proof. exact (list_eqb_iff _ _ (pair_eqb_iff _ _ _ _ N.eqb_eq leqb_iff)). Qed.
Lemma ruv_eqb_eq : forall a b, ruv_eqb a b = true -> a = b.
Proof. intros a b. apply (list_eqb_iff _ _ (pair_eqb_iff _ _ _ _ cid_eqb_iff leqb_iff)). Qed.

Lemma oeqb_iff : forall a b, oeqb a b = true <-> a = b.
Proof.
  intros [x|] [y|]; cbn; [|split; discriminate|split; discriminate|split; reflexivity].
  rewrite N.eqb_eq. split; [intros -> | intros [= ->]]; reflexivity.
Qed.
Lemma row_eqb_iff : forall a b, row_eqb a b = true <-> a = b.
Proof.
  intros [i u b c] [i' u' b' c']. unfold row_eqb. cbn [rid ruuid rbody rcids].
  rewrite !andb_true_iff, !N.eqb_eq, cids_eqb_iff.
  split; [intros [[[-> ->] ->] ->] | intros [= -> -> -> ->]]; auto.
Qed.
Lemma dump_eqb_eq : forall a b, dump_eqb a b = true -> a = b.
Proof.
  intros [s d t k r u g p m] [s' d' t' k' r' u' g' p' m'] E. unfold dump_eqb in E.
  cbn [g_s g_d g_ts g_kh g_rows g_ruv g_ranged g_dbruv g_maxid] in E.
  apply andb_prop in E as [E Hm]. apply andb_prop in E as [E Hp]. apply andb_prop in E as [E Hg].
  apply andb_prop in E as [E Hu]. apply andb_prop in E as [E Hr]. apply andb_prop in E as [E Hk].
  apply andb_prop in E as [E Ht]. apply andb_prop in E as [Hs Hd].
  apply oeqb_iff in Hs, Hd, Ht. apply N.eqb_eq in Hk, Hm. apply (list_eqb_iff _ _ row_eqb_iff) in Hr.
  apply ruv_eqb_eq in Hu. apply ranges_eqb_iff in Hg. apply cids_eqb_iff in Hp. subst. reflexivity.
Qed.

Lemma cid_eqb_sym : forall a b, cid_eqb a b = cid_eqb b a.
Proof. intros a b. unfold cid_eqb. rewrite (N.eqb_sym (fst a)), (N.eqb_sym (snd a)). reflexivity. Qed.

(* [asc] and [casc] are this check at N.ltb and cid_ltb *)
Section Asc.
  Variables (A : Type) (ltb : A -> A -> bool).
  Hypothesis ltb_trans : forall x y z, ltb x y = true -> ltb y z = true -> ltb x z = true.

  Definition ascb := fix go (l : list A) : bool :=
    match l with x :: ((y :: _) as r) => ltb x y && go r | _ => true end.

  Lemma ascb_tail : forall a l, ascb (a :: l) = true -> ascb l = true.
  Proof. intros a [|b l] H; [reflexivity|]. cbn in H. apply andb_true_iff in H. apply H. Qed.

  Lemma ascb_sorted : forall l, ascb l = true -> StronglySorted (fun x y => ltb x y = true) l.
  Proof.
    intros l H. apply Sorted_StronglySorted; [exact ltb_trans|].
    induction l as [|a l IH]; constructor.
    - exact (IH (ascb_tail _ _ H)).
    - destruct l as [|b l]; constructor. cbn in H. apply andb_true_iff in H. apply H.
  Qed.
End Asc.

Lemma sorted_app_lt : forall A (R : A -> A -> Prop) l x r,
  StronglySorted R (l ++ x :: r) -> Forall (fun y => R y x) l.
Proof.
  induction l as [|a l IH]; cbn; intros x r H; constructor; inversion H as [|? ? Hs Hf]; subst.
  - rewrite Forall_forall in Hf. apply Hf, in_elt.
  - exact (IH _ _ Hs).
Qed.
Lemma sorted_nodup : forall A (R : A -> A -> Prop), (forall x, ~ R x x) ->
  forall l, StronglySorted R l -> NoDup l.
Proof.
  intros A R Hirr. induction 1 as [|a l Hs IH Hf]; constructor; [|exact IH].
  intros Hin. rewrite Forall_forall in Hf. exact (Hirr a (Hf a Hin)).
Qed.

(* [cid_cmp] is the order of KV.C07.Model, transcribed again in this model: its laws are
   the ones proved there *)
Lemma cid_cmp_refl : forall a, cid_cmp a a = Eq.
Proof. exact KV.C07.Proofs.cid_cmp_refl. Qed.
Lemma cid_cmp_antisym : forall a b, cid_cmp b a = CompOpp (cid_cmp a b).
Proof. exact KV.C07.Proofs.cid_cmp_antisym. Qed.
Lemma cid_lt_trans : forall a b c, cid_cmp a b = Lt -> cid_cmp b c = Lt -> cid_cmp a c = Lt.
Proof. exact KV.C07.Proofs.cid_lt_trans. Qed.

Lemma cid_ltb_lt : forall a b, cid_ltb a b = true <-> cid_cmp a b = Lt.
Proof. intros a b. unfold cid_ltb. destruct (cid_cmp a b); split; intro H; try discriminate; auto. Qed.
Lemma cid_ltb_trans : forall a b c, cid_ltb a b = true -> cid_ltb b c = true -> cid_ltb a c = true.
Proof. intros a b c. rewrite !cid_ltb_lt. apply cid_lt_trans. Qed.
Lemma cid_ltb_irrefl : forall a, cid_ltb a a <> true.
Proof. intros a. rewrite cid_ltb_lt, cid_cmp_refl. discriminate. Qed.
Lemma cid_ltb_gt : forall a b, cid_ltb a b = true -> cid_cmp b a = Gt.
Proof. intros a b H. apply cid_ltb_lt in H. rewrite cid_cmp_antisym, H. reflexivity. Qed.

Definition cid_lt (a b : cid) : Prop := cid_ltb a b = true.
Definition id_lt (a b : N) : Prop := (a <? b) = true.

Lemma casc_sorted : forall l, casc l = true -> StronglySorted cid_lt l.
Proof. exact (ascb_sorted _ _ cid_ltb_trans). Qed.
Lemma asc_sorted : forall l, asc l = true -> StronglySorted id_lt l.
Proof.
  apply (ascb_sorted _ N.ltb). intros x y z. rewrite !N.ltb_lt. apply N.lt_trans.
Qed.
Lemma casc_tail : forall a l, casc (a :: l) = true -> casc l = true.
Proof. exact (ascb_tail _ cid_ltb). Qed.
Lemma asc_tail : forall a l, asc (a :: l) = true -> asc l = true.
Proof. exact (ascb_tail _ N.ltb). Qed.
Lemma casc_app_r : forall l r, casc (l ++ r) = true -> casc r = true.
Proof. induction l as [|a l IH]; intros r H; auto. apply IH. apply casc_tail with a. exact H. Qed.

Lemma ins_snoc : forall i l, Forall (fun x => id_lt x i) l -> ins i l = l ++ [i].
Proof.
  intros i l. induction 1 as [|a l Ha _ IH]; cbn [ins app]; [reflexivity|].
  apply N.ltb_lt in Ha.
  destruct (i <? a) eqn:E1; [apply N.ltb_lt in E1; lia|].
  destruct (i =? a) eqn:E2; [apply N.eqb_eq in E2; lia|].
  rewrite IH. reflexivity.
Qed.
(* [ins] is the sorted insertion of KV.C04.Model *)
Lemma ins_idem : forall i l, ins i (ins i l) = ins i l.
Proof. exact KV.C04.Proofs.nins_idem. Qed.

Lemma cins_snoc : forall c m, Forall (fun k => cid_lt k c) (map fst m) -> cins c m = m ++ [(c, [])].
Proof.
  intros c m. induction m as [|[k x] m IH]; cbn [cins app map fst]; intro H; [reflexivity|].
  inversion H as [|? ? Hk Hm]; subst. rewrite (cid_ltb_gt _ _ Hk), (IH Hm). reflexivity.
Qed.
Lemma fold_cins : forall cs m, StronglySorted cid_lt (map fst m ++ cs) ->
  fold_left (fun m c => cins c m) cs m = m ++ map (fun c => (c, [])) cs.
Proof.
  induction cs as [|c cs IH]; intros m H; cbn [fold_left map].
  - rewrite app_nil_r. reflexivity.
  - rewrite (cins_snoc _ _ (sorted_app_lt _ _ _ _ _ H)), IH, <- app_assoc; [reflexivity|].
    rewrite map_app, <- app_assoc. exact H.
Qed.
Lemma ruv_restore_data : forall cs, casc cs = true ->
  fst (ruv_restore cs) = map (fun c => (c, [])) cs.
Proof. intros cs H. unfold ruv_restore. cbn [fst]. apply (fold_cins cs []), casc_sorted, H. Qed.
Lemma ruv_restore_keys : forall cs, casc cs = true -> map fst (fst (ruv_restore cs)) = cs.
Proof. intros cs H. rewrite (ruv_restore_data _ H), map_map. apply map_id. Qed.

Lemma idl_add_map : forall c i (g : cid -> list N) ks, NoDup ks ->
  idl_add c i (map (fun k => (k, g k)) ks) =
  map (fun k => (k, if cid_eqb c k then ins i (g k) else g k)) ks.
Proof.
  intros c i g ks. induction 1 as [|k ks Hn Hd IH]; cbn [map idl_add]; [reflexivity|].
  destruct (cid_eqb c k) eqn:E; [|rewrite IH; reflexivity].
  (* the key is found: it occurs nowhere in the rest *)
  f_equal. apply cid_eqb_iff in E. subst k. apply map_ext_in. intros k' Hk'.
  destruct (cid_eqb c k') eqn:E'; [|reflexivity]. apply cid_eqb_iff in E'. subst. contradiction.
Qed.
Lemma fold_idl_add : forall i cs (g : cid -> list N) ks, NoDup ks ->
  fold_left (fun d c => idl_add c i d) cs (map (fun k => (k, g k)) ks) =
  map (fun k => (k, if cmem k cs then ins i (g k) else g k)) ks.
Proof.
  intros i cs. induction cs as [|c cs IH]; intros g ks H; cbn [fold_left]; [reflexivity|].
  rewrite (idl_add_map _ _ _ _ H), (IH _ ks H).
  apply map_ext. intro k. unfold cmem. cbn [existsb]. rewrite (cid_eqb_sym k c).
  destruct (cid_eqb c k), (existsb (cid_eqb k) cs); cbn [orb]; auto. rewrite ins_idem. reflexivity.
Qed.

Lemma idl_spec_app : forall P r c,
  idl_spec (P ++ [r]) c = idl_spec P c ++ (if cmem c (rcids r) then [rid r] else []).
Proof.
  intros P r c. unfold idl_spec. rewrite filter_app, map_app. f_equal. cbn [filter].
  destruct (cmem c (rcids r)); reflexivity.
Qed.
Lemma idl_spec_in : forall P c x, In x (idl_spec P c) -> In x (map rid P).
Proof.
  intros P c x H. unfold idl_spec in H. apply in_map_iff in H. destruct H as [r [E Hr]].
  apply filter_In in Hr. apply in_map_iff. exists r. tauto.
Qed.

Lemma idl_spec_snoc : forall P r k, Forall (fun x => id_lt x (rid r)) (map rid P) ->
  (if cmem k (rcids r) then ins (rid r) (idl_spec P k) else idl_spec P k) = idl_spec (P ++ [r]) k.
Proof.
  intros P r k H. rewrite idl_spec_app. destruct (cmem k (rcids r)); [|rewrite app_nil_r; reflexivity].
  apply ins_snoc. rewrite Forall_forall in *. intros x Hx. apply H, (idl_spec_in _ _ _ Hx).
Qed.

Lemma rebuild_cons : forall r R d,
  rebuild (r :: R) d = rebuild R (fold_left (fun d c => idl_add c (rid r) d) (rcids r) d).
Proof. reflexivity. Qed.

Lemma rebuild_spec : forall R P ks, NoDup ks -> StronglySorted id_lt (map rid P ++ map rid R) ->
  rebuild R (map (fun k => (k, idl_spec P k)) ks) = map (fun k => (k, idl_spec (P ++ R) k)) ks.
Proof.
  induction R as [|r R IH]; intros P ks Hk Ha.
  - rewrite app_nil_r. reflexivity.
  - pose proof (sorted_app_lt _ _ _ _ _ Ha) as Hlt.
    rewrite rebuild_cons, (fold_idl_add _ _ _ _ Hk).
    rewrite (map_ext _ _ (fun k => f_equal (pair k) (idl_spec_snoc P r k Hlt))).
    rewrite (IH (P ++ [r]) ks Hk), <- app_assoc; [reflexivity|].
    rewrite map_app, <- app_assoc. exact Ha.
Qed.

Lemma reopen_ruv : forall d, asc (map rid (g_rows d)) = true -> casc (g_dbruv d) = true ->
  g_ruv (reopen d) = map (fun k => (k, idl_spec (g_rows d) k)) (g_dbruv d).
Proof.
  intros d Ha Hc. unfold reopen. cbn [g_ruv]. rewrite (ruv_restore_data _ Hc).
  apply (rebuild_spec (g_rows d) [] (g_dbruv d)).
  - exact (sorted_nodup _ _ cid_ltb_irrefl _ (casc_sorted _ Hc)).
  - exact (asc_sorted _ Ha).
Qed.

Lemma number_cont : forall l i, map cont (number i l) = l.
Proof.
  induction l as [|[[u b] c] l IH]; intro i; cbn [number map]; auto.
  rewrite IH. reflexivity.
Qed.
Lemma number_length : forall l i, length (number i l) = length l.
Proof. induction l as [|[[u b] c] l IH]; intro i; cbn [number length]; auto. Qed.
Lemma number_ids : forall l i, ids_from i (map rid (number i l)) = true.
Proof.
  induction l as [|[[u b] c] l IH]; intro i; cbn [number map ids_from rid]; auto.
  rewrite N.eqb_refl, IH. reflexivity.
Qed.
Lemma number_range : forall l i x, In x (number i l) -> i <= rid x /\ rid x < i + N.of_nat (length l).
Proof.
  induction l as [|[[u b] c] l IH]; intros i x H; cbn [number] in H; [destruct H|].
  cbn [length]. rewrite Nat2N.inj_succ. destruct H as [<-|H].
  - cbn [rid]. lia.
  - apply IH in H. lia.
Qed.
Lemma number_asc : forall l i j, j < i -> asc (j :: map rid (number i l)) = true.
Proof.
  induction l as [|[[u b] c] l IH]; intros i j H; cbn [number map rid]; auto.
  cbn [asc]. apply andb_true_iff. split.
  - apply N.ltb_lt. exact H.
  - apply IH. lia.
Qed.
Lemma number_last : forall l d, last_id (number (d + 1) l) d = d + N.of_nat (length l).
Proof.
  induction l as [|[[u b] c] l IH]; intro d; cbn [number last_id length rid]; [lia|].
  rewrite IH, Nat2N.inj_succ. lia.
Qed.

Definition has_ids (d : dump) : Prop := exists s dd t, g_s d = Some s /\ g_d d = Some dd /\ g_ts d = Some t.

Lemma backup_some_ids : forall here d b, backup here d = Some b -> has_ids d.
Proof.
  intros here d b H. unfold backup in H. unfold has_ids.
  destruct (g_s d) as [s|], (g_d d) as [dd|], (g_ts d) as [t|]; try discriminate.
  exists s, dd, t. auto.
Qed.

Record SameDb (src tgt : dump) : Prop := mkSameDb {
  sd_s : g_s tgt = g_s src; sd_d : g_d tgt = g_d src; sd_ts : g_ts tgt = g_ts src;
  sd_kh : g_kh tgt = g_kh src;
  sd_rows : map cont (g_rows tgt) = map cont (g_rows src);
  sd_ids : ids_from 1 (map rid (g_rows tgt)) = true;
  sd_keys : map fst (g_ruv tgt) = map fst (g_ruv src);
  sd_ranged : g_ranged tgt = g_ranged src;
  sd_dbruv : g_dbruv tgt = map fst (g_ruv src) }.

Lemma src_wf_parts : forall d, src_wf d = true ->
  asc (0 :: map rid (g_rows d)) = true /\ casc (map fst (g_ruv d)) = true /\
  g_ranged d = snd (ruv_restore (map fst (g_ruv d))).
Proof.
  intros d H. unfold src_wf in H. rewrite !andb_true_iff, ranges_eqb_iff in H. tauto.
Qed.

Definition restored (src : dump) (tm : N) : dump :=
  let rows := number 1 (map cont (g_rows src)) in
  let rv := ruv_restore (map fst (g_ruv src)) in
  mkdump (g_s src) (g_d src) (g_ts src) (g_kh src) rows (fst rv) (snd rv) (map fst (fst rv))
         (restored_maxid tm (N.of_nat (length rows))).

Lemma backup_restore : forall here src tm b m,
  backup here src = Some b -> restore_commit here tm b = Ok m -> m = restored src tm.
Proof.
  intros here src tm b m. unfold backup, restore_commit, restored.
  destruct (g_s src) as [s|], (g_d src) as [dd|], (g_ts src) as [t|]; try discriminate.
  intros [= <-]. cbn [b_ver b_s b_d b_ts b_kh b_ruv b_ents].
  destruct (list_eqb N.eqb here here); [|discriminate]. intros [= <-]. reflexivity.
Qed.
Lemma backup_restore_ok : forall here src tm, has_ids src ->
  exists b, backup here src = Some b /\ restore_commit here tm b = Ok (restored src tm).
Proof.
  intros here src tm (s & dd & t & Es & Ed & Et). unfold backup, restored. rewrite Es, Ed, Et.
  eexists. split; [reflexivity|]. unfold restore_commit. cbn [b_ver b_s b_d b_ts b_kh b_ruv b_ents].
  fold (leqb here here). rewrite (proj2 (leqb_iff _ _) eq_refl). reflexivity.
Qed.

Lemma restored_ruv : forall src tm, src_wf src = true ->
  g_ruv (restored src tm) = map (fun k => (k, [])) (map fst (g_ruv src)).
Proof. intros src tm Hwf. apply ruv_restore_data, (src_wf_parts _ Hwf). Qed.

Lemma restored_same : forall src tm, src_wf src = true -> SameDb src (restored src tm).
Proof.
  intros src tm Hwf. destruct (src_wf_parts src Hwf) as (_ & Hc & Hr).
  constructor; cbn [restored g_s g_d g_ts g_kh g_rows g_ruv g_ranged g_dbruv]; auto.
  - apply number_cont.
  - apply number_ids.
  - apply ruv_restore_keys, Hc.
  - apply ruv_restore_keys, Hc.
Qed.

(* re-opening changes the RUV and the cached maximum id only, and the RUV keeps its keys *)
Lemma reopen_same : forall src d, src_wf src = true -> asc (map rid (g_rows d)) = true ->
  SameDb src d -> SameDb src (reopen d).
Proof.
  intros src d Hwf Ha [H1 H2 H3 H4 H5 H6 H7 H8 H9]. destruct (src_wf_parts src Hwf) as (_ & Hc & Hr).
  constructor; auto; rewrite <- H9 in Hc.
  - rewrite (reopen_ruv d Ha Hc), map_map, H9. apply map_id.
  - unfold reopen. cbn [g_ranged]. rewrite H9. symmetry. exact Hr.
Qed.

Lemma restored_asc : forall src tm, asc (map rid (g_rows (restored src tm))) = true.
Proof. intros src tm. apply asc_tail with 0, number_asc. lia. Qed.
Lemma reopened_same : forall src tm, src_wf src = true -> SameDb src (reopen (restored src tm)).
Proof. intros src tm Hwf. exact (reopen_same _ _ Hwf (restored_asc src tm) (restored_same src tm Hwf)). Qed.
Lemma reopened_ruv : forall src tm, src_wf src = true ->
  g_ruv (reopen (restored src tm))
  = map (fun k => (k, idl_spec (g_rows (reopen (restored src tm))) k)) (map fst (g_ruv src)).
Proof.
  intros src tm Hwf. pose proof (sd_dbruv _ _ (restored_same src tm Hwf)) as E.
  change (g_rows (reopen (restored src tm))) with (g_rows (restored src tm)).
  rewrite <- E. apply reopen_ruv; [apply restored_asc|]. rewrite E. apply (src_wf_parts _ Hwf).
Qed.
Lemma reopened_maxid : forall src tm, g_maxid (reopen (restored src tm)) = N.of_nat (length (g_rows src)).
Proof. intros src tm. cbn [reopen restored g_maxid g_rows]. rewrite (number_last _ 0), map_length. reflexivity. Qed.
Lemma restored_ids : forall src tm x, In x (g_rows (restored src tm)) -> rid x <= N.of_nat (length (g_rows src)).
Proof. intros src tm x H. apply number_range in H. rewrite map_length in H. lia. Qed.

Lemma filter_map_comm : forall A B (g : A -> B) (p : B -> bool) l,
  map g (filter (fun x => p (g x)) l) = filter p (map g l).
Proof.
  intros A B g p l. induction l as [|x l IH]; cbn [filter map]; auto.
  destruct (p (g x)); cbn [map]; rewrite IH; reflexivity.
Qed.
Lemma answers_same : forall (p : content -> bool) rowsA rowsB,
  map cont rowsB = map cont rowsA ->
  map cont (filter (fun r => p (cont r)) rowsB) = map cont (filter (fun r => p (cont r)) rowsA).
Proof. intros p a b H. rewrite !filter_map_comm, H. reflexivity. Qed.

Lemma gate_refuses : forall here tm b, b_ver b <> Some here ->
  restore_commit here tm b = Err 1 \/ restore_commit here tm b = Err 2.
Proof.
  intros here tm b H. unfold restore_commit. destruct (b_ver b) as [v|]; [|right; reflexivity].
  destruct (list_eqb N.eqb v here) eqn:E; [|left; reflexivity].
  apply leqb_iff in E. subst. contradiction.
Qed.

Lemma put_keeps : forall r l, (forall x, In x l -> rid x <> rid r) -> forall x, In x l -> In x (put r l).
Proof.
  intros r l. induction l as [|a l IH]; intros H x Hx; [destruct Hx|].
  cbn [put]. destruct (rid a =? rid r) eqn:E.
  - apply N.eqb_eq in E. exfalso. apply (H a); [left; reflexivity | exact E].
  - destruct Hx as [->|Hx]; [left; reflexivity | right]. apply IH; auto.
    intros y Hy. apply H. right. exact Hy.
Qed.
Lemma put_loses : forall r a l, rid a = rid r -> a <> r -> ~ In a l -> ~ In a (put r (a :: l)).
Proof.
  intros r a l E Hn Hl H. cbn [put] in H. rewrite E, N.eqb_refl in H.
  destruct H as [H|H]; [symmetry in H; contradiction | contradiction].
Qed.

(* a new entry gets an id above the cached maximum: nothing at or below it is replaced *)
Lemma create_keeps_le : forall c d, (forall x, In x (g_rows d) -> rid x <= g_maxid d) ->
  forall r, In r (g_rows d) -> In r (g_rows (create c d)).
Proof.
  intros c d H r Hin. cbn [create g_rows]. apply put_keeps; [|exact Hin].
  intros x Hx. cbn [rid]. apply H in Hx. lia.
Qed.

(* parametrised by the restore function so that the repaired code and the code before the fix
   can be stated side by side *)
Definition create_keeps_all_for (restore : list N -> N -> bak -> res dump) : Prop :=
  forall here src tm c b m, src_wf src = true ->
    backup here src = Some b -> restore here tm b = Ok m ->
    forall r, In r (g_rows m) -> In r (g_rows (create c m)).

Lemma create_keeps : create_keeps_all_for restore_commit.
Proof.
  intros here src tm c b m _ Hb Hr. rewrite (backup_restore _ _ _ _ _ Hb Hr).
  apply create_keeps_le. intros x Hx. cbn [restored g_maxid]. unfold restored_maxid.
  rewrite number_length, map_length. exact (restored_ids _ _ _ Hx).
Qed.

(* before the fix: one restored row with id 1, a target whose cached maximum id was 0; the new
   entry is numbered 1 and replaces the row *)
Lemma prefix_create_refuted : ~ create_keeps_all_for prefix_restore_commit.
Proof.
  intro H.
  set (src := mkdump (Some 1) (Some 2) (Some 3) 0 [mkrow 1 10 20 [(1, 1)]] [((1, 1), [1])] [(1, [1])] [(1, 1)] 1).
  specialize (H [] src 0 (11, 21, [(2, 1)])). cbn in H.
  specialize (H _ _ eq_refl eq_refl eq_refl (mkrow 1 10 20 [(1, 1)]) (or_introl eq_refl)).
  cbn in H. destruct H as [H|H]; [discriminate H | exact H].
Qed.

Lemma same_db_complete : forall src tgt, has_ids src -> SameDb src tgt -> same_db src tgt = true.
Proof.
  intros src tgt (s & dd & t & Es & Ed & Et) [H1 H2 H3 H4 H5 H6 H7 H8 H9]. unfold same_db.
  rewrite H1, H2, H3, H4, H5, H6, H7, H8, H9, Es, Ed, Et. cbn [is_some].
  rewrite !(proj2 (oeqb_iff _ _) eq_refl), N.eqb_refl, (proj2 (cids_eqb_iff _ _) eq_refl),
    (proj2 (ranges_eqb_iff _ _) eq_refl), (proj2 (list_eqb_iff _ _ cont_eqb_iff _ _) eq_refl).
  reflexivity.
Qed.

Lemma has_idsb_backup : forall here d, has_idsb d = if backup here d then true else false.
Proof. intros here d. unfold has_idsb, backup. destruct (g_s d), (g_d d), (g_ts d); reflexivity. Qed.

Lemma agree_pcheck : forall c, agree c = true -> pcheck c = true.
Proof.
  intros [gz src bc sj tm rc mid re ve before after se | n mx cached created new_id lost | wf ver here rc unch] H.
  - cbn [agree] in H. apply andb_true_iff in H. destruct H as [Hwf H].
    cbn [pcheck]. rewrite (has_idsb_backup [] src).
    destruct (backup [] src) as [b|] eqn:Eb; [|exact H].
    pose proof (backup_some_ids _ _ _ Eb) as Hids.
    destruct (backup_restore_ok [] src tm Hids) as (b' & Eb' & Er).
    rewrite Eb in Eb'. injection Eb' as <-. rewrite Er in H.
    rewrite !andb_true_iff in H.
    destruct H as [[Hbc Hsj] [[[[[Hrc Hmid] Hre] Hve] Hans] Hse]].
    apply dump_eqb_eq in Hmid. apply dump_eqb_eq in Hre. subst mid re.
    rewrite Hbc, Hsj, Hrc, Hve, Hans, Hse.
    rewrite (same_db_complete _ _ Hids (restored_same src tm Hwf)).
    rewrite (same_db_complete _ _ Hids (reopened_same src tm Hwf)).
    rewrite reopened_maxid, N.eqb_refl. cbn [andb]. rewrite !andb_true_r.
    apply forallb_forall. intros p Hp. rewrite (reopened_ruv _ _ Hwf) in Hp. apply in_map_iff in Hp.
    destruct Hp as [k [<- _]]. cbn [fst snd]. apply leqb_iff. reflexivity.
  - cbn [agree] in H. cbn [pcheck].
    rewrite !andb_true_iff, !N.eqb_eq in H. destruct H as [[[[Hc ->] ->] ->] Hlost].
    unfold restored_maxid in *. rewrite Hc. cbn [andb].
    apply andb_true_iff. split.
    + rewrite Hlost. destruct (n + 1 <=? n) eqn:E; [apply N.leb_le in E; lia | reflexivity].
    + apply N.ltb_lt. lia.
  - cbn [agree] in H. cbn [pcheck]. apply andb_true_iff in H. destruct H as [H1 H2]. rewrite H2.
    apply N.eqb_eq in H1. subst rc. cbn [andb]. unfold gate, leqb.
    destruct ver as [v|]; destruct wf; cbn [negb orb]; auto; destruct (list_eqb N.eqb v here); reflexivity.
Qed.

Lemma pcheck_sound : forall gz src bc sj tm rc mid re ve before after se,
  pcheck (CRound gz src bc sj tm rc mid re ve before after se) = true -> has_idsb src = true ->
  same_db src mid = true /\ same_db src re = true /\ ve = 0 /\ before = after /\
  (forall c x, In (c, x) (g_ruv re) -> x = idl_spec (g_rows re) c).
Proof.
  intros gz src bc sj tm rc mid re ve before after se H Hi. cbn [pcheck] in H. rewrite Hi in H.
  apply andb_prop in H as [H _]. apply andb_prop in H as [H Ha]. apply andb_prop in H as [H Hv].
  apply andb_prop in H as [H _]. apply andb_prop in H as [H Hf]. apply andb_prop in H as [H Hr].
  apply andb_prop in H as [_ Hm].
  repeat split; auto.
  - apply N.eqb_eq. exact Hv.
  - apply (list_eqb_iff _ _ leqb_iff). exact Ha.
  - intros c x Hin. rewrite forallb_forall in Hf. apply leqb_iff. exact (Hf _ Hin).
Qed.
