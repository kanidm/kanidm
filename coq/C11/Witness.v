(* Concrete replicas that meet the hypotheses of the independence theorems, with
   their merge results, and the refuting witness.  (No case with agree = true is shown for the
   C11_agree_transfers_* theorems.) *)
From Coq Require Import List NArith Bool.
Import ListNotations.
Require Import KV.C11.Model KV.C11.Proofs.
Open Scope N_scope.

Definition w_trim : cid := (10, 2).

(* three replicas; session 1 is revoked by two of them at different times and merely expiring
   in the third, session 2 has three different expiries, session 3 is an expired revocation
   (older than the trim cid) wherever it still exists *)
Definition w_sess : list (cid * smap) :=
  [((20, 1), [(1, (RevokedAt (12, 1), 3, 1)); (2, (ExpiresAt 5, 4, 2)); (3, (RevokedAt (4, 1), 5, 3))]);
   ((21, 2), [(1, (ExpiresAt 9, 3, 1)); (2, (ExpiresAt 9, 4, 2)); (3, (RevokedAt (9, 3), 5, 3))]);
   ((22, 3), [(1, (RevokedAt (15, 2), 3, 1)); (2, (NeverExpires, 4, 2))])].

Example C11_witness_session_hypotheses :
  WellFormed N.compare w_sess /\ SessConsistent w_sess /\ SessWindow w_trim w_sess /\
  Fits SESSION_MAXIMUM w_sess /\ SessIssuedDistinct w_sess.
Proof.
  split; [|split; [|split; [|split]]].
  - apply WellFormed_Forall. repeat constructor.
  - apply sess_consistent_sound. reflexivity.
  - apply (window_sound N.eqb); [exact N.eqb_refl | reflexivity].
  - apply Fits_entries. reflexivity.
  - apply sess_issued_ok_sound. reflexivity.
Qed.

(* every grouping gives: session 1 revoked at the EARLIEST revocation 12.1, session 2 with the
   latest expiry, session 3 trimmed; change id = the greatest *)
Example C11_witness_session_result :
  let r := Some ((22, 3), [(1, (RevokedAt (12, 1), 3, 1)); (2, (ExpiresAt 9, 4, 2))]) in
  eval (sess_merge false w_trim) w_sess (Nd (Nd (L 0) (L 1)) (L 2)) = r /\
  eval (sess_merge false w_trim) w_sess (Nd (L 2) (Nd (L 1) (L 0))) = r /\
  eval (sess_merge false w_trim) w_sess (Nd (Nd (L 1) (L 2)) (Nd (L 0) (L 1))) = r /\
  eval (sess_merge true w_trim) w_sess (Nd (L 1) (Nd (L 2) (L 0))) = r.
Proof. vm_compute. repeat split; reflexivity. Qed.

(* the window premise is needed: a replica that never saw an already-trimmed revocation
   resurrects the session in one grouping and not in the other (by design such a replica is
   refused by the RUV check and must refresh) *)
Example C11_witness_window_needed :
  let ins := [((20, 1), [(1, (RevokedAt (4, 1), 3, 1))]); ((21, 2), []); ((22, 3), [(1, (ExpiresAt 9, 3, 1))])] in
  eval (sess_merge true w_trim) ins (Nd (Nd (L 0) (L 1)) (L 2)) = Some ((22, 3), [(1, (ExpiresAt 9, 3, 1))]) /\
  eval (sess_merge true w_trim) ins (Nd (L 0) (Nd (L 1) (L 2))) = Some ((22, 3), []).
Proof. vm_compute. split; reflexivity. Qed.

(* keys: one key revoked by one replica, retained by another, valid in the third *)
Definition w_keys : list (cid * kmap) :=
  [((20, 1), [(7, (KRevoked, (12, 1), 32)); (8, (KValid, (5, 1), 40))]);
   ((21, 2), [(7, (KRetained, (11, 2), 31))]);
   ((22, 3), [(7, (KValid, (8, 1), 30)); (8, (KValid, (5, 1), 40)); (9, (KRevoked, (4, 1), 52))])].

Example C11_witness_key_hypotheses :
  WellFormed N.compare w_keys /\ KeyConsistent w_keys /\ KeyWindow w_trim w_keys.
Proof.
  split; [|split].
  - apply WellFormed_Forall. repeat constructor.
  - apply key_consistent_sound. reflexivity.
  - apply (window_sound N.eqb); [exact N.eqb_refl | reflexivity].
Qed.
Example C11_witness_key_result :
  let r := Some ((22, 3), [(7, (KRevoked, (12, 1), 32)); (8, (KValid, (5, 1), 40))]) in
  eval (key_merge w_trim) w_keys (Nd (Nd (L 0) (L 1)) (L 2)) = r /\
  eval (key_merge w_trim) w_keys (Nd (L 2) (Nd (L 1) (L 0))) = r.
Proof. vm_compute. split; reflexivity. Qed.

(* status cid ties: two replicas revoked key 7 independently (12.1 and 15.2), a third has a
   newer change of the attribute; the hypotheses of the key theorems hold and every grouping
   keeps the EARLIEST revocation ... *)
Example C11_witness_key_ties :
  WellFormed N.compare key_witness_ins /\ KeyConsistent key_witness_ins /\
  KeyWindow key_witness_trim key_witness_ins /\
  eval (key_merge key_witness_trim) key_witness_ins (Nd (Nd (L 2) (L 0)) (L 1))
    = Some ((22, 3), [(7, (KRevoked, (12, 1), 32))]) /\
  eval (key_merge key_witness_trim) key_witness_ins (Nd (L 2) (Nd (L 0) (L 1)))
    = Some ((22, 3), [(7, (KRevoked, (12, 1), 32))]).
Proof.
  split; [exact key_witness_wf|]. split; [exact key_witness_consistent|]. split; [exact key_witness_window|].
  vm_compute. split; reflexivity.
Qed.
(* ... whereas the PRE-FIX merge (before /repo ea75008) gave two different status cids for the
   two groupings: the refuting witness of C11_key_prefix_full_statement, evaluated *)
Example C11_witness_key_prefix :
  eval (key_merge_prefix key_witness_trim) key_witness_ins (Nd (Nd (L 2) (L 0)) (L 1))
    = Some ((22, 3), [(7, (KRevoked, (12, 1), 32))]) /\
  eval (key_merge_prefix key_witness_trim) key_witness_ins (Nd (L 2) (Nd (L 0) (L 1)))
    = Some ((22, 3), [(7, (KRevoked, (15, 2), 32))]).
Proof. vm_compute. split; reflexivity. Qed.

(* audit log: overlapping logs of three replicas *)
Definition w_audit : list (cid * amap) :=
  [((20, 1), [((1, 1), 10); ((2, 1), 11); ((4, 1), 14)]);
   ((21, 2), [((1, 2), 20); ((2, 1), 11)]);
   ((22, 3), [((3, 3), 30); ((4, 1), 14)])].
Example C11_witness_audit_hypotheses :
  WellFormed cid_cmp w_audit /\ AuditConsistent w_audit /\ Fits AUDIT_LOG_STRING_CAPACITY w_audit.
Proof.
  split; [|split].
  - apply WellFormed_Forall. repeat constructor.
  - apply audit_consistent_sound. reflexivity.
  - apply Fits_entries. reflexivity.
Qed.
Example C11_witness_audit_result :
  let r := Some ((22, 3), [((1, 1), 10); ((1, 2), 20); ((2, 1), 11); ((3, 3), 30); ((4, 1), 14)]) in
  eval audit_merge w_audit (Nd (Nd (L 0) (L 1)) (L 2)) = r /\
  eval audit_merge w_audit (Nd (L 2) (Nd (L 1) (L 0))) = r.
Proof. vm_compute. split; reflexivity. Qed.

(* the eviction beyond SESSION_MAXIMUM is order dependent when issue times collide (why the full
   session statement carries SessIssuedDistinct): 49 sessions, the two oldest issued at the
   same instant, merged with a replica holding one newer session *)
Definition w_many : smap :=
  map (fun i => (N.of_nat i, (ExpiresAt 5, (if Nat.leb i 1 then 100 else 100 + N.of_nat i), N.of_nat i))) (seq 0 49).
Example C11_witness_eviction_ties :
  let ins := [((20, 1), w_many); ((21, 2), [(60, (ExpiresAt 5, 500, 60))]); ((22, 3), [])] in
  option_map (fun r => map fst (snd r)) (eval (sess_merge false w_trim) ins (Nd (Nd (L 0) (L 2)) (L 1)))
  <> option_map (fun r => map fst (snd r)) (eval (sess_merge false w_trim) ins (Nd (L 0) (Nd (L 2) (L 1)))).
Proof. vm_compute. congruence. Qed.
