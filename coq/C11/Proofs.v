(* What a tree of replica merges computes.  Maps are key-sorted lists, determined by their lookups
   (sorted_ext).  Lookup by lookup the merge loop is a join [jv] followed by the trim [tv], so every merge
   tree yields, key by key, the trimmed greatest record held by the replicas below it (eval_spec, sem_held,
   sem_ub), under the greatest change id (eval_cid_max).  The laws of Props.v are read off this normal form. *)
From Coq Require Import List NArith Bool Lia Sorted Arith.
Import ListNotations.
Require Import KV.C11.Model.
Open Scope N_scope.
Arguments N.compare : simpl never.
Arguments N.ltb : simpl never.
Arguments N.eqb : simpl never.

Record CmpLaws {K} (cmp : K -> K -> comparison) : Prop := {
  cmp_eq : forall a b, cmp a b = Eq -> a = b;
  cmp_refl : forall a, cmp a a = Eq;
  cmp_antisym : forall a b, cmp b a = CompOpp (cmp a b);
  cmp_trans : forall a b c, cmp a b = Lt -> cmp b c = Lt -> cmp a c = Lt }.

Section CmpFacts.
  Context {K : Type} (cmp : K -> K -> comparison) (CL : CmpLaws cmp).
  Lemma cmp_gt_lt a b : cmp a b = Gt -> cmp b a = Lt.
  Proof. intros H. rewrite (cmp_antisym _ CL a b), H. reflexivity. Qed.
  Lemma cmp_lt_gt a b : cmp a b = Lt -> cmp b a = Gt.
  Proof. intros H. rewrite (cmp_antisym _ CL a b), H. reflexivity. Qed.
  Lemma cmp_gt_trans a b c : cmp a b = Gt -> cmp b c = Gt -> cmp a c = Gt.
  Proof.
    intros H1 H2. apply cmp_lt_gt. exact (cmp_trans _ CL _ _ _ (cmp_gt_lt _ _ H2) (cmp_gt_lt _ _ H1)).
  Qed.
End CmpFacts.

Lemma N_laws : CmpLaws N.compare.
Proof.
  split.
  - intros a b H. apply N.compare_eq_iff. exact H.
  - apply N.compare_refl.
  - intros a b. apply N.compare_antisym.
  - intros a b c H1 H2. rewrite N.compare_lt_iff in *. lia.
Qed.

Lemma cid_laws : CmpLaws cid_cmp.
Proof.
  split.
  - intros [a1 a2] [b1 b2]. unfold cid_cmp. cbn [fst snd].
    destruct (N.compare_spec a1 b1); try discriminate.
    destruct (N.compare_spec a2 b2); try discriminate. intros _. subst. reflexivity.
  - intros [a1 a2]. unfold cid_cmp. cbn [fst snd]. rewrite !N.compare_refl. reflexivity.
  - intros [a1 a2] [b1 b2]. unfold cid_cmp. cbn [fst snd].
    rewrite (N.compare_antisym a1 b1), (N.compare_antisym a2 b2).
    destruct (a1 ?= b1); reflexivity.
  - intros [a1 a2] [b1 b2] [c1 c2]. unfold cid_cmp. cbn [fst snd]. intros Hab Hbc.
    destruct (N.compare_spec a1 b1) as [E1|E1|E1]; try discriminate;
    destruct (N.compare_spec b1 c1) as [E2|E2|E2]; try discriminate;
    destruct (N.compare_spec a1 c1) as [E3|E3|E3]; try reflexivity; try (exfalso; lia).
    rewrite N.compare_lt_iff in *. lia.
Qed.

Section MapFacts.
  Context {K V : Type}.
  Variable kcmp : K -> K -> comparison.
  Hypothesis KL : CmpLaws kcmp.

  Definition klt (a b : K * V) : Prop := kcmp (fst a) (fst b) = Lt.
  Definition sorted (m : list (K * V)) : Prop := StronglySorted klt m.

  Lemma sorted_inv kv (r : list (K * V)) :
    sorted (kv :: r) -> sorted r /\ forall x, In x r -> klt kv x.
  Proof.
    intros H. apply StronglySorted_inv in H as [H1 H2]. split; [exact H1|].
    rewrite Forall_forall in H2. exact H2.
  Qed.
  Lemma sorted_cons kv (r : list (K * V)) :
    sorted r -> (forall x, In x r -> klt kv x) -> sorted (kv :: r).
  Proof. intros H1 H2. constructor; [exact H1 | apply Forall_forall; exact H2]. Qed.

  Lemma get_head k (v : V) r : get kcmp k ((k, v) :: r) = Some v.
  Proof. cbn [get]. rewrite (cmp_refl _ KL). reflexivity. Qed.

  Lemma get_none_lt k (m : list (K * V)) :
    (forall kv, In kv m -> kcmp k (fst kv) = Lt) -> get kcmp k m = None.
  Proof.
    induction m as [|[k0 v0] r IH]; intros H; cbn [get]; [reflexivity|].
    pose proof (H (k0, v0) (or_introl eq_refl)) as H0. cbn [fst] in H0. rewrite H0.
    apply IH. intros kv Hkv. apply H. right. exact Hkv.
  Qed.

  Lemma get_below k k0 (v0 : V) r :
    sorted ((k0, v0) :: r) -> kcmp k k0 = Lt -> get kcmp k ((k0, v0) :: r) = None.
  Proof.
    intros Hs E. apply get_none_lt. intros kv [<-|Hkv]; [exact E|].
    exact (cmp_trans _ KL _ _ _ E (proj2 (sorted_inv _ _ Hs) kv Hkv)).
  Qed.

  Lemma get_head_tail k0 (v0 : V) r k :
    sorted ((k0, v0) :: r) -> kcmp k k0 = Eq -> get kcmp k r = None.
  Proof.
    intros Hs He. apply (cmp_eq _ KL) in He. subst k0.
    apply get_none_lt. exact (proj2 (sorted_inv _ _ Hs)).
  Qed.

  Lemma get_put k v k' (m : list (K * V)) :
    get kcmp k' (put kcmp k v m) = match kcmp k' k with Eq => Some v | _ => get kcmp k' m end.
  Proof.
    induction m as [|[k0 v0] r IH]; cbn [put get].
    - destruct (kcmp k' k); reflexivity.
    - destruct (kcmp k k0) eqn:E0; cbn [get].
      + apply (cmp_eq _ KL) in E0. subst k0. destruct (kcmp k' k); reflexivity.
      + destruct (kcmp k' k); reflexivity.
      + rewrite IH. destruct (kcmp k' k0) eqn:E1; try reflexivity.
        destruct (kcmp k' k) eqn:E2; try reflexivity.
        apply (cmp_eq _ KL) in E1. apply (cmp_eq _ KL) in E2. subst.
        rewrite (cmp_refl _ KL) in E0. discriminate.
  Qed.

  Lemma get_put_same k v (m : list (K * V)) : get kcmp k (put kcmp k v m) = Some v.
  Proof. rewrite get_put, (cmp_refl _ KL). reflexivity. Qed.

  Lemma in_put x k v (m : list (K * V)) : In x (put kcmp k v m) -> x = (k, v) \/ In x m.
  Proof.
    induction m as [|[k0 v0] r IH]; cbn [put].
    - intros [<-|[]]. left. reflexivity.
    - destruct (kcmp k k0) eqn:E0.
      + apply (cmp_eq _ KL) in E0. subst k0. intros [<-|H]; [left; reflexivity | right; right; exact H].
      + intros [<-|H]; [left; reflexivity | right; exact H].
      + intros [<-|H]; [right; left; reflexivity|].
        destruct (IH H) as [->|H']; [left; reflexivity | right; right; exact H'].
  Qed.

  Lemma put_sorted k v (m : list (K * V)) : sorted m -> sorted (put kcmp k v m).
  Proof.
    induction m as [|[k0 v0] r IH]; intros Hs; cbn [put].
    - apply sorted_cons; [constructor | intros x []].
    - pose proof (sorted_inv _ _ Hs) as [Hr Hlt]. destruct (kcmp k k0) eqn:E0.
      + exact (sorted_cons (k0, v) r Hr Hlt).
      + apply sorted_cons; [exact Hs|]. intros x [<-|Hx]; [exact E0|].
        exact (cmp_trans _ KL _ k0 _ E0 (Hlt x Hx)).
      + apply sorted_cons; [exact (IH Hr)|]. intros x Hx.
        destruct (in_put _ _ _ _ Hx) as [->|Hx']; [exact (cmp_gt_lt _ KL _ _ E0) | exact (Hlt x Hx')].
  Qed.

  Lemma filter_sorted f (m : list (K * V)) : sorted m -> sorted (filter f m).
  Proof.
    induction m as [|kv r IH]; intros Hs; cbn [filter]; [constructor|].
    pose proof (sorted_inv _ _ Hs) as [Hr Hlt]. destruct (f kv); [|exact (IH Hr)].
    apply sorted_cons; [exact (IH Hr)|]. intros x Hx. apply filter_In in Hx as [Hx _]. exact (Hlt x Hx).
  Qed.

  Lemma get_retain f k (m : list (K * V)) : sorted m ->
    get kcmp k (retain f m) = match get kcmp k m with Some v => if f v then Some v else None | None => None end.
  Proof.
    unfold retain. induction m as [|[k0 v0] r IH]; intros Hs; cbn [filter get snd]; [reflexivity|].
    pose proof (sorted_inv _ _ Hs) as [Hr Hlt]. destruct (f v0) eqn:Ef; cbn [get].
    - destruct (kcmp k k0) eqn:E; [rewrite Ef; reflexivity | exact (IH Hr) | exact (IH Hr)].
    - rewrite (IH Hr). destruct (kcmp k k0) eqn:E; try reflexivity.
      rewrite (get_head_tail _ _ _ _ Hs E), Ef. reflexivity.
  Qed.

  Lemma in_get k v (m : list (K * V)) : sorted m -> In (k, v) m -> get kcmp k m = Some v.
  Proof.
    induction m as [|[k0 v0] r IH]; intros Hs Hin; [destruct Hin|].
    pose proof (sorted_inv _ _ Hs) as [Hr Hlt]. destruct Hin as [[= -> ->]|Hin]; [apply get_head|].
    cbn [get]. rewrite (cmp_lt_gt _ KL k0 k (Hlt _ Hin)). exact (IH Hr Hin).
  Qed.
  Lemma get_In k v (m : list (K * V)) : get kcmp k m = Some v -> In (k, v) m.
  Proof.
    induction m as [|[k0 v0] r IH]; cbn [get]; [discriminate|].
    destruct (kcmp k k0) eqn:E; [|intros H; right; exact (IH H)..].
    intros [= ->]. rewrite (cmp_eq _ KL _ _ E). left. reflexivity.
  Qed.

  Lemma sorted_nodup (m : list (K * V)) : sorted m -> NoDup (map fst m).
  Proof.
    induction m as [|[k0 v0] r IH]; intros Hs; cbn [map fst]; constructor.
    - pose proof (sorted_inv _ _ Hs) as [Hr Hlt]. intros Hin. apply in_map_iff in Hin as [[k1 v1] [Hk Hin]].
      cbn [fst] in Hk. subst k1. pose proof (Hlt _ Hin) as H. unfold klt in H. cbn [fst] in H.
      rewrite (cmp_refl _ KL) in H. discriminate.
    - apply IH. exact (proj1 (sorted_inv _ _ Hs)).
  Qed.

  Lemma sorted_ext (a b : list (K * V)) :
    sorted a -> sorted b -> (forall k, get kcmp k a = get kcmp k b) -> a = b.
  Proof.
    revert b. induction a as [|[ka va] ra IH]; intros [|[kb vb] rb] Ha Hb H.
    - reflexivity.
    - specialize (H kb). rewrite get_head in H. discriminate.
    - specialize (H ka). rewrite get_head in H. discriminate.
    - destruct (kcmp ka kb) eqn:E.
      + apply (cmp_eq _ KL) in E. subst kb.
        pose proof (H ka) as H0. rewrite !get_head in H0. injection H0 as ->.
        f_equal. apply IH; [exact (proj1 (sorted_inv _ _ Ha)) | exact (proj1 (sorted_inv _ _ Hb)) |].
        intros k. specialize (H k). cbn [get] in H. destruct (kcmp k ka) eqn:E'; try exact H.
        rewrite (get_head_tail _ _ _ _ Ha E'), (get_head_tail _ _ _ _ Hb E'). reflexivity.
      (* the heads' keys differ: looking up the smaller one tells the lists apart *)
      + specialize (H ka). rewrite get_head, (get_below _ _ _ _ Hb E) in H. discriminate.
      + specialize (H kb). rewrite get_head, (get_below _ _ _ _ Ha (cmp_gt_lt _ KL _ _ E)) in H. discriminate.
  Qed.

  Variable gt : V -> V -> bool.
  (* newer value a, older value b *)
  Definition jv (a b : option V) : option V :=
    match a, b with
    | Some x, Some y => Some (if gt y x then y else x)
    | Some x, None => Some x
    | None, y => y
    end.

  Lemma jv_none_r a : jv a None = a.
  Proof. destruct a; reflexivity. Qed.

  Lemma get_merge_step k acc kv :
    get kcmp k (merge_step kcmp gt acc kv)
    = match kcmp k (fst kv) with Eq => jv (get kcmp k acc) (Some (snd kv)) | _ => get kcmp k acc end.
  Proof.
    destruct kv as [k0 v0]. unfold merge_step. cbn [fst snd]. destruct (kcmp k k0) eqn:E.
    2, 3: destruct (get kcmp k0 acc) as [vs|]; [destruct (gt v0 vs)|]; rewrite ?get_put, ?E; reflexivity.
    apply (cmp_eq _ KL) in E. subst k0. destruct (get kcmp k acc) as [vs|] eqn:En; cbn [jv].
    - destruct (gt v0 vs); [apply get_put_same | exact En].
    - apply get_put_same.
  Qed.

  Lemma merge_step_sorted acc kv : sorted acc -> sorted (merge_step kcmp gt acc kv).
  Proof.
    intros H. unfold merge_step. destruct (get kcmp (fst kv) acc) as [vs|]; [destruct (gt (snd kv) vs)|];
      try exact H; apply put_sorted; exact H.
  Qed.
  Lemma merge_raw_sorted n o : sorted n -> sorted (merge_raw kcmp gt n o).
  Proof.
    unfold merge_raw. revert n. induction o as [|kv r IH]; intros n Hn; cbn [fold_left]; [exact Hn|].
    apply IH, merge_step_sorted, Hn.
  Qed.

  Lemma get_merge_raw k o : forall n, sorted o ->
    get kcmp k (merge_raw kcmp gt n o) = jv (get kcmp k n) (get kcmp k o).
  Proof.
    unfold merge_raw. induction o as [|[k0 v0] r IH]; intros n Hs; cbn [fold_left get].
    - symmetry. apply jv_none_r.
    - rewrite (IH _ (proj1 (sorted_inv _ _ Hs))), get_merge_step. cbn [fst snd].
      destruct (kcmp k k0) eqn:E; try reflexivity.
      rewrite (get_head_tail _ _ _ _ Hs E). apply jv_none_r.
  Qed.

End MapFacts.

Section Preds.
  Context {K V : Type}.
  Definition entries_rel (R : V -> V -> Prop) (ins : list (cid * list (K * V))) : Prop :=
    forall c1 m1 c2 m2 k v1 v2,
      In (c1, m1) ins -> In (c2, m2) ins -> In (k, v1) m1 -> In (k, v2) m2 -> R v1 v2.
  Definition WellFormed (kcmp : K -> K -> comparison) (ins : list (cid * list (K * V))) : Prop :=
    forall c m, In (c, m) ins -> sorted kcmp m.
  Definition Fits (n : nat) (ins : list (cid * list (K * V))) : Prop :=
    exists ks : list K, (length ks <= n)%nat /\ forall c m k v, In (c, m) ins -> In (k, v) m -> In k ks.

  Lemma entries_rel_impl (R R' : V -> V -> Prop) ins :
    (forall x y, R x y -> R' x y) -> entries_rel R ins -> entries_rel R' ins.
  Proof. intros HR H c1 m1 c2 m2 k v1 v2 I1 I2 J1 J2. exact (HR _ _ (H _ _ _ _ _ _ _ I1 I2 J1 J2)). Qed.

  Lemma WellFormed_Forall kcmp ins : Forall (fun cm => sorted kcmp (snd cm)) ins -> WellFormed kcmp ins.
  Proof. intros H c m Hin. rewrite Forall_forall in H. exact (H _ Hin). Qed.

  Lemma in_entries (ins : list (cid * list (K * V))) c m e : In (c, m) ins -> In e m -> In e (entries ins).
  Proof. intros I J. apply in_concat. exists m. split; [exact (in_map snd _ _ I) | exact J]. Qed.

  Lemma Fits_entries n ins : Nat.leb (length (entries ins)) n = true -> Fits n ins.
  Proof.
    intros H. exists (map fst (entries ins)). split; [rewrite map_length; exact (proj1 (Nat.leb_le _ _) H)|].
    intros c m k v I J. exact (in_map fst _ _ (in_entries _ _ _ _ I J)).
  Qed.

  Lemma entries_forallb2 (r : K * V -> K * V -> bool) ins :
    forallb (fun a => forallb (r a) (entries ins)) (entries ins) = true ->
    forall c1 m1 c2 m2 e1 e2, In (c1, m1) ins -> In (c2, m2) ins -> In e1 m1 -> In e2 m2 -> r e1 e2 = true.
  Proof.
    intros H c1 m1 c2 m2 e1 e2 I1 I2 J1 J2. rewrite forallb_forall in H.
    specialize (H e1 (in_entries _ _ _ _ I1 J1)). rewrite forallb_forall in H.
    exact (H e2 (in_entries _ _ _ _ I2 J2)).
  Qed.
  Lemma pairwise_sound keq r (R : V -> V -> Prop) ins :
    (forall k, keq k k = true) -> (forall x y, r x y = true -> R x y) ->
    pairwise keq r (entries ins) = true -> entries_rel R ins.
  Proof.
    intros Hk Hr H c1 m1 c2 m2 k v1 v2 I1 I2 J1 J2. apply Hr.
    pose proof (entries_forallb2 (fun a b => implb (keq (fst a) (fst b)) (r (snd a) (snd b))) ins H
      _ _ _ _ _ _ I1 I2 J1 J2) as E. cbn [fst snd] in E. rewrite Hk in E. exact E.
  Qed.
  Lemma window_sound keq (dead : V -> bool) ins : (forall k, keq k k = true) ->
    pairwise keq (fun a b => implb (dead a) (dead b)) (entries ins) = true ->
    entries_rel (fun v1 v2 => dead v1 = true -> dead v2 = true) ins.
  Proof. intros Hk. apply (pairwise_sound keq); [exact Hk|]. intros x y H D. rewrite D in H. exact H. Qed.
End Preds.

Definition SessConsistent : list (cid * smap) -> Prop :=
  entries_rel (fun v1 v2 => s_state v1 = s_state v2 -> v1 = v2).
Definition SessWindow (trim : cid) : list (cid * smap) -> Prop :=
  entries_rel (fun v1 v2 => sval_dead trim v1 = true -> sval_dead trim v2 = true).
(* the eviction beyond SESSION_MAXIMUM goes by issue time *)
Definition SessIssuedDistinct (ins : list (cid * smap)) : Prop :=
  forall c1 m1 c2 m2 k1 k2 v1 v2, In (c1, m1) ins -> In (c2, m2) ins -> In (k1, v1) m1 -> In (k2, v2) m2 ->
    (k1 = k2 <-> s_issued v1 = s_issued v2).
Definition KeyConsistent : list (cid * kmap) -> Prop :=
  entries_rel (fun v1 v2 => k_status v1 = k_status v2 -> k_pay v1 = k_pay v2).
Definition KeyWindow (trim : cid) : list (cid * kmap) -> Prop :=
  entries_rel (fun v1 v2 => kval_dead trim v1 = true -> kval_dead trim v2 = true).
Definition AuditConsistent : list (cid * amap) -> Prop := entries_rel (fun v1 v2 : N => v1 = v2).

Definition cle (a b : cid) : Prop := cid_cmp a b <> Gt.
Lemma cle_refl a : cle a a.
Proof. unfold cle. rewrite (cmp_refl _ cid_laws). discriminate. Qed.
Lemma cle_trans a b c : cle a b -> cle b c -> cle a c.
Proof.
  unfold cle. intros H1 H2. destruct (cid_cmp a b) eqn:E1; [| |congruence].
  - apply (cmp_eq _ cid_laws) in E1. subst. exact H2.
  - destruct (cid_cmp b c) eqn:E2; [| |congruence].
    + apply (cmp_eq _ cid_laws) in E2. subst. rewrite E1. discriminate.
    + rewrite (cmp_trans _ cid_laws _ _ _ E1 E2). discriminate.
Qed.
Lemma cle_antisym a b : cle a b -> cle b a -> a = b.
Proof.
  unfold cle. intros H1 H2. destruct (cid_cmp a b) eqn:E; [|destruct H2|destruct H1].
  - exact (cmp_eq _ cid_laws _ _ E).
  - exact (cmp_lt_gt _ cid_laws _ _ E).
  - reflexivity.
Qed.
Lemma cle_total a b : cle a b \/ cle b a.
Proof.
  unfold cle. destruct (cid_cmp a b) eqn:E; [left | left | right]; try discriminate.
  rewrite (cmp_gt_lt _ cid_laws _ _ E). discriminate.
Qed.
Lemma cid_gtb_false a b : cid_gtb a b = false -> cle a b.
Proof. unfold cid_gtb, cle. destruct (cid_cmp a b); congruence. Qed.
Lemma cid_gtb_true a b : cid_gtb a b = true -> cle b a.
Proof.
  unfold cid_gtb, cle. destruct (cid_cmp a b) eqn:E; try discriminate.
  rewrite (cmp_gt_lt _ cid_laws _ _ E). discriminate.
Qed.

Definition is_node (s : shape) : Prop := match s with Nd _ _ => True | L _ => False end.
Definition same_leafset (s1 s2 : shape) : Prop := forall i, In i (leaves s1) <-> In i (leaves s2).

Section CidMax.
  Context {M : Type}.
  Variable mrg : M -> M -> M.
  Variable ins : list (cid * M).

  Fixpoint wf (s : shape) : Prop :=
    match s with L i => nth_error ins (N.to_nat i) <> None | Nd a b => wf a /\ wf b end.

  Lemma eval_some s : wf s -> exists c m, eval mrg ins s = Some (c, m).
  Proof.
    induction s as [i|a IHa b IHb]; cbn [wf eval].
    - destruct (nth_error ins (N.to_nat i)) as [[c m]|]; [intros _; eauto | congruence].
    - intros [Ha Hb]. destruct (IHa Ha) as [ca [ma ->]]. destruct (IHb Hb) as [cb [mb ->]].
      unfold repl_merge. cbn [fst snd]. destruct (cid_gtb ca cb); eauto.
  Qed.

  Definition cid_below (s : shape) (c : cid) : Prop :=
    exists i mi, In i (leaves s) /\ nth_error ins (N.to_nat i) = Some (c, mi).
  Lemma cid_below_node a b c : cid_below (Nd a b) c <-> cid_below a c \/ cid_below b c.
  Proof.
    unfold cid_below. cbn [leaves]. split.
    - intros (i & mi & Hi & E). apply in_app_or in Hi as [Hi|Hi]; eauto.
    - intros [(i & mi & Hi & E)|(i & mi & Hi & E)]; exists i, mi; auto using in_or_app.
  Qed.

  Lemma eval_cid_max s : forall c m, eval mrg ins s = Some (c, m) ->
    cid_below s c /\ forall c', cid_below s c' -> cle c' c.
  Proof.
    induction s as [i|a IHa b IHb]; intros c m; cbn [eval].
    - intros H. split; [exists i, m; split; [left; reflexivity | exact H]|].
      intros c' (j & mj & [<-|[]] & Ej). rewrite H in Ej. injection Ej as <- _. apply cle_refl.
    - destruct (eval mrg ins a) as [[ca ma]|]; [|discriminate].
      destruct (eval mrg ins b) as [[cb mb]|]; [|discriminate].
      destruct (IHa _ _ eq_refl) as [Xa Ua], (IHb _ _ eq_refl) as [Xb Ub].
      unfold repl_merge. cbn [fst snd].
      destruct (cid_gtb ca cb) eqn:G; intros [= <- _]; [apply cid_gtb_true in G | apply cid_gtb_false in G].
      (* either way G bounds the change id of the side that was not taken *)
      all: split; [apply cid_below_node; auto|].
      all: intros c' H; apply cid_below_node in H as [H|H]; eauto using cle_trans.
  Qed.

  Lemma eval_cid_same_leaves s1 s2 c1 m1 c2 m2 : same_leafset s1 s2 ->
    eval mrg ins s1 = Some (c1, m1) -> eval mrg ins s2 = Some (c2, m2) -> c1 = c2.
  Proof.
    intros Hl E1 E2.
    destruct (eval_cid_max _ _ _ E1) as [(i1 & n1 & H1 & F1) U1], (eval_cid_max _ _ _ E2) as [(i2 & n2 & H2 & F2) U2].
    apply cle_antisym; [apply U2; exists i1, n1 | apply U1; exists i2, n2]; split; try assumption; apply Hl; assumption.
  Qed.
End CidMax.

Definition tree_independent {M} (mrg : M -> M -> M) (ins : list (cid * M)) : Prop := forall s1 s2,
  wf ins s1 -> wf ins s2 -> is_node s1 -> is_node s2 -> same_leafset s1 s2 -> eval mrg ins s1 = eval mrg ins s2.

Section Lattice.
  Context {K V : Type}.
  Variable kcmp : K -> K -> comparison.
  Hypothesis KL : CmpLaws kcmp.
  Variable gt : V -> V -> bool.
  Variable dead : V -> bool.
  Hypothesis gt_asym : forall a b, gt a b = true -> gt b a = false.
  Hypothesis gt_trans : forall a b c, gt a b = true -> gt b c = true -> gt a c = true.

  Notation kvmap := (list (K * V)).
  Notation srt := (sorted (V:=V) kcmp).
  Notation lk := (get (V:=V) kcmp).

  Definition gmerge (n o : kvmap) : kvmap :=
    retain (fun v => negb (dead v)) (merge_raw kcmp gt n o).
  Definition tv (a : option V) : option V :=
    match a with Some x => if dead x then None else Some x | None => None end.

  Lemma get_gmerge k n o : srt n -> srt o ->
    lk k (gmerge n o) = tv (jv gt (lk k n) (lk k o)).
  Proof.
    intros Hn Ho. unfold gmerge. rewrite (get_retain kcmp KL) by (apply (merge_raw_sorted kcmp KL); exact Hn).
    rewrite (get_merge_raw kcmp KL) by exact Ho. unfold tv.
    destruct (jv gt (lk k n) (lk k o)) as [v|]; [destruct (dead v)|]; reflexivity.
  Qed.
  Lemma gmerge_sorted n o : srt n -> srt (gmerge n o).
  Proof. intros Hn. apply filter_sorted, (merge_raw_sorted kcmp KL), Hn. Qed.

  Lemma gmerge_idem m : srt m -> gmerge m m = retain (fun v => negb (dead v)) m.
  Proof.
    intros S. apply (sorted_ext kcmp KL); [exact (gmerge_sorted _ _ S) | exact (filter_sorted _ _ _ S) |].
    intros k. rewrite (get_gmerge k m m S S), (get_retain kcmp KL _ k m S).
    destruct (lk k m) as [v|]; cbn; [|reflexivity].
    destruct (gt v v); cbn; destruct (dead v); reflexivity.
  Qed.

  Definition comparable (x y : V) : Prop := x = y \/ gt x y = true \/ gt y x = true.

  Lemma jv_cases a b : jv gt a b = a \/ jv gt a b = b.
  Proof. destruct a as [x|], b as [y|]; cbn; auto. destruct (gt y x); auto. Qed.

  Lemma jv_comm a b :
    (forall x y, a = Some x -> b = Some y -> comparable x y) -> jv gt a b = jv gt b a.
  Proof.
    destruct a as [x|], b as [y|]; cbn; auto. intros H.
    destruct (H x y eq_refl eq_refl) as [->|[G|G]].
    - destruct (gt y y); reflexivity.
    - rewrite G, (gt_asym _ _ G). reflexivity.
    - rewrite G, (gt_asym _ _ G). reflexivity.
  Qed.

  Lemma tv_some x v : tv x = Some v -> x = Some v.
  Proof. destruct x as [a|]; cbn [tv]; [destruct (dead a)|]; congruence. Qed.
  Lemma tv_idem x : tv (tv x) = tv x.
  Proof. destruct x as [a|]; cbn [tv]; [destruct (dead a) eqn:D; cbn [tv]; rewrite ?D|]; reflexivity. Qed.
  (* where the window premise is needed: an expired record can only be replaced by an expired one *)
  Lemma tv_jv x y :
    (forall a b, x = Some a -> y = Some b -> dead a = dead b) -> tv (jv gt x y) = jv gt (tv x) (tv y).
  Proof.
    destruct x as [a|], y as [b|]; intros H; cbn [jv tv]; try reflexivity.
    - specialize (H a b eq_refl eq_refl).
      destruct (gt b a) eqn:G; rewrite <- ?H; destruct (dead a); cbn [jv]; rewrite ?G; reflexivity.
    - symmetry. apply jv_none_r.
  Qed.

  Definition oge (x y : option V) : Prop :=
    match y with
    | None => True
    | Some b => match x with Some a => a = b \/ gt a b = true | None => False end
    end.
  Lemma oge_refl x : oge x x.
  Proof. destruct x; cbn; auto. Qed.
  Lemma oge_trans x y z : oge x y -> oge y z -> oge x z.
  Proof.
    destruct z as [c|]; [|intros; exact I]. destruct y as [b|]; [|intros _ []].
    destruct x as [a|]; [|intros []]. cbn. intros [->|H1] [->|H2]; auto.
    right. exact (gt_trans _ _ _ H1 H2).
  Qed.
  Lemma oge_antisym x y : oge x y -> oge y x -> x = y.
  Proof.
    destruct x as [a|], y as [b|]; cbn; try tauto.
    intros [->|H1] [H2|H2]; try congruence. rewrite (gt_asym _ _ H1) in H2. discriminate.
  Qed.
  Lemma oge_jv_l a b : oge (jv gt a b) a.
  Proof. destruct a as [x|], b as [y|]; cbn; auto. destruct (gt y x) eqn:G; auto. Qed.
  Lemma oge_jv_r a b :
    (forall x y, a = Some x -> b = Some y -> comparable x y) -> oge (jv gt a b) b.
  Proof.
    destruct a as [x|], b as [y|]; cbn; auto. intros H. destruct (gt y x) eqn:G; auto.
    destruct (H x y eq_refl eq_refl) as [->|[G'|G']]; auto. congruence.
  Qed.

  Section Replicas.
  Variable ins : list (cid * kvmap).
  Hypothesis HS : WellFormed kcmp ins.
  Hypothesis HC : entries_rel comparable ins.
  Hypothesis HW : entries_rel (fun v1 v2 => dead v1 = true -> dead v2 = true) ins.

  Definition held (s : shape) (k : K) (v : V) : Prop :=
    exists j cj mj, In j (leaves s) /\ nth_error ins (N.to_nat j) = Some (cj, mj) /\ In (k, v) mj.

  Lemma held_incl s s' k v : incl (leaves s) (leaves s') -> held s k v -> held s' k v.
  Proof. intros Hl (j & cj & mj & Hj & R). exists j, cj, mj. split; [exact (Hl j Hj) | exact R]. Qed.
  Lemma held_node a b k v : held (Nd a b) k v -> held a k v \/ held b k v.
  Proof.
    intros (j & cj & mj & Hj & R). apply in_app_or in Hj as [Hj|Hj]; [left | right]; exists j, cj, mj; auto.
  Qed.
  Lemma held_rel {R : V -> V -> Prop} {a b k x y} : entries_rel R ins -> held a k x -> held b k y -> R x y.
  Proof.
    intros HR (i & ci & mi & _ & Ei & Hx) (j & cj & mj & _ & Ej & Hy).
    exact (HR _ _ _ _ _ _ _ (nth_error_In _ _ Ei) (nth_error_In _ _ Ej) Hx Hy).
  Qed.
  Lemma held_dead a b k x y : held a k x -> held b k y -> dead x = dead y.
  Proof.
    intros Hx Hy. apply eq_true_iff_eq.
    split; [exact (held_rel HW Hx Hy) | exact (held_rel HW Hy Hx)].
  Qed.

  Fixpoint sem (s : shape) (k : K) : option V :=
    match s with
    | L i => match nth_error ins (N.to_nat i) with Some (_, m) => lk k m | None => None end
    | Nd a b => jv gt (sem a k) (sem b k)
    end.

  Lemma sem_held s k v : sem s k = Some v -> held s k v.
  Proof.
    induction s as [i|a IHa b IHb]; cbn [sem].
    - destruct (nth_error ins (N.to_nat i)) as [[c m]|] eqn:E; [|discriminate].
      intros H. exists i, c, m. split; [left; reflexivity|]. split; [exact E | exact (get_In kcmp KL _ _ _ H)].
    - intros H. destruct (jv_cases (sem a k) (sem b k)) as [E|E]; rewrite E in H.
      + exact (held_incl a (Nd a b) _ _ (incl_appl _ (incl_refl _)) (IHa H)).
      + exact (held_incl b (Nd a b) _ _ (incl_appr _ (incl_refl _)) (IHb H)).
  Qed.
  Lemma sem_comparable a b k x y : sem a k = Some x -> sem b k = Some y -> comparable x y.
  Proof. intros Hx Hy. exact (held_rel HC (sem_held _ _ _ Hx) (sem_held _ _ _ Hy)). Qed.

  Lemma sem_ub s k w : held s k w -> oge (sem s k) (Some w).
  Proof.
    induction s as [i|a IHa b IHb]; cbn [sem].
    - intros (j & cj & mj & [<-|[]] & E & H).
      rewrite E, (in_get kcmp KL _ _ _ (HS _ _ (nth_error_In _ _ E)) H). apply oge_refl.
    - intros H. apply held_node in H as [H|H].
      + exact (oge_trans _ _ _ (oge_jv_l _ _) (IHa H)).
      + exact (oge_trans _ _ _ (oge_jv_r _ _ (sem_comparable a b k)) (IHb H)).
  Qed.

  Lemma sem_same_leaves s1 s2 k : same_leafset s1 s2 -> sem s1 k = sem s2 k.
  Proof.
    assert (H : forall s s', incl (leaves s') (leaves s) -> oge (sem s k) (sem s' k)).
    { intros s s' Hl. destruct (sem s' k) as [v|] eqn:E; [|exact I].
      exact (sem_ub _ _ _ (held_incl _ _ _ _ Hl (sem_held _ _ _ E))). }
    intros Hl. apply oge_antisym; apply H; intros i Hi; apply Hl; exact Hi.
  Qed.

  Definition out (s : shape) (k : K) : option V :=
    match s with L _ => sem s k | Nd _ _ => tv (sem s k) end.
  Lemma out_node s k : is_node s -> out s k = tv (sem s k).
  Proof. destruct s; [intros [] | reflexivity]. Qed.
  Lemma out_some s k v : out s k = Some v -> sem s k = Some v.
  Proof. destruct s; [intros H; exact H | apply tv_some]. Qed.

  Lemma tv_out s k : tv (out s k) = tv (sem s k).
  Proof. destruct s; [reflexivity | apply tv_idem]. Qed.
  Lemma sem_dead a b k x y : sem a k = Some x -> sem b k = Some y -> dead x = dead y.
  Proof. intros Hx Hy. exact (held_dead a b k x y (sem_held _ _ _ Hx) (sem_held _ _ _ Hy)). Qed.

  Lemma node_out a b k : tv (jv gt (out a k) (out b k)) = out (Nd a b) k.
  Proof.
    cbn [out sem]. rewrite (tv_jv (sem a k) (sem b k) (sem_dead a b k)), tv_jv, !tv_out; [reflexivity|].
    intros x y Hx Hy. exact (sem_dead a b k x y (out_some _ _ _ Hx) (out_some _ _ _ Hy)).
  Qed.

  Lemma eval_spec s : forall c m, eval gmerge ins s = Some (c, m) -> srt m /\ forall k, lk k m = out s k.
  Proof.
    induction s as [i|a IHa b IHb]; intros c m; cbn [eval].
    - intros E. split; [exact (HS _ _ (nth_error_In _ _ E))|]. intros k. cbn [out sem]. rewrite E. reflexivity.
    - destruct (eval gmerge ins a) as [[ca ma]|]; [|discriminate].
      destruct (eval gmerge ins b) as [[cb mb]|]; [|discriminate].
      destruct (IHa _ _ eq_refl) as [Sa Ga], (IHb _ _ eq_refl) as [Sb Gb].
      unfold repl_merge. cbn [fst snd]. destruct (cid_gtb ca cb); intros [= <- <-].
      + split; [exact (gmerge_sorted _ _ Sa)|]. intros k.
        rewrite (get_gmerge k _ _ Sa Sb), Ga, Gb. apply node_out.
      + (* the roles are swapped; the join does not mind *)
        split; [exact (gmerge_sorted _ _ Sb)|]. intros k.
        rewrite (get_gmerge k _ _ Sb Sa), Ga, Gb, node_out. cbn [out sem]. f_equal.
        apply jv_comm, sem_comparable.
  Qed.

  Lemma eval_holds s k v c m :
    is_node s -> eval gmerge ins s = Some (c, m) -> sem s k = Some v -> dead v = false -> In (k, v) m.
  Proof.
    intros N E Es D. apply (get_In kcmp KL).
    rewrite (proj2 (eval_spec _ _ _ E)), (out_node _ _ N), Es. cbn [tv]. rewrite D. reflexivity.
  Qed.

  Theorem tree_indep : tree_independent gmerge ins.
  Proof.
    intros s1 s2 W1 W2 N1 N2 Hl.
    destruct (eval_some gmerge ins s1 W1) as (c1 & m1 & E1), (eval_some gmerge ins s2 W2) as (c2 & m2 & E2).
    destruct (eval_spec _ _ _ E1) as [S1 G1], (eval_spec _ _ _ E2) as [S2 G2].
    rewrite E1, E2. f_equal. f_equal.
    - exact (eval_cid_same_leaves _ _ _ _ _ _ _ _ Hl E1 E2).
    - apply (sorted_ext kcmp KL _ _ S1 S2). intros k.
      rewrite G1, G2, (out_node _ _ N1), (out_node _ _ N2), (sem_same_leaves _ _ _ Hl). reflexivity.
  Qed.

  Theorem tree_dominance s k v c m :
    is_node s -> eval gmerge ins s = Some (c, m) -> held s k v -> dead v = false ->
    exists v', In (k, v') m /\ held s k v' /\ forall w, held s k w -> v' = w \/ gt v' w = true.
  Proof.
    intros N E Hv Dv.
    pose proof (sem_ub _ _ _ Hv) as Hub. destruct (sem s k) as [v'|] eqn:Es; [|destruct Hub].
    pose proof (sem_held _ _ _ Es) as Hv'. exists v'. split; [|split; [exact Hv'|]].
    - exact (eval_holds s k v' c m N E Es (eq_trans (held_dead _ _ _ _ _ Hv' Hv) Dv)).
    - intros w Hw. pose proof (sem_ub _ _ _ Hw) as H. rewrite Es in H. exact H.
  Qed.

  (* [rev v rc]: v is revoked at rc.  A greater record than a revoked one is revoked earlier, so the
     result holds the earliest revocation *)
  Theorem revocation_dominates (rev : V -> cid -> Prop) s i ci mi k v rc c m :
    (forall v a b, rev v a -> rev v b -> a = b) ->
    (forall v' v rc, gt v' v = true -> rev v rc -> exists rc', rev v' rc' /\ cid_cmp rc' rc = Lt) ->
    is_node s -> eval gmerge ins s = Some (c, m) ->
    In i (leaves s) -> nth_error ins (N.to_nat i) = Some (ci, mi) -> In (k, v) mi ->
    dead v = false -> rev v rc ->
    exists v' rc', In (k, v') m /\ rev v' rc' /\ cle rc' rc /\ held s k v' /\
      (forall j cj mj w rw, In j (leaves s) -> nth_error ins (N.to_nat j) = Some (cj, mj) -> In (k, w) mj ->
         rev w rw -> cle rc' rw).
  Proof.
    intros Hfun Hgt N E Hi Ei Hin Dv Hr.
    assert (Hv : held s k v) by (exists i, ci, mi; auto). clear Hi Ei Hin.
    destruct (tree_dominance s k v c m N E Hv Dv) as (v' & Hin & Hv' & Hmax).
    assert (Hrev : forall w rw, held s k w -> rev w rw -> exists rc', rev v' rc' /\ cle rc' rw).
    { intros w rw Hw Hrw. destruct (Hmax w Hw) as [->|Hg].
      - exists rw. split; [exact Hrw | apply cle_refl].
      - destruct (Hgt _ _ _ Hg Hrw) as (rc' & H1 & H2). exists rc'. split; [exact H1|].
        unfold cle. rewrite H2. discriminate. }
    destruct (Hrev v rc Hv Hr) as (rc' & Hr' & Hle). exists v', rc'.
    split; [exact Hin|]. split; [exact Hr'|]. split; [exact Hle|]. split; [exact Hv'|].
    intros j cj mj w rw Hj Ej Hw Hrw.
    assert (Hw' : held s k w) by (exists j, cj, mj; auto).
    destruct (Hrev w rw Hw' Hrw) as (rc'' & H1 & H2). rewrite (Hfun _ _ _ Hr' H1). exact H2.
  Qed.

  Theorem tree_trim_only_expired s k c m :
    is_node s -> eval gmerge ins s = Some (c, m) -> (forall v, ~ In (k, v) m) ->
    (forall j cj mj v, In j (leaves s) -> nth_error ins (N.to_nat j) = Some (cj, mj) -> ~ In (k, v) mj) \/
    (exists v, dead v = true /\ held s k v).
  Proof.
    intros N E Hnot. destruct (sem s k) as [v|] eqn:Es.
    - right. exists v. split; [|exact (sem_held _ _ _ Es)].
      destruct (dead v) eqn:D; [reflexivity|]. destruct (Hnot v (eval_holds s k v c m N E Es D)).
    - left. intros j cj mj v Hj Ej Hin.
      assert (Hv : held s k v) by (exists j, cj, mj; auto).
      apply sem_ub in Hv. rewrite Es in Hv. exact Hv.
  Qed.

  Lemma eval_length n s c m : Fits n ins -> eval gmerge ins s = Some (c, m) -> (length m <= n)%nat.
  Proof.
    intros (ks & Hlen & Hks) E. destruct (eval_spec _ _ _ E) as [S G].
    rewrite <- (map_length fst m). etransitivity; [|exact Hlen].
    apply NoDup_incl_length; [exact (sorted_nodup kcmp KL _ S)|].
    intros k Hk. apply in_map_iff in Hk as ([k' v] & <- & Hin). cbn [fst].
    pose proof (in_get kcmp KL _ _ _ S Hin) as Gv. rewrite G in Gv.
    destruct (sem_held _ _ _ (out_some _ _ _ Gv)) as (j & cj & mj & _ & Ej & Hj).
    exact (Hks _ _ _ _ (nth_error_In _ _ Ej) Hj).
  Qed.

  (* a size limit that the replicas' distinct keys do not reach never fires.  SESSION_MAXIMUM and
     AUDIT_LOG_STRING_CAPACITY come in as n only, by sess_merge_fits and audit_merge_fits *)
  Lemma eval_capped mrg n s : Fits n ins ->
    (forall a b, srt a -> srt b -> (length (gmerge a b) <= n)%nat -> mrg a b = gmerge a b) ->
    eval mrg ins s = eval gmerge ins s.
  Proof.
    intros HF Hm. induction s as [i|a IHa b IHb]; [reflexivity|].
    pose proof (eval_length n (Nd a b)) as Hlen. cbn [eval] in *. rewrite IHa, IHb.
    destruct (eval gmerge ins a) as [[ca ma]|] eqn:Ea; [|reflexivity].
    destruct (eval gmerge ins b) as [[cb mb]|] eqn:Eb; [|reflexivity].
    destruct (eval_spec _ _ _ Ea) as [Sa _], (eval_spec _ _ _ Eb) as [Sb _].
    unfold repl_merge in *. cbn [fst snd] in *.
    destruct (cid_gtb ca cb); rewrite Hm; auto; exact (Hlen _ _ HF eq_refl).
  Qed.
  End Replicas.
End Lattice.

(* `mergemaps!(o, n)`, inserting all of n into o, is the merge loop with the roles swapped and the
   replacement unconditional *)
Lemma fold_put_merge_raw {K V} (kcmp : K -> K -> comparison) (n : list (K * V)) : forall o,
  fold_left (fun acc kv => put kcmp (fst kv) (snd kv) acc) n o = merge_raw kcmp (fun _ _ => true) o n.
Proof.
  unfold merge_raw. induction n as [|kv r IH]; intros o; cbn [fold_left]; [reflexivity|].
  rewrite IH. f_equal. unfold merge_step. destruct (get kcmp (fst kv) o); reflexivity.
Qed.

Lemma fold_put_gmerge {K V} (kcmp : K -> K -> comparison) (KL : CmpLaws kcmp) (n o : list (K * V)) :
  sorted kcmp n -> sorted kcmp o ->
  fold_left (fun acc kv => put kcmp (fst kv) (snd kv) acc) n o
  = gmerge kcmp (fun _ _ => false) (fun _ => false) n o.
Proof.
  intros Sn So. rewrite fold_put_merge_raw. apply (sorted_ext kcmp KL).
  - exact (merge_raw_sorted kcmp KL _ o n So).
  - exact (gmerge_sorted kcmp KL _ _ n o Sn).
  - (* both keep n's record if there is one, else o's *)
    intros k. rewrite (get_merge_raw kcmp KL _ k n o Sn), (get_gmerge kcmp KL _ _ k n o Sn So).
    destruct (get kcmp k n), (get kcmp k o); reflexivity.
Qed.

Lemma sstate_laws : CmpLaws sstate_cmp.
Proof.
  split.
  - intros [ca|ta|] [cb|tb|]; cbn; try discriminate; intros H.
    + apply (cmp_eq _ cid_laws) in H. subst. reflexivity.
    + apply N.compare_eq_iff in H. subst. reflexivity.
    + reflexivity.
  - intros [ca|ta|]; cbn; [apply (cmp_refl _ cid_laws) | apply N.compare_refl | reflexivity].
  - intros [ca|ta|] [cb|tb|]; cbn; try reflexivity;
      [apply (cmp_antisym _ cid_laws) | apply N.compare_antisym].
  - intros [ca|ta|] [cb|tb|] [cc|tc|]; cbn; try discriminate; try reflexivity.
    + intros H1 H2. exact (cmp_trans _ cid_laws _ _ _ H2 H1).
    + apply (cmp_trans _ N_laws).
Qed.

Lemma sval_gt_asym a b : sval_gt a b = true -> sval_gt b a = false.
Proof.
  unfold sval_gt. destruct (sstate_cmp (s_state a) (s_state b)) eqn:E; try discriminate.
  rewrite (cmp_gt_lt _ sstate_laws _ _ E). reflexivity.
Qed.
Lemma sval_gt_trans a b c : sval_gt a b = true -> sval_gt b c = true -> sval_gt a c = true.
Proof.
  unfold sval_gt. destruct (sstate_cmp (s_state a) (s_state b)) eqn:E1; try discriminate.
  destruct (sstate_cmp (s_state b) (s_state c)) eqn:E2; try discriminate.
  rewrite (cmp_gt_trans _ sstate_laws _ _ _ E1 E2). reflexivity.
Qed.
Lemma sess_comparable v1 v2 : (s_state v1 = s_state v2 -> v1 = v2) -> comparable sval_gt v1 v2.
Proof.
  intros H. unfold comparable, sval_gt. destruct (sstate_cmp (s_state v1) (s_state v2)) eqn:E.
  - left. exact (H (cmp_eq _ sstate_laws _ _ E)).
  - right. right. rewrite (cmp_lt_gt _ sstate_laws _ _ E). reflexivity.
  - right. left. reflexivity.
Qed.
Lemma sval_dead_revoked trim v rc : s_state v = RevokedAt rc -> sval_dead trim v = cid_ltb rc trim.
Proof. intros E. unfold sval_dead. rewrite E. reflexivity. Qed.
Lemma sval_dead_true trim v : sval_dead trim v = true ->
  exists rc, s_state v = RevokedAt rc /\ cid_ltb rc trim = true.
Proof. unfold sval_dead. destruct (s_state v) as [rc| |]; try discriminate. eauto. Qed.
Lemma sess_revoked_fun (v : sval) a b : s_state v = RevokedAt a -> s_state v = RevokedAt b -> a = b.
Proof. congruence. Qed.
Lemma sval_gt_revoked v' v rc : sval_gt v' v = true -> s_state v = RevokedAt rc ->
  exists rc', s_state v' = RevokedAt rc' /\ cid_cmp rc' rc = Lt.
Proof.
  unfold sval_gt. intros H E. rewrite E in H. destruct (s_state v') as [rc'|t|]; cbn in H; try discriminate.
  exists rc'. split; [reflexivity|]. destruct (cid_cmp rc rc') eqn:G; try discriminate.
  exact (cmp_gt_lt _ cid_laws _ _ G).
Qed.

Lemma cid_ltb_lt a b : cid_ltb a b = true <-> cid_cmp a b = Lt.
Proof. unfold cid_ltb. destruct (cid_cmp a b); split; congruence. Qed.
Lemma krank_inj a b : krank a = krank b -> a = b.
Proof. destruct a, b; cbn; congruence. Qed.
Lemma kval_gt_spec a b : kval_gt a b = true <->
  (krank (k_status b) < krank (k_status a) \/
   (krank (k_status a) = krank (k_status b) /\ cid_cmp (k_cid a) (k_cid b) = Lt)).
Proof. unfold kval_gt. rewrite orb_true_iff, andb_true_iff, N.ltb_lt, N.eqb_eq, cid_ltb_lt. tauto. Qed.
Lemma kval_gt_asym a b : kval_gt a b = true -> kval_gt b a = false.
Proof.
  intros H. apply kval_gt_spec in H. destruct (kval_gt b a) eqn:E; [|reflexivity].
  apply kval_gt_spec in E. destruct H as [H|[H1 H2]], E as [E|[E1 E2]]; try lia.
  rewrite (cmp_lt_gt _ cid_laws _ _ H2) in E2. discriminate.
Qed.
Lemma kval_gt_trans a b c : kval_gt a b = true -> kval_gt b c = true -> kval_gt a c = true.
Proof.
  intros H1 H2. apply kval_gt_spec in H1. apply kval_gt_spec in H2. apply kval_gt_spec.
  destruct H1 as [H1|[H1 H1']], H2 as [H2|[H2 H2']]; try (left; lia).
  right. split; [lia|]. exact (cmp_trans _ cid_laws _ _ _ H1' H2').
Qed.
(* status and status cid order the records; the premise makes records equal in both equal *)
Lemma key_comparable v1 v2 : (k_status v1 = k_status v2 -> k_pay v1 = k_pay v2) -> comparable kval_gt v1 v2.
Proof.
  intros Hp. unfold comparable. rewrite !kval_gt_spec.
  destruct (N.lt_trichotomy (krank (k_status v1)) (krank (k_status v2))) as [H|[H|H]]; [tauto | | tauto].
  destruct (cid_cmp (k_cid v1) (k_cid v2)) eqn:E.
  - left. apply (cmp_eq _ cid_laws) in E. apply krank_inj in H. specialize (Hp H).
    destruct v1 as [[s1 c1] p1], v2 as [[s2 c2] p2]. cbn in *. congruence.
  - tauto.
  - right. right. right. split; [symmetry; exact H | exact (cmp_gt_lt _ cid_laws _ _ E)].
Qed.
Definition key_revoked_at (v : kval) (rc : cid) : Prop := k_status v = KRevoked /\ k_cid v = rc.
Lemma kval_dead_revoked trim v rc : key_revoked_at v rc -> kval_dead trim v = cid_ltb rc trim.
Proof. intros [E <-]. unfold kval_dead. rewrite E. reflexivity. Qed.
Lemma key_revoked_fun v a b : key_revoked_at v a -> key_revoked_at v b -> a = b.
Proof. intros [_ <-] [_ <-]. reflexivity. Qed.
Lemma kval_gt_revoked v' v rc : kval_gt v' v = true -> key_revoked_at v rc ->
  exists rc', key_revoked_at v' rc' /\ cid_cmp rc' rc = Lt.
Proof.
  intros H [E <-]. apply kval_gt_spec in H. rewrite E in H. exists (k_cid v'). destruct H as [H|[H1 H2]].
  - destruct (k_status v'); cbn in H; lia.
  - split; [split; [apply krank_inj; exact H1 | reflexivity] | exact H2].
Qed.

Lemma sess_cons ins : SessConsistent ins -> entries_rel (comparable sval_gt) ins.
Proof. apply entries_rel_impl. exact sess_comparable. Qed.
Lemma key_cons ins : KeyConsistent ins -> entries_rel (comparable kval_gt) ins.
Proof. apply entries_rel_impl. exact key_comparable. Qed.

Definition s_gmerge (trim : cid) : smap -> smap -> smap := gmerge N.compare sval_gt (sval_dead trim).

Lemma sess_merge_oauth trim n o : sess_merge true trim n o = s_gmerge trim n o.
Proof. reflexivity. Qed.
Lemma evict_fits m : (length m <= SESSION_MAXIMUM)%nat -> evict m = m.
Proof.
  intros H. unfold evict. destruct (Nat.ltb SESSION_MAXIMUM (length m)) eqn:E; [|reflexivity].
  apply Nat.ltb_lt in E. lia.
Qed.
Lemma sess_merge_fits trim n o :
  (length (s_gmerge trim n o) <= SESSION_MAXIMUM)%nat -> sess_merge false trim n o = s_gmerge trim n o.
Proof. exact (evict_fits (s_gmerge trim n o)). Qed.

Lemma sess_eval_generic oauth trim ins s :
  WellFormed N.compare ins -> SessConsistent ins -> SessWindow trim ins ->
  (oauth = true \/ Fits SESSION_MAXIMUM ins) ->
  eval (sess_merge oauth trim) ins s = eval (s_gmerge trim) ins s.
Proof.
  intros HWf HC HWn HF. destruct oauth; [reflexivity|]. destruct HF as [[=]|HF].
  exact (eval_capped N.compare N_laws sval_gt (sval_dead trim) sval_gt_asym ins HWf (sess_cons _ HC) HWn
    _ _ s HF (fun a b _ _ => sess_merge_fits trim a b)).
Qed.

Lemma filter_length_le {A} (f : A -> bool) l : (length (filter f l) <= length l)%nat.
Proof. induction l as [|x r IH]; cbn; [lia|]. destruct (f x); cbn; lia. Qed.

Lemma sess_merge_self oauth trim m :
  sorted N.compare m -> (oauth = true \/ (length m <= SESSION_MAXIMUM)%nat) ->
  sess_merge oauth trim m m = retain (fun v => negb (sval_dead trim v)) m.
Proof.
  intros S HF. pose proof (gmerge_idem N.compare N_laws sval_gt (sval_dead trim) m S) as Hg.
  destruct oauth; [exact Hg|]. destruct HF as [[=]|HF].
  rewrite sess_merge_fits; [exact Hg|]. unfold s_gmerge. rewrite Hg.
  etransitivity; [apply filter_length_le | exact HF].
Qed.

Definition a_gmerge : amap -> amap -> amap := gmerge cid_cmp (fun _ _ : N => false) (fun _ : N => false).

Lemma remove_oldest_fits m : (length m <= AUDIT_LOG_STRING_CAPACITY)%nat -> remove_oldest m = m.
Proof.
  intros H. unfold remove_oldest.
  replace (length m - AUDIT_LOG_STRING_CAPACITY)%nat with 0%nat by lia. reflexivity.
Qed.
Lemma audit_merge_fits n o : sorted cid_cmp n -> sorted cid_cmp o ->
  (length (a_gmerge n o) <= AUDIT_LOG_STRING_CAPACITY)%nat -> audit_merge n o = a_gmerge n o.
Proof.
  intros Sn So Hlen. unfold audit_merge. rewrite (fold_put_gmerge cid_cmp cid_laws n o Sn So).
  exact (remove_oldest_fits _ Hlen).
Qed.

Lemma audit_cons ins : AuditConsistent ins -> entries_rel (comparable (fun _ _ : N => false)) ins.
Proof. apply entries_rel_impl. intros x y H. left. exact H. Qed.
Lemma audit_win (ins : list (cid * amap)) : entries_rel (fun _ _ : N => false = true -> false = true) ins.
Proof. intros c1 m1 c2 m2 k v1 v2 _ _ _ _ H. exact H. Qed.

Lemma audit_eval_generic ins s :
  WellFormed cid_cmp ins -> AuditConsistent ins -> Fits AUDIT_LOG_STRING_CAPACITY ins ->
  eval audit_merge ins s = eval a_gmerge ins s.
Proof.
  intros HWf HC HF.
  exact (eval_capped cid_cmp cid_laws _ _ (fun _ _ _ => eq_refl) ins HWf (audit_cons _ HC) (audit_win ins)
    _ _ s HF audit_merge_fits).
Qed.

(* the roles are chosen by change id, so with distinct change ids the argument order is
   irrelevant for ANY valueset merge function *)
Lemma repl_merge_comm_distinct {M} (mrg : M -> M -> M) (a b : cid * M) :
  fst a <> fst b -> repl_merge mrg a b = repl_merge mrg b a.
Proof.
  intros Hne. unfold repl_merge, cid_gtb. destruct (cid_cmp (fst a) (fst b)) eqn:E.
  - destruct (Hne (cmp_eq _ cid_laws _ _ E)).
  - rewrite (cmp_lt_gt _ cid_laws _ _ E). reflexivity.
  - rewrite (cmp_gt_lt _ cid_laws _ _ E). reflexivity.
Qed.
Lemma repl_merge_self {M} (mrg : M -> M -> M) a : repl_merge mrg a a = (fst a, mrg (snd a) (snd a)).
Proof. unfold repl_merge. destruct (cid_gtb (fst a) (fst a)); reflexivity. Qed.

(* commutativity and associativity are the independence of the result from the tree, read on the
   two trees over two replicas and on the two groupings of three *)
Lemma indep_comm {M} (mrg : M -> M -> M) a b :
  tree_independent mrg [a; b] -> repl_merge mrg a b = repl_merge mrg b a.
Proof.
  intros H. enough (E : Some (repl_merge mrg a b) = Some (repl_merge mrg b a)) by (injection E; auto).
  apply (H (Nd (L 0) (L 1)) (Nd (L 1) (L 0)));
    [split; discriminate | split; discriminate | exact I | exact I | intros i; cbn; tauto].
Qed.
Lemma indep_assoc {M} (mrg : M -> M -> M) a b c : tree_independent mrg [a; b; c] ->
  repl_merge mrg (repl_merge mrg a b) c = repl_merge mrg a (repl_merge mrg b c).
Proof.
  intros H. enough (E : Some (repl_merge mrg (repl_merge mrg a b) c)
                      = Some (repl_merge mrg a (repl_merge mrg b c))) by (injection E; auto).
  apply (H (Nd (Nd (L 0) (L 1)) (L 2)) (Nd (L 0) (Nd (L 1) (L 2))));
    [repeat split; discriminate | repeat split; discriminate | exact I | exact I | intros i; reflexivity].
Qed.

Lemma list_eqb_eq {A} (e : A -> A -> bool) :
  (forall x y, e x y = true -> x = y) -> forall a b, list_eqb e a b = true -> a = b.
Proof.
  intros He. induction a as [|x a IH]; intros [|y b]; cbn; try discriminate; [reflexivity|].
  intros H. apply andb_true_iff in H as [H1 H2]. rewrite (He _ _ H1), (IH _ H2). reflexivity.
Qed.
Lemma pair_eqb_eq {A B} (ea : A -> A -> bool) (eb : B -> B -> bool) :
  (forall x y, ea x y = true -> x = y) -> (forall x y, eb x y = true -> x = y) ->
  forall x y, pair_eqb ea eb x y = true -> x = y.
Proof.
  intros Ha Hb [x1 x2] [y1 y2]. unfold pair_eqb. cbn [fst snd]. intros H.
  apply andb_true_iff in H as [H1 H2]. rewrite (Ha _ _ H1), (Hb _ _ H2). reflexivity.
Qed.
Lemma opt_eqb_eq {A} (e : A -> A -> bool) :
  (forall x y, e x y = true -> x = y) -> forall a b, opt_eqb e a b = true -> a = b.
Proof. intros He [x|] [y|]; cbn; try discriminate; [intros H; rewrite (He _ _ H)|]; reflexivity. Qed.
Lemma Neqb_eq x y : (x =? y) = true -> x = y.
Proof. apply N.eqb_eq. Qed.
Lemma cid_eqb_eq x y : cid_eqb x y = true -> x = y.
Proof. exact (pair_eqb_eq N.eqb N.eqb Neqb_eq Neqb_eq x y). Qed.
Lemma cid_eqb_refl x : cid_eqb x x = true.
Proof. unfold cid_eqb. rewrite !N.eqb_refl. reflexivity. Qed.
Lemma sstate_eqb_eq a b : sstate_eqb a b = true -> a = b.
Proof.
  destruct a as [x|x|], b as [y|y|]; cbn; try discriminate; intros H;
    [apply cid_eqb_eq in H | apply N.eqb_eq in H |]; subst; reflexivity.
Qed.
Lemma sstate_eqb_refl a : sstate_eqb a a = true.
Proof. destruct a; cbn; [apply cid_eqb_refl | apply N.eqb_refl | reflexivity]. Qed.
Lemma kstatus_eqb_eq a b : kstatus_eqb a b = true -> a = b.
Proof. intros H. exact (krank_inj _ _ (Neqb_eq _ _ H)). Qed.
Lemma sval_eqb_eq a b : sval_eqb a b = true -> a = b.
Proof. exact (pair_eqb_eq _ _ (pair_eqb_eq _ _ sstate_eqb_eq Neqb_eq) Neqb_eq a b). Qed.
Lemma kval_eqb_eq a b : kval_eqb a b = true -> a = b.
Proof. exact (pair_eqb_eq _ _ (pair_eqb_eq _ _ kstatus_eqb_eq cid_eqb_eq) Neqb_eq a b). Qed.
Lemma smap_eqb_eq a b : smap_eqb a b = true -> a = b.
Proof. apply list_eqb_eq, pair_eqb_eq; [exact Neqb_eq | exact sval_eqb_eq]. Qed.
Lemma kmap_eqb_eq a b : kmap_eqb a b = true -> a = b.
Proof. apply list_eqb_eq, pair_eqb_eq; [exact Neqb_eq | exact kval_eqb_eq]. Qed.
Lemma amap_eqb_eq a b : amap_eqb a b = true -> a = b.
Proof. apply list_eqb_eq, pair_eqb_eq; [exact cid_eqb_eq | exact Neqb_eq]. Qed.
Lemma rep_opt_eqb_eq {M} (e : M -> M -> bool) :
  (forall x y, e x y = true -> x = y) -> forall a b, opt_eqb (rep_eqb e) a b = true -> a = b.
Proof. intros He. apply opt_eqb_eq, pair_eqb_eq; [exact cid_eqb_eq | exact He]. Qed.

Lemma agree_outs_sound {M} (e : M -> M -> bool) mrg ins outs :
  (forall x y, e x y = true -> x = y) -> agree_outs e mrg ins outs = true ->
  forall s o, In (s, o) outs -> eval mrg ins s = o.
Proof.
  intros He H s o Hin. unfold agree_outs in H. rewrite forallb_forall in H.
  exact (rep_opt_eqb_eq e He _ _ (H _ Hin)).
Qed.

Lemma agree_outs_indep {M} (e : M -> M -> bool) mrg ins outs :
  (forall x y, e x y = true -> x = y) -> agree_outs e mrg ins outs = true -> tree_independent mrg ins ->
  forall s1 o1 s2 o2, In (s1, o1) outs -> In (s2, o2) outs ->
    wf ins s1 -> wf ins s2 -> is_node s1 -> is_node s2 -> same_leafset s1 s2 -> o1 = o2.
Proof.
  intros He Ha Hi s1 o1 s2 o2 I1 I2.
  rewrite <- (agree_outs_sound e mrg ins outs He Ha _ _ I1), <- (agree_outs_sound e mrg ins outs He Ha _ _ I2).
  apply Hi.
Qed.

Lemma memN_in x l : memN x l = true <-> In x l.
Proof.
  unfold memN. rewrite existsb_exists. split.
  - intros [y [Hy E]]. apply N.eqb_eq in E. subst. exact Hy.
  - intros H. exists x. split; [exact H | apply N.eqb_refl].
Qed.
Lemma same_leaves_iff a b : same_leaves a b = true <-> same_leafset a b.
Proof.
  unfold same_leaves, same_leafset. rewrite andb_true_iff, !forallb_forall. split.
  - intros [H1 H2] i. split; intros Hi; apply memN_in; auto.
  - intros H. split; intros x Hx; apply memN_in; apply H; exact Hx.
Qed.

Lemma indep_sound {M} (e : M -> M -> bool) outs :
  (forall x y, e x y = true -> x = y) -> indep e outs = true ->
  forall s1 o1 s2 o2, In (s1, o1) outs -> In (s2, o2) outs -> same_leafset s1 s2 -> o1 = o2.
Proof.
  intros He H s1 o1 s2 o2 I1 I2 Hl. unfold indep in H. rewrite forallb_forall in H.
  specialize (H _ I1). rewrite forallb_forall in H. specialize (H _ I2). cbn [fst snd] in H.
  rewrite (proj2 (same_leaves_iff s1 s2) Hl) in H. exact (rep_opt_eqb_eq e He _ _ H).
Qed.

Lemma sess_consistent_sound ins : sess_consistent (entries ins) = true -> SessConsistent ins.
Proof.
  apply (pairwise_sound N.eqb); [exact N.eqb_refl|]. intros x y H E. apply sval_eqb_eq.
  rewrite E, sstate_eqb_refl in H. exact H.
Qed.
Lemma key_consistent_sound ins : key_consistent (entries ins) = true -> KeyConsistent ins.
Proof.
  apply (pairwise_sound N.eqb); [exact N.eqb_refl|]. intros x y H E. apply Neqb_eq.
  unfold kstatus_eqb in H. rewrite E, N.eqb_refl in H. exact H.
Qed.
Lemma audit_consistent_sound ins : audit_consistent (entries ins) = true -> AuditConsistent ins.
Proof. apply (pairwise_sound cid_eqb); [exact cid_eqb_refl | exact Neqb_eq]. Qed.
Lemma sess_issued_ok_sound ins : sess_issued_ok (entries ins) = true -> SessIssuedDistinct ins.
Proof.
  intros H c1 m1 c2 m2 k1 k2 v1 v2 I1 I2 J1 J2.
  pose proof (entries_forallb2 (fun a b => Bool.eqb (fst a =? fst b) (s_issued (snd a) =? s_issued (snd b)))
    ins H _ _ _ _ _ _ I1 I2 J1 J2) as E. cbn [fst snd] in E.
  rewrite <- !N.eqb_eq, (eqb_prop _ _ E). reflexivity.
Qed.

(* order/grouping independence of the merge as it was BEFORE /repo ea75008 (status cid ignored) *)
Definition key_prefix_full_statement : Prop :=
  forall trim ins s1 s2,
    WellFormed N.compare ins -> KeyConsistent ins -> KeyWindow trim ins ->
    wf ins s1 -> wf ins s2 -> is_node s1 -> is_node s2 -> same_leafset s1 s2 ->
    eval (key_merge_prefix trim) ins s1 = eval (key_merge_prefix trim) ins s2.

(* two replicas revoked key 7 independently (at 12.1 and at 15.2); a third replica has a
   newer change of the attribute that does not touch key 7 *)
Definition key_witness_ins : list (cid * kmap) :=
  [((20, 1), [(7, (KRevoked, (12, 1), 32))]);
   ((21, 2), [(7, (KRevoked, (15, 2), 32))]);
   ((22, 3), [])].
Definition key_witness_trim : cid := (10, 2).

Lemma key_witness_wf : WellFormed N.compare key_witness_ins.
Proof. apply WellFormed_Forall. repeat constructor. Qed.
Lemma key_witness_consistent : KeyConsistent key_witness_ins.
Proof. apply key_consistent_sound. reflexivity. Qed.
Lemma key_witness_window : KeyWindow key_witness_trim key_witness_ins.
Proof. apply (window_sound N.eqb); [exact N.eqb_refl | reflexivity]. Qed.

Theorem key_prefix_refuted : ~ key_prefix_full_statement.
Proof.
  intros H.
  specialize (H key_witness_trim key_witness_ins (Nd (Nd (L 2) (L 0)) (L 1)) (Nd (L 2) (Nd (L 0) (L 1)))
    key_witness_wf key_witness_consistent key_witness_window).
  assert (W1 : wf key_witness_ins (Nd (Nd (L 2) (L 0)) (L 1))) by (cbn; repeat split; discriminate).
  assert (W2 : wf key_witness_ins (Nd (L 2) (Nd (L 0) (L 1)))) by (cbn; repeat split; discriminate).
  assert (Hl : same_leafset (Nd (Nd (L 2) (L 0)) (L 1)) (Nd (L 2) (Nd (L 0) (L 1)))) by (intros i; reflexivity).
  specialize (H W1 W2 I I Hl). vm_compute in H. discriminate.
Qed.
