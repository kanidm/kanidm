(* Vocabulary (defined in Model.v / Proofs.v):
     ins               the replicas' views of ONE attribute: a list of (change id, valueset)
     shape             a merge tree over replica numbers: L i | Nd a b  (every order and grouping)
     eval mrg ins s    run the tree with merge_state's role choice (greater change id = "newer")
     WellFormed        every valueset is a map (strictly ascending keys)
     SessConsistent    two records of one session with the same state are equal
     KeyConsistent     two records of one key with the same status have the same payload (usage,
                       valid_from, der); their status cids may differ
     AuditConsistent   two entries under one change id are equal
     *Window trim      no replica is outside the changelog window: a revocation older than the trim
                       cid held by one replica is, in every replica holding that key, such an old revocation
     Fits n            the replicas hold at most n distinct keys in total
     same_leafset      two trees mention the same set of replicas (any order, grouping, repetition) *)
From Coq Require Import List NArith Bool.
Import ListNotations.
Require Import KV.C11.Model KV.C11.Proofs.
Open Scope N_scope.

(* Change ids (ts, server) are totally ordered. *)
Theorem C11_cid_total_order : CmpLaws cid_cmp.
Proof. exact cid_laws. Qed.

(* `Ord for SessionState` is a total order (equal only if identical, antisymmetric, transitive) ... *)
Theorem C11_sstate_total_order : CmpLaws sstate_cmp.
Proof. exact sstate_laws. Qed.
(* ... in which every revocation is above every other state, and among revocations the
   EARLIEST change id is the greatest. *)
Theorem C11_sstate_revoked_on_top : forall c c' t,
  sstate_cmp (RevokedAt c) (ExpiresAt t) = Gt /\ sstate_cmp (RevokedAt c) NeverExpires = Gt /\
  sstate_cmp (ExpiresAt t) NeverExpires = Gt /\
  (sstate_cmp (RevokedAt c) (RevokedAt c') = Gt <-> cid_cmp c c' = Lt).
Proof.
  intros c c' t. repeat split; cbn; [apply (cmp_gt_lt _ cid_laws) | apply (cmp_lt_gt _ cid_laws)].
Qed.

(* With distinct change ids the newer/older roles are fixed by the ids, not by the argument
   order: merge_state's merge is commutative for ANY valueset merge function. *)
Theorem C11_role_choice_commutes : forall (M : Type) (mrg : M -> M -> M) (a b : cid * M),
  fst a <> fst b -> repl_merge mrg a b = repl_merge mrg b a.
Proof. exact @repl_merge_comm_distinct. Qed.

(* FULL STATEMENT for login sessions, stated only (neither proved nor refuted here): any two merge
   trees over the same set of replicas give the same result, as long as distinct sessions have
   distinct issue times. *)
Definition C11_session_full_statement : Prop :=
  forall trim ins s1 s2,
    WellFormed N.compare ins -> SessConsistent ins -> SessWindow trim ins -> SessIssuedDistinct ins ->
    wf ins s1 -> wf ins s2 -> is_node s1 -> is_node s2 -> same_leafset s1 s2 ->
    eval (sess_merge false trim) ins s1 = eval (sess_merge false trim) ins s2.

(* PROVED PART (sessions): the same with "at most SESSION_MAXIMUM = 48 distinct sessions over all
   replicas" in place of distinct issue times, i.e. whenever the forced eviction cannot fire.
   MISSING: the eviction of the oldest-issued sessions beyond 48 (it is exercised by the
   differential runs, incl. pcheck on the implementation's results, but not proved).
   For OAuth2 sessions (oauth = true, no limit in the code) nothing is missing. *)
Theorem C11_session_order_grouping_independent_partial : forall oauth trim ins s1 s2,
  WellFormed N.compare ins -> SessConsistent ins -> SessWindow trim ins ->
  (oauth = true \/ Fits SESSION_MAXIMUM ins) ->
  wf ins s1 -> wf ins s2 -> is_node s1 -> is_node s2 -> same_leafset s1 s2 ->
  eval (sess_merge oauth trim) ins s1 = eval (sess_merge oauth trim) ins s2.
Proof.
  intros oauth trim ins s1 s2 HWf HC HWn HF. rewrite !(sess_eval_generic oauth trim ins _ HWf HC HWn HF).
  exact (tree_indep N.compare N_laws sval_gt (sval_dead trim) sval_gt_asym sval_gt_trans ins
    HWf (sess_cons _ HC) HWn s1 s2).
Qed.

Theorem C11_oauth2_order_grouping_independent : forall trim ins s1 s2,
  WellFormed N.compare ins -> SessConsistent ins -> SessWindow trim ins ->
  wf ins s1 -> wf ins s2 -> is_node s1 -> is_node s2 -> same_leafset s1 s2 ->
  eval (sess_merge true trim) ins s1 = eval (sess_merge true trim) ins s2.
Proof.
  intros trim ins s1 s2 HWf HC HWn.
  exact (C11_session_order_grouping_independent_partial true trim ins s1 s2 HWf HC HWn (or_introl eq_refl)).
Qed.

(* commutativity and associativity are instances: the two trees over two replicas, the two
   groupings of three *)
Theorem C11_session_comm : forall oauth trim a b,
  WellFormed N.compare [a; b] -> SessConsistent [a; b] -> SessWindow trim [a; b] ->
  (oauth = true \/ Fits SESSION_MAXIMUM [a; b]) ->
  repl_merge (sess_merge oauth trim) a b = repl_merge (sess_merge oauth trim) b a.
Proof.
  intros oauth trim a b HWf HC HWn HF. apply indep_comm. intros s1 s2.
  exact (C11_session_order_grouping_independent_partial oauth trim _ s1 s2 HWf HC HWn HF).
Qed.
Theorem C11_session_assoc : forall oauth trim a b c,
  WellFormed N.compare [a; b; c] -> SessConsistent [a; b; c] -> SessWindow trim [a; b; c] ->
  (oauth = true \/ Fits SESSION_MAXIMUM [a; b; c]) ->
  repl_merge (sess_merge oauth trim) (repl_merge (sess_merge oauth trim) a b) c
  = repl_merge (sess_merge oauth trim) a (repl_merge (sess_merge oauth trim) b c).
Proof.
  intros oauth trim a b c HWf HC HWn HF. apply indep_assoc. intros s1 s2.
  exact (C11_session_order_grouping_independent_partial oauth trim _ s1 s2 HWf HC HWn HF).
Qed.
(* merging a state with itself changes nothing except dropping revocations older than the trim cid.
   Not an instance of the tree statement (a single replica L i is not trimmed, Nd (L i) (L i) is): it
   is gmerge_idem. *)
Theorem C11_session_idem : forall oauth trim (a : cid * smap),
  sorted N.compare (snd a) -> (oauth = true \/ (length (snd a) <= SESSION_MAXIMUM)%nat) ->
  repl_merge (sess_merge oauth trim) a a = (fst a, retain (fun v => negb (sval_dead trim v)) (snd a)).
Proof. intros oauth trim a S HF. rewrite repl_merge_self, (sess_merge_self oauth trim _ S HF). reflexivity. Qed.

(* REVOCATION IS NEVER LOST: if any replica below the tree holds session k revoked at rc, and rc
   is not older than the trim cid, then the result holds k revoked, at a change id rc' <= rc that
   is some replica's revocation of k and is the EARLIEST of all replicas' revocations of k. *)
Theorem C11_session_revocation_dominates : forall oauth trim ins s i ci mi k v rc c m,
  WellFormed N.compare ins -> SessConsistent ins -> SessWindow trim ins ->
  (oauth = true \/ Fits SESSION_MAXIMUM ins) ->
  wf ins s -> is_node s -> eval (sess_merge oauth trim) ins s = Some (c, m) ->
  In i (leaves s) -> nth_error ins (N.to_nat i) = Some (ci, mi) -> In (k, v) mi ->
  s_state v = RevokedAt rc -> cid_ltb rc trim = false ->
  exists v' rc', In (k, v') m /\ s_state v' = RevokedAt rc' /\ cle rc' rc /\
    (exists j cj mj, In j (leaves s) /\ nth_error ins (N.to_nat j) = Some (cj, mj) /\ In (k, v') mj) /\
    (forall j cj mj w rw, In j (leaves s) -> nth_error ins (N.to_nat j) = Some (cj, mj) -> In (k, w) mj ->
       s_state w = RevokedAt rw -> cle rc' rw).
Proof.
  intros oauth trim ins s i ci mi k v rc c m HWf HC HWn HF _ Nn E Hi Ei Hin Est Hlive.
  rewrite (sess_eval_generic oauth trim ins s HWf HC HWn HF) in E.
  exact (revocation_dominates N.compare N_laws sval_gt (sval_dead trim) sval_gt_asym sval_gt_trans ins
    HWf (sess_cons _ HC) HWn (fun v rc => s_state v = RevokedAt rc) s i ci mi k v rc c m
    sess_revoked_fun sval_gt_revoked Nn E Hi Ei Hin (eq_trans (sval_dead_revoked trim v rc Est) Hlive) Est).
Qed.

(* TRIM ONLY REMOVES WHAT HAS LEFT THE WINDOW: a session missing from a result is missing from
   every replica below the tree, or some replica holds it revoked before the trim cid. *)
Theorem C11_session_trim_only_expired : forall oauth trim ins s k c m,
  WellFormed N.compare ins -> SessConsistent ins -> SessWindow trim ins ->
  (oauth = true \/ Fits SESSION_MAXIMUM ins) ->
  wf ins s -> is_node s -> eval (sess_merge oauth trim) ins s = Some (c, m) ->
  (forall v, ~ In (k, v) m) ->
  (forall j cj mj v, In j (leaves s) -> nth_error ins (N.to_nat j) = Some (cj, mj) -> ~ In (k, v) mj) \/
  (exists v rc, s_state v = RevokedAt rc /\ cid_ltb rc trim = true /\
     exists j cj mj, In j (leaves s) /\ nth_error ins (N.to_nat j) = Some (cj, mj) /\ In (k, v) mj).
Proof.
  intros oauth trim ins s k c m HWf HC HWn HF _ Nn E Hnot.
  rewrite (sess_eval_generic oauth trim ins s HWf HC HWn HF) in E.
  destruct (tree_trim_only_expired N.compare N_laws sval_gt (sval_dead trim) sval_gt_asym sval_gt_trans ins
    HWf (sess_cons _ HC) HWn s k c m Nn E Hnot) as [H|(v & Dv & Hv)]; [left; exact H | right].
  destruct (sval_dead_true trim v Dv) as (rc & Es & Hlt). exists v, rc. auto.
Qed.

(* key_merge is the code as repaired by /repo ea75008 ("replicated key revocations must merge
   to the earliest status change"): on equal status the earliest status cid wins.
   KeyConsistent only asks the immutable key data (usage, valid_from, der per status) to be
   consistent; nothing is assumed about status cids. *)

(* FULL STATEMENT for keys: any two merge trees over the same set of replicas give the same result. *)
Theorem C11_key_order_grouping_independent : forall trim ins s1 s2,
  WellFormed N.compare ins -> KeyConsistent ins -> KeyWindow trim ins ->
  wf ins s1 -> wf ins s2 -> is_node s1 -> is_node s2 -> same_leafset s1 s2 ->
  eval (key_merge trim) ins s1 = eval (key_merge trim) ins s2.
Proof.
  intros trim ins s1 s2 HWf HC HWn.
  exact (tree_indep N.compare N_laws kval_gt (kval_dead trim) kval_gt_asym kval_gt_trans ins
    HWf (key_cons _ HC) HWn s1 s2).
Qed.
Theorem C11_key_comm : forall trim a b,
  WellFormed N.compare [a; b] -> KeyConsistent [a; b] -> KeyWindow trim [a; b] ->
  repl_merge (key_merge trim) a b = repl_merge (key_merge trim) b a.
Proof.
  intros trim a b HWf HC HWn. apply indep_comm. intros s1 s2.
  exact (C11_key_order_grouping_independent trim _ s1 s2 HWf HC HWn).
Qed.
Theorem C11_key_assoc : forall trim a b c,
  WellFormed N.compare [a; b; c] -> KeyConsistent [a; b; c] -> KeyWindow trim [a; b; c] ->
  repl_merge (key_merge trim) (repl_merge (key_merge trim) a b) c
  = repl_merge (key_merge trim) a (repl_merge (key_merge trim) b c).
Proof.
  intros trim a b c HWf HC HWn. apply indep_assoc. intros s1 s2.
  exact (C11_key_order_grouping_independent trim _ s1 s2 HWf HC HWn).
Qed.
Theorem C11_key_idem : forall trim (a : cid * kmap),
  sorted N.compare (snd a) ->
  repl_merge (key_merge trim) a a = (fst a, retain (fun v => negb (kval_dead trim v)) (snd a)).
Proof.
  intros trim a S. rewrite repl_merge_self. f_equal.
  exact (gmerge_idem N.compare N_laws kval_gt (kval_dead trim) _ S).
Qed.
(* REVOCATION IS NEVER LOST: a key revoked by any replica below the tree at a status cid not
   older than the trim cid is revoked in the result, at a status cid that is some replica's
   revocation of that key and the EARLIEST of all replicas' revocations of it. *)
Theorem C11_key_revocation_dominates : forall trim ins s i ci mi k v c m,
  WellFormed N.compare ins -> KeyConsistent ins -> KeyWindow trim ins ->
  wf ins s -> is_node s -> eval (key_merge trim) ins s = Some (c, m) ->
  In i (leaves s) -> nth_error ins (N.to_nat i) = Some (ci, mi) -> In (k, v) mi ->
  k_status v = KRevoked -> cid_ltb (k_cid v) trim = false ->
  exists v', In (k, v') m /\ k_status v' = KRevoked /\ cle (k_cid v') (k_cid v) /\
    (exists j cj mj, In j (leaves s) /\ nth_error ins (N.to_nat j) = Some (cj, mj) /\ In (k, v') mj) /\
    (forall j cj mj w, In j (leaves s) -> nth_error ins (N.to_nat j) = Some (cj, mj) -> In (k, w) mj ->
       k_status w = KRevoked -> cle (k_cid v') (k_cid w)).
Proof.
  intros trim ins s i ci mi k v c m HWf HC HWn _ Nn E Hi Ei Hin Est Hlive.
  pose proof (conj Est eq_refl : key_revoked_at v (k_cid v)) as Hr.
  destruct (revocation_dominates N.compare N_laws kval_gt (kval_dead trim) kval_gt_asym kval_gt_trans ins
    HWf (key_cons _ HC) HWn key_revoked_at s i ci mi k v (k_cid v) c m
    key_revoked_fun kval_gt_revoked Nn E Hi Ei Hin (eq_trans (kval_dead_revoked trim v _ Hr) Hlive) Hr)
    as (v' & rc' & Hin' & [Est' <-] & Hle & Hv' & Hmin).
  refine (ex_intro _ v' (conj Hin' (conj Est' (conj Hle (conj Hv' _))))).
  intros j cj mj w Hj Ej Hw Ew. exact (Hmin j cj mj w _ Hj Ej Hw (conj Ew eq_refl)).
Qed.

(* PRE-FIX BEHAVIOUR (documentation of the defect repaired by ea75008, NOT the current code):
   key_merge_prefix compared only `status` and ignored `status_cid`; the same statement was
   FALSE for it — two independent revocations of one key at different change ids were resolved
   by the newer/older role, which depends on the grouping (witness Proofs.key_witness_ins,
   reproduced on the pre-fix code by the harness; evaluated in Witness.C11_witness_key_prefix). *)
Definition C11_key_prefix_full_statement : Prop := key_prefix_full_statement.
Theorem C11_key_prefix_refuted : ~ C11_key_prefix_full_statement.
Proof. exact key_prefix_refuted. Qed.

(* FULL STATEMENT for audit log strings, stated only (neither proved nor refuted here): no bound on
   the number of entries. *)
Definition C11_audit_full_statement : Prop :=
  forall ins s1 s2,
    WellFormed cid_cmp ins -> AuditConsistent ins ->
    wf ins s1 -> wf ins s2 -> is_node s1 -> is_node s2 -> same_leafset s1 s2 ->
    eval audit_merge ins s1 = eval audit_merge ins s2.
(* PROVED PART: at most AUDIT_LOG_STRING_CAPACITY = 9 distinct entries over all replicas.
   MISSING: the interplay with `remove_oldest` beyond 9 entries (differentially tested only). *)
Theorem C11_audit_order_grouping_independent_partial : forall ins s1 s2,
  WellFormed cid_cmp ins -> AuditConsistent ins -> Fits AUDIT_LOG_STRING_CAPACITY ins ->
  wf ins s1 -> wf ins s2 -> is_node s1 -> is_node s2 -> same_leafset s1 s2 ->
  eval audit_merge ins s1 = eval audit_merge ins s2.
Proof.
  intros ins s1 s2 HWf HC HF. rewrite !(audit_eval_generic ins _ HWf HC HF).
  exact (tree_indep cid_cmp cid_laws _ _ (fun _ _ _ => eq_refl) (fun _ _ _ H _ => H) ins
    HWf (audit_cons _ HC) (audit_win ins) s1 s2).
Qed.

(* The executable independence check of pcheck means Leibniz equality of the recorded results. *)
Theorem C11_indep_check_sound : forall outs : list (shape * option (cid * smap)),
  indep smap_eqb outs = true ->
  forall s1 o1 s2 o2, In (s1, o1) outs -> In (s2, o2) outs -> same_leafset s1 s2 -> o1 = o2.
Proof. intros outs. exact (indep_sound smap_eqb outs smap_eqb_eq). Qed.

(* If the implementation's recorded results agree with the model on a case, the independence
   theorems hold of the IMPLEMENTATION's results of that case.  The other premises are the caller's:
   of those pcheck evaluates, sess_fits (a count of distinct keys) has no lemma in Proofs.v that
   yields Fits; Fits_entries yields it from the cruder bound on the number of entries. *)
Theorem C11_agree_transfers_session : forall oauth trim ins outs,
  agree (CSess oauth trim ins outs) = true ->
  WellFormed N.compare ins -> SessConsistent ins -> SessWindow trim ins ->
  (oauth = true \/ Fits SESSION_MAXIMUM ins) ->
  forall s1 o1 s2 o2, In (s1, o1) outs -> In (s2, o2) outs ->
    wf ins s1 -> wf ins s2 -> is_node s1 -> is_node s2 -> same_leafset s1 s2 -> o1 = o2.
Proof.
  intros oauth trim ins outs Ha HWf HC HWn HF. apply (agree_outs_indep _ _ _ _ smap_eqb_eq Ha). intros s1 s2.
  exact (C11_session_order_grouping_independent_partial oauth trim ins s1 s2 HWf HC HWn HF).
Qed.
Theorem C11_agree_transfers_key : forall trim ins outs,
  agree (CKey trim ins outs) = true ->
  WellFormed N.compare ins -> KeyConsistent ins -> KeyWindow trim ins ->
  forall s1 o1 s2 o2, In (s1, o1) outs -> In (s2, o2) outs ->
    wf ins s1 -> wf ins s2 -> is_node s1 -> is_node s2 -> same_leafset s1 s2 -> o1 = o2.
Proof.
  intros trim ins outs Ha HWf HC HWn. apply (agree_outs_indep _ _ _ _ kmap_eqb_eq Ha). intros s1 s2.
  exact (C11_key_order_grouping_independent trim ins s1 s2 HWf HC HWn).
Qed.
Theorem C11_agree_transfers_audit : forall trim ins outs,
  agree (CAudit trim ins outs) = true ->
  WellFormed cid_cmp ins -> AuditConsistent ins -> Fits AUDIT_LOG_STRING_CAPACITY ins ->
  forall s1 o1 s2 o2, In (s1, o1) outs -> In (s2, o2) outs ->
    wf ins s1 -> wf ins s2 -> is_node s1 -> is_node s2 -> same_leafset s1 s2 -> o1 = o2.
Proof.
  intros trim ins outs Ha HWf HC HF. apply (agree_outs_indep _ _ _ _ amap_eqb_eq Ha). intros s1 s2.
  exact (C11_audit_order_grouping_independent_partial ins s1 s2 HWf HC HF).
Qed.
