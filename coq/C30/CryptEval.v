(* KV.C30.CryptEval — sha256/512-crypt depends on its hash only through the hash's values, so a
   test vector stated with the reference SHA-2 may be evaluated with KV.C29.HashFast. *)
From Coq Require Import List NArith.
Require Import KV.C29.Hash KV.C29.HashFast KV.C30.Prim.

Lemma rounds_from_ext : forall (A : Type) (f g : N -> A -> A) n r x,
  (forall i y, f i y = g i y) -> rounds_from f n r x = rounds_from g n r x.
Proof.
  intros A f g n r x E. revert r x.
  induction n as [|n IH]; intros r x; cbn [rounds_from]; [reflexivity | now rewrite E].
Qed.

Lemma shacrypt_raw_ext : forall (H H' : list N -> list N) pw salt n,
  (forall m, H m = H' m) -> shacrypt_raw H pw salt n = shacrypt_raw H' pw salt n.
Proof.
  intros H H' pw salt n E. unfold shacrypt_raw. cbv zeta. rewrite !E.
  apply rounds_from_ext. intros i c. unfold shacrypt_round. apply E.
Qed.

Corollary sha256crypt_fast : forall pw salt n,
  shacrypt_raw sha256 pw salt n = shacrypt_raw sha256f pw salt n.
Proof. intros pw salt n. apply shacrypt_raw_ext, sha256f_eq. Qed.

Corollary sha512crypt_fast : forall pw salt n,
  shacrypt_raw sha512 pw salt n = shacrypt_raw sha512f pw salt n.
Proof. intros pw salt n. apply shacrypt_raw_ext, sha512f_eq. Qed.
