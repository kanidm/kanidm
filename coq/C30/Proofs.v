From Coq Require Import String List Arith NArith ZArith Bool Lia.
Require Import KV.C29.Hash KV.C29.HashFast KV.C30.Prim KV.C30.CryptEval KV.C30.Model.
Import ListNotations.
Open Scope N_scope.

(* lets lia decide the goals with / and mod by a constant in the base64 and hex lemmas; the
   setting reaches every file that requires this one *)
Ltac Zify.zify_post_hook ::= Z.to_euclidean_division_equations.

Lemma beqb_true_iff : forall a b, beqb a b = true <-> a = b.
Proof.
  induction a as [|x a IH]; intros [|y b]; cbn [beqb]; split; intros H; try reflexivity; try discriminate.
  - apply andb_true_iff in H. destruct H as [Hx Hr]. apply N.eqb_eq in Hx. apply IH in Hr. now subst.
  - injection H as Hx Hr. subst. rewrite N.eqb_refl. cbn. now apply IH.
Qed.
Lemma beqb_refl : forall a, beqb a a = true.
Proof. intros a. now apply beqb_true_iff. Qed.
Lemma beqb_sym : forall a b, beqb a b = beqb b a.
Proof.
  intros a b. apply eq_true_iff_eq. rewrite !beqb_true_iff. split; intros; congruence.
Qed.

(* a finite table, checked entry by entry *)
Lemma val_sym_below : forall (val : N -> option N) (sym : N -> N) (n : nat),
  forallb (fun v => match val (sym v) with Some v' => v' =? v | None => false end)
          (map N.of_nat (seq 0 n)) = true ->
  forall v, v < N.of_nat n -> val (sym v) = Some v.
Proof.
  intros val sym n H v Hv. rewrite forallb_forall in H.
  assert (Hin : In v (map N.of_nat (seq 0 n))).
  { apply in_map_iff. exists (N.to_nat v). split; [apply N2Nat.id | apply in_seq; lia]. }
  specialize (H v Hin). destruct (val (sym v)) as [v'|]; [|discriminate].
  apply N.eqb_eq in H. now subst.
Qed.

Lemma b64_val_sym : forall url v, v < 64 -> b64_val url (b64_sym url v) = Some v.
Proof. intros url. apply (val_sym_below _ _ 64). destruct url; vm_compute; reflexivity. Qed.
Lemma hex_val_sym : forall up v, v < 16 -> hex_val (hex_sym up v) = Some v.
Proof. intros up. apply (val_sym_below _ _ 16). destruct up; vm_compute; reflexivity. Qed.

(* '=' is not in the alphabet *)
Lemma b64_sym_not_pad : forall url v, v < 64 -> (b64_sym url v =? 61) = false.
Proof.
  intros url v Hv. destruct (N.eqb_spec (b64_sym url v) 61) as [E|_]; [|reflexivity].
  pose proof (b64_val_sym url v Hv) as H. rewrite E in H. destruct url; discriminate H.
Qed.

Lemma list_ind3 : forall (A : Type) (P : list A -> Prop),
  P [] -> (forall a, P [a]) -> (forall a b, P [a; b]) ->
  (forall a b c r, P r -> P (a :: b :: c :: r)) -> forall l, P l.
Proof.
  intros A P H0 H1 H2 H3.
  fix IH 1. intros [|a [|b [|c r]]]; [exact H0 | apply H1 | apply H2 | apply H3, IH].
Qed.

Definition Bytes (b : bytes) : Prop := Forall (fun x => x < 256) b.

Lemma is_bytes_Bytes : forall b, is_bytes b = true -> Bytes b.
Proof.
  intros b H. unfold is_bytes in H. rewrite forallb_forall in H. apply Forall_forall.
  intros x Hx. apply N.ltb_lt. now apply H.
Qed.
Lemma Bytes_app : forall a b, Bytes a -> Bytes b -> Bytes (a ++ b).
Proof. intros a b Ha Hb. apply Forall_app. now split. Qed.

Lemma Bytes_cons : forall x b, Bytes (x :: b) -> x < 256 /\ Bytes b.
Proof. intros x b. apply Forall_cons_iff. Qed.

Lemma b64_two_enc : forall url trail b0, b0 < 256 ->
  b64_two (b64_val url) trail (b64_sym url (b0 / 4)) (b64_sym url (b0 mod 4 * 16)) = Some [b0].
Proof.
  intros url trail b0 H0. unfold b64_two. rewrite !b64_val_sym by lia.
  replace (b0 mod 4 * 16 mod 16 =? 0) with true by (symmetry; apply N.eqb_eq; lia).
  rewrite orb_true_r. repeat f_equal. lia.
Qed.
Lemma b64_three_enc : forall url trail b0 b1, b0 < 256 -> b1 < 256 ->
  b64_three (b64_val url) trail (b64_sym url (b0 / 4)) (b64_sym url (b0 mod 4 * 16 + b1 / 16))
    (b64_sym url (b1 mod 16 * 4)) = Some [b0; b1].
Proof.
  intros url trail b0 b1 H0 H1. unfold b64_three. rewrite !b64_val_sym by lia.
  replace (b1 mod 16 * 4 mod 4 =? 0) with true by (symmetry; apply N.eqb_eq; lia).
  rewrite orb_true_r. repeat f_equal; lia.
Qed.
Lemma b64_four_enc : forall url b0 b1 b2, b0 < 256 -> b1 < 256 -> b2 < 256 ->
  b64_four (b64_val url)
    (b64_sym url (b0 / 4)) (b64_sym url ((b0 mod 4) * 16 + b1 / 16))
    (b64_sym url ((b1 mod 16) * 4 + b2 / 64)) (b64_sym url (b2 mod 64)) = Some [b0; b1; b2].
Proof.
  intros url b0 b1 b2 H0 H1 H2. unfold b64_four, quad_bytes.
  rewrite !b64_val_sym by lia. repeat f_equal; lia.
Qed.

Lemma b64enc_nil_inv : forall sym pad b, b64enc_gen sym pad b = [] -> b = [].
Proof. intros sym pad [|b0 [|b1 [|b2 r]]] H; [reflexivity | discriminate..]. Qed.

Lemma b64_roundtrip : forall url trail b, Bytes b ->
  b64dec_gen (b64_val url) true trail (b64enc_gen (b64_sym url) true b) = Some b.
Proof.
  intros url trail. induction b as [| b0 | b0 b1 | b0 b1 b2 r IH] using list_ind3; intros HB.
  - reflexivity.
  - apply Bytes_cons in HB as [H0 _].
    cbn [b64enc_gen b64dec_gen b64_suffix]. rewrite N.eqb_refl. now apply b64_two_enc.
  - apply Bytes_cons in HB as [H0 HB]. apply Bytes_cons in HB as [H1 _].
    cbn [b64enc_gen b64dec_gen b64_suffix].
    rewrite b64_sym_not_pad, N.eqb_refl by lia. now apply b64_three_enc.
  - apply Bytes_cons in HB as [H0 HB]. apply Bytes_cons in HB as [H1 HB].
    apply Bytes_cons in HB as [H2 HB].
    cbn [b64enc_gen].
    destruct (b64enc_gen (b64_sym url) true r) as [|x rest] eqn:E.
    + (* last group: it holds no '=' *)
      apply b64enc_nil_inv in E. subst r. cbn [b64dec_gen b64_suffix].
      rewrite !b64_sym_not_pad by lia. now apply b64_four_enc.
    + cbn [b64dec_gen]. rewrite b64_four_enc by assumption.
      specialize (IH HB). cbn [b64dec_gen] in IH. now rewrite IH.
Qed.

Lemma b64_std_roundtrip : forall b, Bytes b -> b64dec_std (b64enc_std b) = Some b.
Proof. intros b HB. apply b64_roundtrip, HB. Qed.

Lemma hex_roundtrip : forall up b, Bytes b -> hexdec (hexenc up b) = Some b.
Proof.
  intros up. induction b as [|x b IH]; intros HB; [reflexivity|].
  apply Bytes_cons in HB as [Hx HB'].
  cbn [hexenc flat_map app hexdec]. fold (hexenc up b).
  rewrite !hex_val_sym, (IH HB') by lia. do 2 f_equal. lia.
Qed.

Lemma le_bytes_lt : forall n x, Bytes (le_bytes n x).
Proof.
  induction n as [|n IH]; intros x; cbn [le_bytes]; constructor; [apply land_255_lt | apply IH].
Qed.
Lemma md4_bytes : forall m, Bytes (md4 m).
Proof.
  intros m. unfold md4. destruct (fold_left md4_block _ md45_init) as [[[a b] c] d].
  repeat apply Bytes_app; apply le_bytes_lt.
Qed.
Lemma sha_of_bytes : forall bits m, Bytes (sha_of bits m).
Proof.
  intros bits m. unfold sha_of. destruct (bits =? 1); [apply sha1_bytes|].
  destruct (bits =? 256); apply sha2_bytes.
Qed.
Definition sha_len (bits : N) : nat := if bits =? 1 then 20%nat else if bits =? 256 then 32%nat else 64%nat.
Lemma sha_of_length : forall bits m, length (sha_of bits m) = sha_len bits.
Proof.
  intros bits m. unfold sha_of, sha_len. destruct (bits =? 1); [apply sha1_length|].
  destruct (bits =? 256); [apply sha256_length | apply sha512_length].
Qed.

Lemma pbkdf2_length_le : forall prf hlen pw salt c dklen,
  (length (pbkdf2 prf hlen pw salt c dklen) <= dklen)%nat.
Proof. intros. unfold pbkdf2. apply firstn_le_length. Qed.

Lemma xor_bytes_length : forall a b n, length a = n -> length b = n -> length (xor_bytes a b) = n.
Proof. intros a b n Ha Hb. unfold xor_bytes. rewrite map_length, combine_length, Ha, Hb. apply Nat.min_id. Qed.

Lemma pbkdf2_T_length : forall prf hlen, (forall k m, length (prf k m) = hlen) ->
  forall pw salt c i, length (pbkdf2_T prf pw salt c i) = hlen.
Proof.
  intros prf hlen Hprf pw salt c i. unfold pbkdf2_T.
  apply (N.iter_invariant (c - 1) _ _ (fun ut => length (snd ut) = hlen)); [|apply Hprf].
  intros [u t] Ht. apply xor_bytes_length; [exact Ht | apply Hprf].
Qed.

Lemma flat_map_const_length : forall (A : Type) (f : A -> bytes) n l,
  (forall x, length (f x) = n) -> length (flat_map f l) = (length l * n)%nat.
Proof.
  intros A f n l H. induction l as [|x l IH]; [reflexivity|].
  cbn [flat_map length]. rewrite app_length, H, IH. lia.
Qed.

Lemma pbkdf2_length : forall prf hlen, (0 < hlen)%nat -> (forall k m, length (prf k m) = hlen) ->
  forall pw salt c dklen, length (pbkdf2 prf hlen pw salt c dklen) = dklen.
Proof.
  intros prf hlen Hpos Hprf pw salt c dklen. unfold pbkdf2.
  rewrite firstn_length.
  rewrite (flat_map_const_length _ _ hlen) by (intros x; apply pbkdf2_T_length, Hprf).
  rewrite seq_length. apply Nat.min_l.
  pose proof (Nat.div_mod_eq (dklen + hlen - 1) hlen) as E.
  pose proof (Nat.mod_upper_bound (dklen + hlen - 1) hlen ltac:(lia)) as B.
  nia.
Qed.

Lemma pbkdf2_sha256_length : forall pw salt c dklen, length (pbkdf2_sha256 pw salt c dklen) = dklen.
Proof.
  intros. unfold pbkdf2_sha256. apply pbkdf2_length; [lia|].
  intros k m. unfold hmac_sha256, hmac. apply sha256_length.
Qed.

(* the key a stored value must equal, in full, for [pw] to be accepted (the sha-crypt variants
   store a whole crypt string, not a key: expected_key is None there, see sha_check_accepts) *)
Definition expected_key (argon : argon_oracle) (k : kdf) (pw : bytes) : option bytes :=
  match k with
  | KArgon2id m t p v salt key => argon m t p v salt pw (length key)
  | KPbkdf2 c s h => Some (pbkdf2_sha256 pw s c (length h))
  | KPbkdf2Sha1 c s h => Some (pbkdf2_sha1 pw s c (length h))
  | KPbkdf2Sha512 c s h => Some (pbkdf2_sha512 pw s c (length h))
  | KSha1 _ => Some (sha1 pw)
  | KSsha1 s _ => Some (sha1 (pw ++ s))
  | KSha256 _ => Some (sha256 pw)
  | KSsha256 s _ => Some (sha256 (pw ++ s))
  | KSha512 _ => Some (sha512 pw)
  | KSsha512 s _ => Some (sha512 (pw ++ s))
  | KNtMd4 _ => Some (md4 (utf16le pw))
  | KCryptMd5 s _ => Some (md5crypt pw s)
  | KCryptSha256 _ | KCryptSha512 _ => None
  end.
Definition stored_key (k : kdf) : bytes :=
  match k with
  | KArgon2id _ _ _ _ _ key => key
  | KPbkdf2 _ _ h | KPbkdf2Sha1 _ _ h | KPbkdf2Sha512 _ _ h => h
  | KSha1 h | KSsha1 _ h | KSha256 h | KSsha256 _ h | KSha512 h | KSsha512 _ h => h
  | KNtMd4 h | KCryptMd5 _ h | KCryptSha256 h | KCryptSha512 h => h
  end.
Definition is_sha_crypt (k : kdf) : bool :=
  match k with KCryptSha256 _ | KCryptSha512 _ => true | _ => false end.

Lemma VOk_beqb : forall a b, VOk (beqb a b) = VOk true -> a = b.
Proof. intros a b [= H]. now apply beqb_true_iff. Qed.

Lemma verify_full_equality : forall argon k pw,
  is_sha_crypt k = false -> verify argon k pw = VOk true ->
  blen pw <= PW_MAX_LENGTH_CHECK /\ expected_key argon k pw = Some (stored_key k).
Proof.
  intros argon k pw Hk H. unfold verify in H.
  destruct (PW_MAX_LENGTH_CHECK <? blen pw) eqn:EL; [discriminate|].
  apply N.ltb_ge in EL. split; [exact EL|].
  destruct k; try discriminate Hk; cbn [expected_key stored_key].
  1: destruct ((v =? 16) || (v =? 19)); [|discriminate H];
     destruct (argon m t p v salt pw (length key)) as [ck|]; [|discriminate H].
  all: apply VOk_beqb in H; now rewrite H.
Qed.

(* the Drepper digest in crypt(3) byte order: what the hash field of a crypt string encodes *)
Definition crypt_field (is512 : bool) (pw salt : bytes) (r : N) : bytes :=
  let out := shacrypt_raw (if is512 then sha512 else sha256) pw salt (N.to_nat r) in
  map (fun t => nth t out 0) (if is512 then MAP_SHA512 else MAP_SHA256).

Definition crypt_len (is512 : bool) : nat := if is512 then 64%nat else 32%nat.

(* for evaluation: the same digest through the SHA-2 of KV.C29.HashFast *)
Lemma crypt_field_fast : forall is512 pw salt r,
  crypt_field is512 pw salt r =
  let out := shacrypt_raw (if is512 then sha512f else sha256f) pw salt (N.to_nat r) in
  map (fun t => nth t out 0) (if is512 then MAP_SHA512 else MAP_SHA256).
Proof.
  intros [|] pw salt r; unfold crypt_field; cbv zeta;
    [rewrite sha512crypt_fast | rewrite sha256crypt_fast]; reflexivity.
Qed.

Lemma sha_check_compare : forall fixed is512 pw hv salt (r : N) d,
  sha_prepare_gen fixed is512 hv = SCCompare salt r d ->
  sha_check_gen fixed is512 pw hv =
  VOk (beqb (crypt_field is512 pw salt r)
            (firstn (crypt_len is512) (d ++ repeat 0 (crypt_len is512)))).
Proof. intros fixed is512 pw hv salt r d H. unfold sha_check_gen. rewrite H. reflexivity. Qed.

(* for a whole imported string: the three premises are decided by evaluation, and none of them
   touches the digest *)
Lemma crypt_outcome : forall argon s (is512 : bool) hv pw salt (r : N) d,
  parse s = POk (if is512 then KCryptSha512 hv else KCryptSha256 hv) ->
  (PW_MAX_LENGTH_CHECK <? blen pw) = false ->
  sha_prepare is512 hv = SCCompare salt r d ->
  model_outcome argon (SStr s) pw =
  OVer (VOk (beqb (crypt_field is512 pw salt r)
                  (firstn (crypt_len is512) (d ++ repeat 0 (crypt_len is512))))).
Proof.
  intros argon s is512 hv pw salt r d Hp Hl Hs. unfold model_outcome. rewrite Hp.
  destruct is512; unfold verify; rewrite Hl; apply f_equal; exact (sha_check_compare _ _ _ _ _ _ _ Hs).
Qed.

Lemma sha_check_accepts : forall fixed is512 pw hv,
  sha_check_gen fixed is512 pw hv = VOk true ->
  exists salt r d, sha_prepare_gen fixed is512 hv = SCCompare salt r d /\
    crypt_field is512 pw salt r = firstn (crypt_len is512) (d ++ repeat 0 (crypt_len is512)).
Proof.
  intros fixed is512 pw hv H.
  destruct (sha_prepare_gen fixed is512 hv) as [| |salt r d] eqn:E;
    [unfold sha_check_gen in H; rewrite E in H; discriminate ..|].
  rewrite (sha_check_compare _ _ _ _ _ _ _ E) in H.
  exists salt, r, d. split; [reflexivity | exact (VOk_beqb _ _ H)].
Qed.

(* gen_stored for explicit rounds, with the digest named crypt_field, so that a vector's digest
   lemma can be rewritten in *)
Lemma gen_crypt : forall argon is512 (r : N) salt pw,
  gen_stored argon (GCryptSha is512 (Some r) salt) pw =
  Some (print_stored (GCryptSha is512 (Some r) salt) (h64enc (crypt_field is512 pw salt r))).
Proof. reflexivity. Qed.

(* /repo a666989 put one guard in front of the sha-crypt check and changed nothing else *)
Lemma sha_check_fix : forall is512 pw hv,
  sha_check_gen true is512 pw hv =
  if negb is512 && negb (sha256_field_ok hv) then VOk false else sha_check_gen false is512 pw hv.
Proof.
  intros is512 pw hv. unfold sha_check_gen, sha_prepare_gen. cbn [andb].
  now destruct (negb is512 && negb (sha256_field_ok hv)).
Qed.

Lemma verdict_is_indep : forall argon g pw0 d0 pw,
  digest argon g pw0 = Some d0 -> verdict argon g pw0 d0 pw = indep_accepts argon g pw0 pw.
Proof.
  intros argon g pw0 d0 pw H. unfold verdict, indep_accepts. rewrite H.
  destruct (beqb pw pw0) eqn:E.
  - apply beqb_true_iff in E. subst. rewrite H. now rewrite beqb_refl.
  - reflexivity.
Qed.

Lemma firstn_app_exact : forall (a b : bytes) n, length a = n -> firstn n (a ++ b) = a.
Proof.
  intros a b n H. subst n. rewrite firstn_app, Nat.sub_diag, firstn_all. cbn. apply app_nil_r.
Qed.
Lemma skipn_app_exact : forall (a b : bytes) n, length a = n -> skipn n (a ++ b) = b.
Proof.
  intros a b n H. subst n. rewrite skipn_app, Nat.sub_diag, skipn_all. reflexivity.
Qed.
Lemma split_once_app : forall sep a b,
  forallb (fun c => negb (c =? sep)) a = true -> split_once sep (a ++ sep :: b) = Some (a, b).
Proof.
  intros sep. induction a as [|x a IH]; intros b H; cbn [app split_once].
  - now rewrite N.eqb_refl.
  - cbn [forallb] in H. apply andb_true_iff in H. destruct H as [Hx Ha].
    apply negb_true_iff in Hx. rewrite Hx. now rewrite (IH b Ha).
Qed.
Lemma is_h64_no_dollar : forall s, is_h64 s = true -> forallb (fun c => negb (c =? 36)) s = true.
Proof.
  intros s H. unfold is_h64 in H. rewrite forallb_forall in *. intros c Hc. specialize (H c Hc).
  destruct (c =? 36) eqn:E; [|reflexivity]. apply N.eqb_eq in E. subst. discriminate.
Qed.

Lemma bits_cases : forall bits,
  (bits =? 1) || (bits =? 256) || (bits =? 512) = true -> bits = 1 \/ bits = 256 \/ bits = 512.
Proof. intros bits H. rewrite !orb_true_iff, !N.eqb_eq in H. tauto. Qed.

(* prefix dispatch of TryFrom<&str> on the strings the generators print *)
Lemma parse_sha_scheme : forall bits up hv,
  (bits =? 1) || (bits =? 256) || (bits =? 512) = true ->
  parse (scheme up (sha_name bits) ++ hv) =
  parse_plain_sha (sha_len bits)
    (if bits =? 1 then KSha1 else if bits =? 256 then KSha256 else KSha512) hv.
Proof.
  intros bits up hv H. destruct (bits_cases bits H) as [-> | [-> | ->]]; destruct up; reflexivity.
Qed.
Lemma parse_sha_printed : forall bits up h,
  (bits =? 1) || (bits =? 256) || (bits =? 512) = true -> Bytes h -> length h = sha_len bits ->
  parse (scheme up (sha_name bits) ++ b64enc_std h) =
  POk ((if bits =? 1 then KSha1 else if bits =? 256 then KSha256 else KSha512) h).
Proof.
  intros bits up h Hbits HB Hl. rewrite (parse_sha_scheme bits up _ Hbits). unfold parse_plain_sha.
  now rewrite b64_std_roundtrip, Hl, Nat.eqb_refl by exact HB.
Qed.
Lemma parse_ssha_scheme : forall bits up hv,
  (bits =? 1) || (bits =? 256) || (bits =? 512) = true ->
  parse (scheme up ("S" ++ sha_name bits)%string ++ hv) =
  parse_salted_sha (sha_len bits) (bits =? 512)
    (if bits =? 1 then KSsha1 else if bits =? 256 then KSsha256 else KSsha512) hv.
Proof.
  intros bits up hv H. destruct (bits_cases bits H) as [-> | [-> | ->]]; destruct up; reflexivity.
Qed.

(* by computation on the literal prefix; stated so that the outcome lemmas rewrite and unfold
   nothing else *)
Lemma parse_samba_prefix : forall hv, parse (P_SAMBA ++ hv) = parse_samba hv.
Proof. intros hv. reflexivity. Qed.
Lemma parse_md5crypt_prefix : forall rest,
  parse (str "{crypt}$1$" ++ rest) =
  match split_once 36 rest with
  | Some (salt, hash) => POk (KCryptMd5 salt hash)
  | None => PErr EParsing
  end.
Proof. intros rest. reflexivity. Qed.

(* What import + verify answer on a {SHA*}, {SSHA*}, sambaNTPassword or md5-crypt string, for ANY
   stored key [h] and a candidate within the length limit. *)
Section Outcome.
  Variables (argon : argon_oracle) (pw : bytes).
  Hypothesis Hshort : (PW_MAX_LENGTH_CHECK <? blen pw) = false.

  Lemma sha_outcome : forall bits up h,
    (bits =? 1) || (bits =? 256) || (bits =? 512) = true -> Bytes h -> length h = sha_len bits ->
    model_outcome argon (SStr (scheme up (sha_name bits) ++ b64enc_std h)) pw
    = OVer (VOk (beqb h (sha_of bits pw))).
  Proof.
    intros bits up h Hbits HB Hl. unfold model_outcome.
    rewrite parse_sha_printed by assumption. unfold sha_of, verify. rewrite Hshort. now destruct (bits =? 1), (bits =? 256).
  Qed.

  (* digest first, then a salt that is not empty *)
  Lemma ssha_outcome : forall bits up salt h,
    (bits =? 1) || (bits =? 256) || (bits =? 512) = true ->
    Bytes (h ++ salt) -> length h = sha_len bits -> (1 <= length salt)%nat ->
    model_outcome argon (SStr (scheme up ("S" ++ sha_name bits)%string ++ b64enc_std (h ++ salt))) pw
    = OVer (VOk (beqb h (sha_of bits (pw ++ salt)))).
  Proof.
    intros bits up salt h Hbits HB Hl Hs. unfold model_outcome.
    rewrite (parse_ssha_scheme bits up _ Hbits). unfold parse_salted_sha.
    rewrite b64_std_roundtrip, app_length, Hl by exact HB.
    replace (sha_len bits + length salt <=? sha_len bits)%nat with false
      by (symmetry; apply Nat.leb_gt; lia).
    replace (sha_len bits + length salt <? sha_len bits)%nat with false
      by (symmetry; apply Nat.ltb_ge; lia).
    rewrite andb_false_r, (skipn_app_exact _ _ _ Hl), (firstn_app_exact _ _ _ Hl).
    unfold sha_of, verify. rewrite Hshort. now destruct (bits =? 1), (bits =? 256).
  Qed.

  Lemma samba_outcome : forall up h, Bytes h ->
    model_outcome argon (SStr (P_SAMBA ++ hexenc up h)) pw = OVer (VOk (beqb (md4 (utf16le pw)) h)).
  Proof.
    intros up h HB. unfold model_outcome. rewrite parse_samba_prefix. unfold parse_samba.
    rewrite hex_roundtrip by exact HB. unfold verify. now rewrite Hshort.
  Qed.

  (* the salt is whatever stands before the next '$', of any length *)
  Lemma md5crypt_outcome : forall salt h, is_h64 salt = true ->
    model_outcome argon (SStr (str "{crypt}$1$" ++ salt ++ 36 :: h)) pw
    = OVer (VOk (beqb (md5crypt pw salt) h)).
  Proof.
    intros salt h Hs. unfold model_outcome.
    rewrite parse_md5crypt_prefix, split_once_app by now apply is_h64_no_dollar.
    unfold verify. now rewrite Hshort.
  Qed.
End Outcome.

(* formats for which "parse what the independent implementation printed, then verify" is PROVED
   to give the independent verdict; the others are tied by the differential run only, with
   vectors in Witness.v for Django, ipaNTHash and sha-crypt (none for OpenLDAP PBKDF2) *)
Definition proved_fmt (g : gen) : bool :=
  match g with
  | GDbArgon2id _ _ _ v _ _ => (v =? 16) || (v =? 19)
  | GDbPbkdf2 _ _ _ | GSha _ _ | GSsha _ _ _ | GNtSamba _ | GCryptMd5 _ => true
  | _ => false
  end.

(* the Argon2id primitive returns as many bytes as it is asked for, and whether it fails depends
   on the parameters only, not on the cleartext *)
Definition oracle_len (argon : argon_oracle) : Prop :=
  (forall m t p v salt pw n d, argon m t p v salt pw n = Some d -> length d = n) /\
  (forall m t p v salt pw pw' n d, argon m t p v salt pw n = Some d ->
                                    argon m t p v salt pw' n <> None).

Theorem roundtrip_proved : forall argon g pw0 d0 pw,
  oracle_len argon ->
  wf g = true -> proved_fmt g = true -> blen pw <= PW_MAX_LENGTH_CHECK ->
  digest argon g pw0 = Some d0 ->
  model_outcome argon (print_stored g d0) pw = OVer (VOk (indep_accepts argon g pw0 pw)).
Proof.
  intros argon g pw0 d0 pw Horacle Hwf Hp Hlen Hd.
  apply N.ltb_ge in Hlen. unfold indep_accepts. rewrite Hd.
  destruct g as [m t p v salt klen | c salt klen | | | bits up | bits up salt | | up | salt | ];
    cbn [proved_fmt] in Hp; try discriminate Hp;
    cbn [digest] in Hd |- *; cbn [print_stored]; cbn [wf] in Hwf.
  - (* Argon2id via DbPasswordV1 *)
    cbn [model_outcome]. unfold verify. rewrite Hlen, Hp, (proj1 Horacle _ _ _ _ _ _ _ _ Hd).
    destruct (argon m t p v salt pw klen) as [d|] eqn:E; [reflexivity|].
    exfalso. exact (proj2 Horacle _ _ _ _ _ _ pw _ _ Hd E).
  - (* PBKDF2 via DbPasswordV1 *)
    injection Hd as <-. cbn [model_outcome]. unfold verify.
    now rewrite Hlen, pbkdf2_sha256_length.
  - (* {SHA} {SHA256} {SHA512} *)
    injection Hd as <-. rewrite beqb_sym.
    apply sha_outcome; auto using sha_of_bytes, sha_of_length.
  - (* {SSHA} {SSHA256} {SSHA512} *)
    apply andb_true_iff in Hwf as [Hwf Hsl]. apply andb_true_iff in Hwf as [Hbits Hsalt].
    injection Hd as <-. rewrite beqb_sym. apply ssha_outcome; auto using sha_of_length.
    + apply Bytes_app; [apply sha_of_bytes | now apply is_bytes_Bytes].
    + now apply Nat.leb_le.
  - (* sambaNTPassword *)
    injection Hd as <-. apply samba_outcome; [exact Hlen | apply md4_bytes].
  - (* {crypt}$1$ *)
    apply andb_true_iff in Hwf as [Hh64 _]. injection Hd as <-.
    exact (md5crypt_outcome argon pw Hlen salt _ Hh64).
Qed.

Definition full_statement : Prop :=
  forall argon g pw0 d0 pw, oracle_len argon -> wf g = true -> digest argon g pw0 = Some d0 ->
    model_outcome argon (print_stored g d0) pw = OVer (VOk (indep_accepts argon g pw0 pw)).

Definition no_argon : argon_oracle := fun _ _ _ _ _ _ _ => None.
Definition long_pw : bytes := repeat 97 513.

(* the stored {SHA} value is imported and then refused for its length alone; the independent
   verdict on the cleartext itself is a comparison of a digest with itself *)
Lemma long_pw_refutes :
  model_outcome no_argon (print_stored (GSha 1 true) (sha_of 1 long_pw)) long_pw = OVer (VOk false) /\
  indep_accepts no_argon (GSha 1 true) long_pw long_pw = true.
Proof.
  split; [|unfold indep_accepts; cbn [digest]; apply beqb_refl].
  cbn [print_stored]. unfold model_outcome.
  rewrite (parse_sha_printed 1 true (sha_of 1 long_pw) eq_refl (sha_of_bytes _ _) (sha_of_length _ _)).
  (* verify looks at the length first *)
  reflexivity.
Qed.

Definition case_proved (c : case) : bool :=
  match cgen c with
  | Some (g, _) => proved_fmt g
  | None => true
  end.

Lemma kdf_eqb_eq : forall a b, kdf_eqb a b = true -> a = b.
Proof.
  intros a b H. destruct a, b; cbn [kdf_eqb] in H; try discriminate H;
    repeat (apply andb_true_iff in H as [H ?]);
    f_equal; (now apply N.eqb_eq) || (now apply beqb_true_iff).
Qed.
Lemma stored_eqb_eq : forall a b, stored_eqb a b = true -> a = b.
Proof.
  intros [x|x] [y|y] H; cbn [stored_eqb] in H; try discriminate H; f_equal;
    [now apply beqb_true_iff | now apply kdf_eqb_eq].
Qed.
Lemma outcome_eqb_iff : forall a b, outcome_eqb a b = true <-> a = b.
Proof.
  intros [e| |[x| |]] [e'| |[y| |]]; cbn [outcome_eqb vres_eqb];
    rewrite ?Bool.eqb_true_iff; try (split; intros; congruence).
  destruct e, e'; cbn [perr_eqb]; split; intros; congruence.
Qed.

(* what pcheck asks beyond agreement, for a generated case: the parameters are in the generator's
   domain and the harness stored exactly what the Gallina generator prints *)
Definition well_generated (c : case) : bool :=
  let argon := oracle_of (coracle c) in
  match cgen c with
  | Some (g, pw0) =>
      match digest argon g pw0 with
      | Some d0 => wf g && stored_eqb (print_stored g d0) (cstored c)
      | None => false
      end
  | None => true
  end.

Definition all_short (c : case) : bool :=
  forallb (fun a => blen (fst a) <=? PW_MAX_LENGTH_CHECK) (catt c).
Definition no_panic_recorded (c : case) : bool := forallb (fun a => outcome_ok (snd a)) (catt c).

(* well_generated is pcheck without its last conjunct (the recorded answers); agree adds that
   conjunct through roundtrip_proved.  For a hand-made case (cgen c = None) pcheck c is
   no_panic_recorded c: the conclusion is the fifth hypothesis and agree is not used. *)
Theorem agree_implies_pcheck : forall c,
  oracle_len (oracle_of (coracle c)) ->
  case_proved c = true -> well_generated c = true -> all_short c = true ->
  (cgen c = None -> no_panic_recorded c = true) ->
  agree c = true -> pcheck c = true.
Proof.
  intros [cg st tab atts] Ho Hcp Hwg Hshort Hnp Hag.
  unfold case_proved, well_generated, all_short, agree, pcheck in *. cbn [cgen cstored coracle catt] in *.
  destruct cg as [[g pw0]|]; [|now apply Hnp].
  destruct (digest (oracle_of tab) g pw0) as [d0|] eqn:Hd; [|discriminate].
  rewrite Hwg. cbn [andb].
  apply andb_true_iff in Hwg as [Hwf Hst]. apply stored_eqb_eq in Hst. subst st.
  rewrite forallb_forall in *. intros a Ha.
  specialize (Hshort a Ha). apply N.leb_le in Hshort.
  apply outcome_eqb_iff.
  rewrite <- (proj1 (outcome_eqb_iff _ _) (Hag a Ha)), (verdict_is_indep _ _ _ _ _ Hd).
  exact (roundtrip_proved _ _ _ _ _ Ho Hwf Hcp Hshort Hd).
Qed.

Theorem pcheck_sound : forall c g pw0,
  cgen c = Some (g, pw0) -> pcheck c = true ->
  wf g = true /\
  exists d0, digest (oracle_of (coracle c)) g pw0 = Some d0 /\ cstored c = print_stored g d0 /\
    forall pw o, In (pw, o) (catt c) -> o = OVer (VOk (indep_accepts (oracle_of (coracle c)) g pw0 pw)).
Proof.
  intros c g pw0 Hg H. unfold pcheck in H. rewrite Hg in H.
  destruct (digest (oracle_of (coracle c)) g pw0) as [d0|] eqn:Hd; [|discriminate].
  apply andb_true_iff in H as [H Hall]. apply andb_true_iff in H as [Hwf Hst].
  rewrite forallb_forall in Hall.
  split; [exact Hwf|]. exists d0. split; [reflexivity|]. split; [symmetry; now apply stored_eqb_eq|].
  intros pw o Hin. rewrite <- (verdict_is_indep _ _ _ _ _ Hd).
  apply outcome_eqb_iff. exact (Hall _ Hin).
Qed.
