(* The expected values come from INDEPENDENT implementations: RFCs, glibc/libxcrypt crypt(3) via
   perl, Python hashlib, kanidm's own unit tests. *)
From Coq Require Import String List Arith NArith Bool.
Import ListNotations.
Require Import KV.C29.Hash KV.C30.Prim KV.C30.Model KV.C30.Proofs.
Open Scope N_scope.

Definition na : argon_oracle := fun _ _ _ _ _ _ _ => None.
Definition ok (s pw : string) : outcome := model_outcome na (SStr (str s)) (str pw).

(* RFC 1321 / RFC 1320 test suites, the NT hash of "password" *)
Example C30_witness_md5_md4_vectors :
  md5 (str "") = hex "d41d8cd98f00b204e9800998ecf8427e" /\
  md5 (str "message digest") = hex "f96b697d7cb7938d525a2f31aaf161d0" /\
  md5 (str "12345678901234567890123456789012345678901234567890123456789012345678901234567890")
    = hex "57edf4a22be3c955ac49da2e2107b67a" /\
  md4 (str "") = hex "31d6cfe0d16ae931b73c59d7e0c089c0" /\
  md4 (str "message digest") = hex "d9130a8164549fe818874806e1c7014b" /\
  md4 (str "12345678901234567890123456789012345678901234567890123456789012345678901234567890")
    = hex "e33b4ddc9c38f2199c3e7b164fcc0536" /\
  md4 (utf16le (str "password")) = hex "8846f7eaee8fb117ad06bdd830b7586c".
Proof. vm_compute. repeat split; reflexivity. Qed.

(* RFC 6070 (c = 1, 2); the other three values from Python hashlib.pbkdf2_hmac *)
Example C30_witness_pbkdf2_vectors :
  pbkdf2_sha1 (str "password") (str "salt") 1 20 = hex "0c60c80f961f0e71f3a9b524af6012062fe037a6" /\
  pbkdf2_sha1 (str "password") (str "salt") 2 20 = hex "ea6c014dc72d6f8ccd1ed92ace1d41f0d8de8957" /\
  pbkdf2_sha256 (str "password") (str "salt") 2 32
    = hex "ae4d0c95af6b46d32d0adff928f06dd02a303f8ef3c251dfd6e2d85a95474c43" /\
  pbkdf2_sha1 (str "pw") (hex "000102030405060708090a0b0c0d0e0f") 2 20
    = hex "820d79bc16855a91640cc65c4086dda62eaa465e" /\
  pbkdf2_sha512 (hex "d0bfd0b0d180d0bed0bbd18c") [] 1 64
    = hex "0afa6e05b53320a67f071830563fcb045643be660292ec99c689d458b5f631c993b3822ed426ce4c30044e5c62c37156f1e65003fbaacd52d8bbde3b2e897fe1".
Proof. vm_compute. repeat split; reflexivity. Qed.

(* the generators reproduce hashes written by other implementations: kanidm's unit-test vectors
   ({SHA}, {SSHA}, {SSHA256} from 389-ds, ipaNTHash, sambaNTPassword), a Django-format value
   from Python hashlib, glibc md5-crypt *)
Example C30_witness_generators_match_foreign_hashes :
  gen_stored na (GSha 1 true) (str "password") = Some (SStr (str "{SHA}W6ph5Mm5Pz8GgiULbPgzG37mj9g=")) /\
  gen_stored na (GSsha 1 true (hex "ba4c24c9b6754e09")) (str "password")
    = Some (SStr (str "{SSHA}EyzbBiP4u4zxOrLpKTORI/RX3HC6TCTJtnVOCQ==")) /\
  gen_stored na (GSsha 256 false (hex "f93b272e1c557f19")) (str "password")
    = Some (SStr (str "{ssha256}luYWfFJOZgxySTsJXHgIaCYww4yMpu6yest69j/wO5n5OycuHFV/GQ==")) /\
  gen_stored na GNtIpa (str "password") = Some (SStr (str "ipaNTHash: iEb36u6PsRetBr3YMLdYbA")) /\
  gen_stored na (GNtSamba true) (str "password")
    = Some (SStr (str "sambaNTPassword: 8846F7EAEE8FB117AD06BDD830B7586C")) /\
  gen_stored na (GDjango 3 (str "NaCl")) (str "pw")
    = Some (SStr (str "pbkdf2_sha256$3$NaCl$PYTJl79YdukHK5UBeH5J1J+x0YL+7KnQyPqbJDL53wI=")) /\
  gen_stored na (GCryptMd5 (str "zaRIAsoe")) (str "password")
    = Some (SStr (str "{crypt}$1$zaRIAsoe$7887GzjDTrst0XbDPpF5m.")) /\
  gen_stored na (GCryptMd5 (str "ab")) (hex "c3a931") = Some (SStr (str "{crypt}$1$ab$x4LZSWOyKHcX38STs.dY5.")).
Proof. vm_compute. repeat split; reflexivity. Qed.

(* The three 1000-round digests the next example needs, each evaluated once; everything else in
   it is parsing and printing around them (crypt_outcome, gen_crypt). *)
Lemma crypt_pw : crypt_field false (str "pw") (str "saltsalt") 1000
  = hex "6a460102612e168d2f60fff7ef77d55989c0e40477ea522a1a2ec1cf438bc148".
Proof. rewrite crypt_field_fast. vm_compute. reflexivity. Qed.
Lemma crypt_pW : crypt_field false (str "pW") (str "saltsalt") 1000
  = hex "8754e782bf0f5813055b39aeafa02824887586584cd3ea8a4a0184ca94058b29".
Proof. rewrite crypt_field_fast. vm_compute. reflexivity. Qed.
Lemma crypt_abc : crypt_field true (str "abc") (str "0123456789abcdef") 1000
  = hex "174fdeb590fab9bafd0a3e80e9bcd3921c309edfedf8ac5e750c6abc8f11138d2bfd30cc2ca3e0ee8c94f8b5a8dce2e94c72796df814330cc8629ae0d1274e1f".
Proof. rewrite crypt_field_fast. vm_compute. reflexivity. Qed.

(* glibc/libxcrypt sha256-crypt and sha512-crypt outputs (perl crypt()), 1000 rounds: generated
   identically, accepted for the right cleartext, refused for a near miss *)
Example C30_witness_sha_crypt_glibc :
  gen_stored na (GCryptSha false (Some 1000) (str "saltsalt")) (str "pw")
    = Some (SStr (str "{crypt}$5$rounds=1000$saltsalt$eNI.02a9Kos9UxzxjTLpNZ6kYHkRe9Z8OsGkDDoW/X2")) /\
  ok "{crypt}$5$rounds=1000$saltsalt$eNI.02a9Kos9UxzxjTLpNZ6kYHkRe9Z8OsGkDDoW/X2" "pw" = OVer (VOk true) /\
  ok "{crypt}$5$rounds=1000$saltsalt$eNI.02a9Kos9UxzxjTLpNZ6kYHkRe9Z8OsGkDDoW/X2" "pW" = OVer (VOk false) /\
  ok "{crypt}$6$rounds=1000$0123456789abcdef$LwYrp0dytePz8s1UdnvoGm/ASyRvsneLplUOwyM2Hos8x11ngA8sin6ZsL9eQ9SuA7LShVD3nk.mWd7sFTWHT." "abc"
    = OVer (VOk true).
Proof.
  (* split by hand: on an equation [repeat split] tries [reflexivity], and the unifier would
     evaluate the digest *)
  split; [|split; [|split]]; unfold ok.
  - rewrite gen_crypt, crypt_pw. vm_compute. reflexivity.
  - (* the premises first: they decode the stored field, which the goal then mentions *)
    erewrite crypt_outcome with (is512 := false) (salt := str "saltsalt") (r := 1000);
      [|vm_compute; reflexivity ..].
    rewrite crypt_pw. vm_compute. reflexivity.
  - erewrite crypt_outcome with (is512 := false) (salt := str "saltsalt") (r := 1000);
      [|vm_compute; reflexivity ..].
    rewrite crypt_pW. vm_compute. reflexivity.
  - erewrite crypt_outcome with (is512 := true) (salt := str "0123456789abcdef") (r := 1000);
      [|vm_compute; reflexivity ..].
    rewrite crypt_abc. vm_compute. reflexivity.
Qed.

(* non-vacuity of C30_accepts_iff_independent_partial: parameters in the domain, a proved format,
   a digest, and both verdicts occur (the candidates are a few bytes long) *)
Example C30_witness_partial_hypotheses :
  let g := GSsha 256 true (hex "0102030405060708") in
  wf g = true /\ proved_fmt g = true /\
  (exists d0, digest na g (str "pässwörd") = Some d0) /\
  indep_accepts na g (str "pässwörd") (str "pässwörd") = true /\
  indep_accepts na g (str "pässwörd") (str "passwörd") = false /\
  wf (GCryptMd5 (str "zaRIAsoe")) = true /\ proved_fmt (GCryptMd5 (str "zaRIAsoe")) = true.
Proof. vm_compute. repeat split; try reflexivity. eexists; reflexivity. Qed.

(* C30_refuted's witness: the 513-byte cleartext is refused by the model of kanidm and accepted by
   the independent verdict; at exactly 512 bytes the model accepts *)
Example C30_witness_refuted :
  model_outcome no_argon (print_stored (GSha 1 true) (sha_of 1 long_pw)) long_pw = OVer (VOk false) /\
  indep_accepts no_argon (GSha 1 true) long_pw long_pw = true /\
  model_outcome no_argon (print_stored (GSha 1 true) (sha_of 1 (repeat 97 512))) (repeat 97 512)
    = OVer (VOk true).
Proof. vm_compute. repeat split; reflexivity. Qed.

(* C30_long_cleartext_rejected / C30_verify_full_equality hypotheses are met; the second line is
   "no truncated comparison" at work: the stored key, the first 15 bytes of the right {SSHA}
   digest (the vector above), is refused *)
Example C30_witness_verify_hypotheses :
  PW_MAX_LENGTH_CHECK < blen long_pw /\
  verify na (KSsha1 (hex "ba4c24c9b6754e09") (hex "132cdb0623f8bb8cf13ab2e9293391")) (str "password") = VOk false /\
  verify na (KSha1 (sha1 (str "password"))) (str "password") = VOk true /\
  is_sha_crypt (KSha1 (sha1 (str "password"))) = false.
Proof. vm_compute. repeat split; reflexivity. Qed.

(* after /repo a666989 a {crypt}$5$ string with an undecodable / non-canonical / over-long hash
   field is answered Ok(false) (before: PANIC, see C30_prefix_sha256_crypt_panics); non-vacuity of
   C30_fix_same_on_canonical: a glibc hash has a canonical field *)
Example C30_witness_sha256_crypt_no_panic :
  ok "{crypt}$5$rounds=1000$saltsalt$***" "password" = OVer (VOk false) /\
  ok "{crypt}$5$saltsalt$aaaaaaaaaaaaaaaaaaaaaaaaaaaaaaaaaaaaaaaaaaz" "password" = OVer (VOk false) /\
  ok "{crypt}$6$rounds=1000$saltsalt$***" "password" = OVer (VOk false) /\
  sha_check_gen false false (str "password") (str "$5$saltsalt$aaaaaaaaaaaaaaaaaaaaaaaaaaaaaaaaaaaaaaaaaaz") = VPanic /\
  sha256_field_ok (str "$5$rounds=1000$saltsalt$eNI.02a9Kos9UxzxjTLpNZ6kYHkRe9Z8OsGkDDoW/X2") = true /\
  sha256_field_ok (str "$5$rounds=1000$saltsalt$***") = false.
Proof. vm_compute. repeat split; reflexivity. Qed.

(* Leniency outside the property's domain (no independent implementation writes such strings):
   kanidm hashes md5-crypt with the WHOLE salt field, glibc with its first 8 characters, so the
   string below (9-character salt) is accepted by kanidm although crypt(3) would print
   $1$12345678$7y7mHQRucjgVYVF1mZqKC1 for it *)
Example C30_witness_md5_crypt_overlong_salt :
  let h := md5crypt (str "x") (str "123456789") in
  model_outcome na (SStr (str "{crypt}$1$123456789$" ++ h)) (str "x") = OVer (VOk true) /\
  beqb h (str "7y7mHQRucjgVYVF1mZqKC1") = false /\
  md5crypt (str "x") (str "12345678") = str "7y7mHQRucjgVYVF1mZqKC1" /\
  wf (GCryptMd5 (str "123456789")) = false.
Proof.
  intros h. split; [|split; [|split]].
  - (* accepted because [h] is the digest with the whole salt: nothing to evaluate *)
    change (str "{crypt}$1$123456789$" ++ h) with (str "{crypt}$1$" ++ str "123456789" ++ 36 :: h).
    rewrite md5crypt_outcome by reflexivity. subst h. now rewrite beqb_refl.
  - vm_compute. reflexivity.
  - vm_compute. reflexivity.
  - reflexivity.
Qed.
