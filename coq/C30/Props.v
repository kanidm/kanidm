From Coq Require Import String List Arith NArith Bool.
Import ListNotations.
Require Import KV.C29.Hash KV.C30.Prim KV.C30.Model KV.C30.Proofs.
Open Scope N_scope.

(* THE PROPERTY.  For every supported format ([gen]: generated Argon2id and PBKDF2, Django,
   OpenLDAP PBKDF2 x4, {SHA}/{SSHA}/{SHA256}/{SSHA256}/{SHA512}/{SSHA512}, ipaNTHash,
   sambaNTPassword, md5-crypt, sha256-crypt, sha512-crypt), every parameter choice in the
   format's domain (salt, cost, rounds, spelling of the scheme), every cleartext pw0 and every
   candidate pw of ANY length: on the value an independent implementation stores for pw0
   ([print_stored g d0], d0 the key it derives), kanidm's import + verify answers Ok(b) where b is
   the independent implementation's verdict (derive the candidate's key with the same
   parameters and compare).  The Argon2id primitive is an oracle constrained by [oracle_len]. *)
Definition C30_full_statement : Prop := full_statement.

(* It is FALSE for the code under check: Password::verify_ctx refuses every candidate longer than
   PW_MAX_LENGTH_CHECK = 512 bytes before looking at the hash, so a {SHA} hash of a 513-byte
   cleartext is not accepted for that very cleartext (witness: Proofs.long_pw_refutes, also
   evaluated in Witness.v; confirmed on the real code by the harness cases `long-right`). *)
Theorem C30_refuted : ~ C30_full_statement.
Proof.
  intros F. destruct long_pw_refutes as [H1 H2].
  assert (Ho : oracle_len no_argon) by (split; discriminate).
  specialize (F no_argon (GSha 1 true) long_pw _ long_pw Ho eq_refl eq_refl).
  rewrite H1, H2 in F. discriminate F.
Qed.

(* Outside that class the statement is PROVED for the formats of [proved_fmt]: DbPasswordV1
   ARGON2ID (versions 0x10/0x13) and PBKDF2, {SHA}/{SHA256}/{SHA512}, {SSHA}/{SSHA256}/{SSHA512}
   (both spellings), sambaNTPassword (both hex cases) and md5-crypt (salts of at most 8 hash64
   characters) — unbounded cleartexts/salts/costs, candidates of at most 512 bytes.
   `_partial`: for Django, the four OpenLDAP PBKDF2 schemes, ipaNTHash and sha256/512-crypt the
   same equation is NOT proved (decimal / ab64 / URL-safe / hash64 printing and parsing are only
   executed): those rest on the differential run and on the vectors of Witness.v (which has none
   for OpenLDAP PBKDF2). *)
Theorem C30_accepts_iff_independent_partial : forall argon g pw0 d0 pw,
  oracle_len argon ->
  wf g = true -> proved_fmt g = true -> blen pw <= PW_MAX_LENGTH_CHECK ->
  digest argon g pw0 = Some d0 ->
  model_outcome argon (print_stored g d0) pw = OVer (VOk (indep_accepts argon g pw0 pw)).
Proof. exact roundtrip_proved. Qed.

(* The excluded class exactly: any candidate over 512 bytes is answered Ok(false), whatever is
   stored (all formats, also the non-proved ones). *)
Theorem C30_long_cleartext_rejected : forall argon k pw,
  PW_MAX_LENGTH_CHECK < blen pw -> verify argon k pw = VOk false.
Proof. intros argon k pw H. unfold verify. apply N.ltb_lt in H. now rewrite H. Qed.

(* No prefix or truncated comparison in any variant: a candidate is accepted only if it is at most
   512 bytes long and the stored key equals, byte for byte and in its full length, the key the
   variant's algorithm derives from the candidate (derived to the stored key's length for
   PBKDF2/Argon2id). *)
Theorem C30_verify_full_equality : forall argon k pw,
  is_sha_crypt k = false -> verify argon k pw = VOk true ->
  blen pw <= PW_MAX_LENGTH_CHECK /\ expected_key argon k pw = Some (stored_key k).
Proof. exact verify_full_equality. Qed.

(* sha256/512-crypt: acceptance means that the '$'-structure and rounds were valid, the hash
   field decoded strictly, and the whole 32/64-byte digest (in crypt(3) order) equals the decoded
   field zero-padded to the digest length.  (The left side is Proofs.crypt_field is512 pw salt r
   and the length Proofs.crypt_len is512, written out.) *)
Theorem C30_sha_crypt_full_equality : forall is512 pw hv,
  sha_check is512 pw hv = VOk true ->
  exists salt r d, sha_prepare is512 hv = SCCompare salt r d /\
    map (fun t => nth t (shacrypt_raw (if is512 then sha512 else sha256) pw salt (N.to_nat r)) 0)
        (if is512 then MAP_SHA512 else MAP_SHA256)
    = firstn (if is512 then 64 else 32)%nat (d ++ repeat 0 (if is512 then 64 else 32)%nat).
Proof. exact (sha_check_accepts tree_fixed). Qed.

(* DEFECT FOUND BY THIS CHECK on the originally pinned tree, fixed by /repo a666989: importing
   {crypt}$5$rounds=1000$saltsalt$*** succeeded and every later verify PANICKED (sha-crypt's
   decode_sha256 unwraps the decode error); the fixed code answers Ok(false); $6$ never panicked. *)
Theorem C30_prefix_sha256_crypt_panics :
  let hv := str "$5$rounds=1000$saltsalt$***" in
  sha_check_gen false false (str "password") hv = VPanic /\
  sha_check_gen true false (str "password") hv = VOk false /\
  sha_check_gen false true (str "password") (str "$6$rounds=1000$saltsalt$***") = VOk false.
Proof. vm_compute. repeat split; reflexivity. Qed.

(* The fix only removes behaviour: what the fixed sha-crypt check accepts, the pre-fix check
   accepted; and both are the same function on sha512-crypt and on every sha256-crypt string
   whose last '$'-field is a canonical 43-character hash. *)
Theorem C30_fix_only_restricts : forall is512 pw hv,
  sha_check_gen true is512 pw hv = VOk true -> sha_check_gen false is512 pw hv = VOk true.
Proof.
  intros is512 pw hv H. rewrite sha_check_fix in H.
  now destruct (negb is512 && negb (sha256_field_ok hv)).
Qed.
Theorem C30_fix_same_on_canonical : forall is512 pw hv,
  is512 = true \/ sha256_field_ok hv = true ->
  sha_check_gen true is512 pw hv = sha_check_gen false is512 pw hv.
Proof.
  intros is512 pw hv H. rewrite sha_check_fix.
  destruct H as [-> | ->]; [reflexivity | now rewrite andb_false_r].
Qed.

(* The padded base64 decoders kanidm uses (STANDARD, URL_SAFE; with or without trailing-bit
   tolerance) invert the padded encoder of the same alphabet on every byte string; likewise hex
   in both cases. *)
Theorem C30_base64_decode_encode : forall url trail b, Bytes b ->
  b64dec_gen (b64_val url) true trail (b64enc_gen (b64_sym url) true b) = Some b.
Proof. exact b64_roundtrip. Qed.
Theorem C30_hex_decode_encode : forall up b, Bytes b -> hexdec (hexenc up b) = Some b.
Proof. exact hex_roundtrip. Qed.

(* PBKDF2-HMAC-SHA256 (the variant KPbkdf2) yields exactly the requested number of bytes, so
   comparing with a stored key of that length compares the whole derived key.  (For the SHA-1 and
   SHA-512 variants this is not stated; Proofs.pbkdf2_length would give it.) *)
Theorem C30_pbkdf2_length : forall pw salt c dklen, length (pbkdf2_sha256 pw salt c dklen) = dklen.
Proof. exact pbkdf2_sha256_length. Qed.

(* pcheck means what it should: on a generated case, the recorded answer for every candidate is
   Ok(the independent verdict), the parameters are in the format's domain and the stored value
   is what the Gallina generator prints. *)
Theorem C30_pcheck_sound : forall c g pw0,
  cgen c = Some (g, pw0) -> pcheck c = true ->
  wf g = true /\
  exists d0, digest (oracle_of (coracle c)) g pw0 = Some d0 /\ cstored c = print_stored g d0 /\
    forall pw o, In (pw, o) (catt c) -> o = OVer (VOk (indep_accepts (oracle_of (coracle c)) g pw0 pw)).
Proof. exact pcheck_sound. Qed.

(* Bridge (`_partial`: proved formats only): if the implementation agreed with the model on a
   well-generated case of a proved format whose candidates are all at most 512 bytes, the property
   holds on the implementation's recorded answers.  It says nothing about ARGON2ID cases: a case's
   oracle is a finite table, which answers None on a cleartext it does not list, so with a
   successful entry it fails the second half of oracle_len. *)
Theorem C30_agree_implies_property_partial : forall c,
  oracle_len (oracle_of (coracle c)) ->
  case_proved c = true -> well_generated c = true -> all_short c = true ->
  (cgen c = None -> no_panic_recorded c = true) ->
  agree c = true -> pcheck c = true.
Proof. exact agree_implies_pcheck. Qed.
