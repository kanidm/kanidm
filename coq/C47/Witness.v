From Coq Require Import List NArith Bool.
Import ListNotations.
Require Import KV.C47.Model KV.C47.Proofs.
Open Scope N_scope.

(* a log of the shape the harness records: primary 0, subordinate 1 with a blocked actor 3 and
   a subordinate 2 holding a running actor 4; stop(1) is called while 4 is inside run() *)
Definition wtrace : list label :=
  [LSpawnS 0 1; LSpawnA 1 3; LSpawnS 1 2; LSpawnA 2 4; LSetupEnd 3; LSetupEnd 4; LReady 4;
   LStopCall 1; LCleanBegin 3; LRunEnd 4; LCleanEnd 3; LCleanBegin 4; LCleanEnd 4; LFin 3; LFin 4;
   LStopRet 1; LStopCall 0; LStopRet 0].

(* non-vacuity of C47_stop_implies_all_stopped / C47_accept_sound / C47_agree_implies_property:
   the log is accepted, the final state is reachable (by a run of the 18 logged and 8 hidden
   steps), supervisor 1 has returned from stop, and actor 4 is finished and cleaned up *)
Example C47_witness_accepted :
  agree (Case false wtrace) = true /\ pcheck (Case false wtrace) = true /\
  match accept init wtrace with
  | Some (l, es) =>
      run init es = Some l /\
      existsb (fun n => has_id 1 n && n_ret n) l = true /\
      existsb (fun n => has_id 4 n && ph_is ADone n && n_cleaned n) l = true /\
      length es = 26%nat
  | None => False
  end.
Proof. vm_compute. repeat split; reflexivity. Qed.

(* ... and actor 4 (two levels down) is under supervisor 1 *)
Example C47_witness_under : forall l es, accept init wtrace = Some (l, es) ->
  exists s x, In s l /\ n_id s = 1 /\ n_ret s = true /\ n_id x = 4 /\ under l (n_id s) x.
Proof.
  intros l es H. vm_compute in H. injection H as <- _.
  eexists; eexists. split; [right; left; reflexivity|]. split; [reflexivity|]. split; [reflexivity|].
  (* 4 (fifth in l) is registered under the subordinate 2 (fourth in l), and 2 under 1 *)
  split; [|eapply U_trans; [apply U_child|..]]; cycle 1.
  - right; right; right; left; reflexivity.
  - reflexivity.
  - reflexivity.
  - right; right; right; right; left; reflexivity.
  - reflexivity.
  - reflexivity.
  - reflexivity.
Qed.

(* what a broken implementation would log: stop returns while the actor is still running.
   The acceptor refuses it and the trace-level property fails on it. *)
Example C47_witness_early_return_rejected :
  let bad := [LSpawnS 0 1; LSpawnA 1 2; LSetupEnd 2; LStopCall 1; LStopRet 1; LCleanBegin 2; LCleanEnd 2] in
  agree (Case true bad) = false /\ pcheck (Case true bad) = false.
Proof. vm_compute. split; reflexivity. Qed.

(* cleanup skipped: the task ends without the cleanup entries *)
Example C47_witness_no_cleanup_rejected :
  let bad := [LSpawnS 0 1; LSpawnA 1 2; LSetupEnd 2; LStopCall 1; LFin 2; LStopRet 1] in
  agree (Case true bad) = false /\ pcheck (Case true bad) = false.
Proof. vm_compute. split; reflexivity. Qed.

(* a stop that never returns (the broadcast was not sent): accepted as a safety trace, refused by
   the observation part of pcheck *)
Example C47_witness_hang_fails_pcheck :
  let bad := [LSpawnS 0 1; LSpawnA 1 2; LSetupEnd 2; LStopCall 1] in
  agree (Case true bad) = true /\ pcheck (Case true bad) = false.
Proof. vm_compute. split; reflexivity. Qed.

(* the spawn-after-the-task-ended race is a genuine behaviour of the LTS: the late actor is not
   stopped, and it is exactly what `under` (n_late = false) excludes *)
Example C47_witness_late_spawn :
  match run init [LSpawnS 0 1; LStopCall 0; TBcast 0; TBcast 1; TSupDone 1; LSpawnA 1 2] with
  | Some l => existsb (fun n => has_id 2 n && n_late n && negb (done n)) l = true
  | None => False
  end.
Proof. vm_compute. reflexivity. Qed.

(* non-vacuity of the hypotheses of C47_stop_progress_partial: the final state of the witness log
   is reachable, covered and quiescent, and supervisor 1 has n_req set.  Its stop has already
   returned there (n_ret = true), so the premise n_ret = false of the last conjunct is not met *)
Example C47_witness_quiescent : forall l es, accept init wtrace = Some (l, es) ->
  reachable l /\ covered l /\ quiescent l /\
  existsb (fun n => has_id 1 n && is_sup n && n_req n) l = true.
Proof.
  intros l es H. destruct (accept_state wtrace l es H) as [H1 H2].
  split; [exact H1|]. split; [exact H2|]. vm_compute in H. injection H as <- _.
  split; [apply quiescentb_sound; vm_compute; reflexivity | vm_compute; reflexivity].
Qed.
(* and a state in which a stop is pending and NOT complete is not quiescent: stop(1) called,
   hidden steps withheld *)
Example C47_witness_pending_not_quiescent :
  match run init [LSpawnS 0 1; LSpawnA 1 2; LStopCall 1] with
  | Some l => quiescentb l = false /\ step l (TBcast 1) <> None
  | None => False
  end.
Proof. vm_compute. split; [reflexivity | discriminate]. Qed.
