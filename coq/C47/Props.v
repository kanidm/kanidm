(* C47: stopping a supervisor, or terminating the runtime, stops every actor and subordinate
   supervisor registered under it before the stop completes, after each actor's cleanup has run,
   under every task interleaving, provided each individual actor step terminates. *)
From Coq Require Import List NArith Bool.
Import ListNotations.
Require Import KV.C47.Model KV.C47.Proofs.
Open Scope N_scope.

(* Safety, state form.  In every state reachable by ANY interleaving of the steps of the
   supervisor tasks, the actor tasks, the callers of spawn/subordinate/stop and the runtime
   (trees of any shape and depth, any number of tasks, spawns racing stops included): once
   stop() on a supervisor (or Runtime::exec, supervisor 0) has returned, every task registered
   under it — directly or through subordinate supervisors, while the respective supervisor task
   was still alive — is finished, and every such actor has completed cleanup() and dropped its
   receiver. *)
Theorem C47_stop_implies_all_stopped : forall l, reachable l ->
  forall s, In s l -> n_ret s = true ->
  forall x, under l (n_id s) x ->
    done x = true /\ (is_sup x = false -> n_ph x = ADone /\ n_cleaned x = true).
Proof.
  intros l Hr s Hs Hret x Hu. pose proof (reachable_Inv l Hr) as HI.
  exact (sdone_all_stopped l HI s Hs (ret_sdone l HI s Hs Hret) x Hu).
Qed.

(* the same at the instant the return happens: the step "stop(s) returns" is only enabled in
   states in which everything under s is already stopped and cleaned up *)
Theorem C47_stop_returns_only_after_all_stopped : forall es l s l',
  run init es = Some l -> step l (LStopRet s) = Some l' ->
  forall x, under l s x ->
    done x = true /\ (is_sup x = false -> n_ph x = ADone /\ n_cleaned x = true).
Proof.
  intros es l s l' Hr Hs x Hu. destruct (stopret_guard l s l' Hs) as [sn [Hsn [Hid Hph]]].
  rewrite <- Hid in Hu. exact (sdone_all_stopped l (reachable_Inv l (ex_intro _ es Hr)) sn Hsn Hph x Hu).
Qed.

(* the mechanism: a supervisor task ends only at an instant with no live receiver on its
   broadcast channel, and a receiver is dropped only after cleanup *)
Theorem C47_supervisor_task_end_implies_all_stopped : forall l, reachable l ->
  forall s, In s l -> n_ph s = SDone ->
  forall x, under l (n_id s) x ->
    done x = true /\ (is_sup x = false -> n_ph x = ADone /\ n_cleaned x = true).
Proof. intros l Hr. exact (sdone_all_stopped l (reachable_Inv l Hr)). Qed.

(* the acceptor used on recorded logs is sound: an accepted visible trace is the visible
   projection of a genuine run of the transition system (hidden steps filled in) *)
Theorem C47_accept_sound : forall tr l es, accept init tr = Some (l, es) ->
  run init es = Some l /\ filter visible es = tr.
Proof.
  intros tr l es H. destruct (accept_sound tr init l es H) as [Hr Hf].
  split; [exact (srun_run es init l Hr) | exact Hf].
Qed.

(* bridge: a recorded log that the acceptor accepts satisfies the trace-level property —
   at every "stop(s) returned" entry, every actor spawned so far anywhere under s has its
   "cleanup ended" entry earlier in the log, and no actor callback is logged after its cleanup
   ended.  (The observation part pcheck_obs — stop calls return, tokio marks the tasks finished —
   is checked on the implementation only.) *)
Theorem C47_agree_implies_property : forall mt tr,
  agree (Case mt tr) = true -> pcheck_clean tr = true.
Proof.
  intros mt tr H. cbn in H. destruct (accept init tr) as [[l es]|] eqn:E; [|discriminate].
  destruct (accept_sound tr init l es E) as [Hr <-]. exact (strict_run_clean es l Hr).
Qed.

(* Progress (partial: deadlock freedom, not termination).  `covered` = every live child of a
   supervisor that has already broadcast holds the message; it holds initially and is preserved
   by every step except a spawn under a supervisor that has already left its select loop — the
   race the property excludes. *)
Theorem C47_covered_preserved : forall l e l', Inv l -> covered l -> step l e = Some l' ->
  (forall p x, (e = LSpawnS p x \/ e = LSpawnA p x) ->
     existsb (fun n => has_id p n && negb (ph_is SRun n)) l = false) ->
  covered l'.
Proof.
  intros l e l' HI Hc Hs Hrace.
  destruct (step_cases l e l' Hs) as [[p [x [ph [Hph Hsp]]]] | [F [HF ->]]].
  - apply (covered_spawn p x ph l l' HI Hc); [|exact Hsp]. apply (Hrace p x). tauto.
  - exact (covered_map l e F Hc HF).
Qed.

(* In a reachable covered state in which no forced step (hidden runtime step, end of an actor
   callback, stop branch of a select loop holding the message) is possible, every supervisor
   with a pending stop has ended, everything under it is stopped and cleaned up, and its
   stop() call can return.  So a pending stop can never be stuck: as long as it has not
   completed, some step that needs nobody's cooperation is enabled (each actor step terminates:
   the property's proviso).
   MISSING for full termination: a fairness argument — select! must eventually take the stop
   branch of an actor that keeps having Ready messages (tokio's select! picks at random), and
   the scheduler must run every enabled task. *)
Theorem C47_stop_progress_partial : forall l, reachable l -> covered l -> quiescent l ->
  forall s, In s l -> is_sup s = true -> n_req s = true \/ n_got s = true ->
    n_ph s = SDone /\
    (forall x, under l (n_id s) x ->
       done x = true /\ (is_sup x = false -> n_ph x = ADone /\ n_cleaned x = true)) /\
    (n_req s = true -> n_ret s = false -> step l (LStopRet (n_id s)) <> None).
Proof.
  intros l Hr Hc Hq s Hs Hsup Hreq. pose proof (reachable_Inv l Hr) as HI.
  pose proof (quiescent_stop_complete l HI (reachable_ordered l Hr) Hc Hq s Hs Hsup Hreq) as Hd.
  split; [exact Hd|]. split; [exact (sdone_all_stopped l HI s Hs Hd)|].
  intros Hrq Hrt. cbn. apply (on_enabled _ _ _ l s Hs eq_refl). unfold ph_is. rewrite Hd, Hrq, Hrt. reflexivity.
Qed.

(* every state the trace acceptor passes through is reachable and covered, so the progress
   theorem applies to all states observed through recorded logs *)
Theorem C47_accepted_states_covered : forall tr l es, accept init tr = Some (l, es) ->
  reachable l /\ covered l.
Proof. exact accept_state. Qed.
