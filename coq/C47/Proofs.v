(* A step either appends one node or maps a node function over the state (step_cases); what such
   a function can do to a node is analysed once (upd, F_upd), and every invariant is carried
   through the two kinds of step. *)
From Coq Require Import List NArith Bool.
Import ListNotations.
Require Import KV.C47.Model.
Open Scope N_scope.

(* the node function of [Model.on i g f] *)
Definition upf (i : id) (g : node -> bool) (f : node -> node) (n : node) : node :=
  if has_id i n && g n then f n else n.

Lemma existsb_id : forall i g l,
  existsb (fun n => has_id i n && g n) l = true <-> exists n, In n l /\ n_id n = i /\ g n = true.
Proof.
  intros i g l. rewrite existsb_exists. split; intros [n [Hn H]]; exists n; (split; [exact Hn|]).
  - apply andb_true_iff in H as [Hi Hg]. split; [apply N.eqb_eq; exact Hi | exact Hg].
  - destruct H as [Hi Hg]. unfold has_id. rewrite Hi, N.eqb_refl. exact Hg.
Qed.

Lemma on_some : forall i g f l l', on i g f l = Some l' ->
  l' = map (upf i g f) l /\ exists n, In n l /\ n_id n = i /\ g n = true.
Proof.
  intros i g f l l' H. unfold on in H.
  destruct (existsb (fun n => has_id i n && g n) l) eqn:E; [|discriminate].
  injection H as <-. split; [reflexivity | apply existsb_id; exact E].
Qed.

Lemma on_enabled : forall i g f l n, In n l -> n_id n = i -> g n = true -> on i g f l <> None.
Proof.
  intros i g f l n Hn Hi Hg. unfold on.
  rewrite (proj2 (existsb_id i g l)); [discriminate | exists n; auto].
Qed.

(* the node function of [Model.bcast i] *)
Definition G_bcast (i : id) (x : node) := if par_is i x && negb (done x) then set_got x else x.

(* the node function of every non-spawning step *)
Definition Fof (l : state) (e : label) : option (node -> node) :=
  match e with
  | LSpawnS _ _ | LSpawnA _ _ => None
  | LStopCall s => Some (upf s (fun n => is_sup n && negb (n_req n)) set_req)
  | LStopRet s => Some (upf s (fun n => ph_is SDone n && n_req n && negb (n_ret n)) set_ret)
  | LSetupEnd a => Some (upf a (ph_is ASetup) (set_ph ALoop))
  | LReady a => Some (upf a (ph_is ALoop) (set_ph ARun))
  | LRunEnd a => Some (upf a (ph_is ARun) (set_ph ALoop))
  | LStateStop a => Some (upf a (ph_is ALoop) (set_ph AStop))
  | LCleanBegin a => Some (upf a (fun n => ph_is AStop n || (ph_is ALoop n && n_got n)) (set_ph AClean))
  | LCleanEnd a => Some (upf a (ph_is AClean) (fun n => set_cleaned (set_ph ACleaned n)))
  | LFin a => Some (upf a (ph_is ADone) (fun n => n))
  | TBcast s => Some (fun n => G_bcast s (upf s (fun n => ph_is SRun n && (n_req n || n_got n)) (set_ph SDrain) n))
  | TSupDone s => Some (upf s (fun n => ph_is SDrain n && children_done s l) (set_ph SDone))
  | TDrop a => Some (upf a (ph_is ACleaned) (set_ph ADone))
  end.

(* the record [Model.spawn] appends: marked late when the supervisor task p has already ended *)
Definition newnode (p x : id) (ph : phase) (l : state) : node :=
  mk x (Some p) (existsb (fun n => has_id p n && ph_is SDone n) l) false false false false ph.

Lemma spawn_some : forall p x ph l l', spawn p x ph l = Some l' ->
  l' = l ++ [newnode p x ph l] /\
  (exists pn, In pn l /\ n_id pn = p /\ is_sup pn = true) /\
  (forall n, In n l -> n_id n <> x).
Proof.
  intros p x ph l l' H. unfold spawn in H.
  destruct (existsb (fun n => has_id p n && is_sup n) l) eqn:E1; [|discriminate].
  destruct (existsb (has_id x) l) eqn:E2; [discriminate|]. injection H as <-.
  split; [reflexivity|]. split; [apply existsb_id; exact E1|].
  intros n Hn Hi. assert (existsb (has_id x) l = true); [|congruence].
  apply existsb_exists. exists n. split; [exact Hn | apply N.eqb_eq; exact Hi].
Qed.

Lemma step_cases : forall l e l', step l e = Some l' ->
  (exists p x ph, (e = LSpawnS p x /\ ph = SRun \/ e = LSpawnA p x /\ ph = ASetup) /\
                  spawn p x ph l = Some l') \/
  (exists F, Fof l e = Some F /\ l' = map F l).
Proof.
  intros l e l' H. destruct e; cbn [step] in H.
  1: left; exists p, s, SRun; auto.
  1: left; exists p, a, ASetup; auto.
  all: right; eexists; (split; [reflexivity|]).
  all: try (apply on_some in H as [-> _]; reflexivity).
  destruct (on s _ _ l) as [l1|] eqn:E; [|discriminate]. injection H as <-.
  apply on_some in E as [-> _]. unfold bcast. rewrite map_map. reflexivity.
Qed.

Definition cleaned_ph (n : node) : bool :=
  match n_ph n with ACleaned | ADone => true | _ => false end.
Definition ninv (n : node) : Prop :=
  (cleaned_ph n = true -> n_cleaned n = true) /\ (n_ret n = true -> n_ph n = SDone).

Lemma ph_is_eq {p n} : ph_is p n = true -> n_ph n = p.
Proof. unfold ph_is. destruct (n_ph n), p; intros H; (reflexivity || discriminate H). Qed.

(* the phase diagram of the two kinds of task (the end of cleanup apart, see [upd]); M_bcast and
   M_supdone carry the label because upd_srun / upd_sdone need it; the actor moves do not *)
Inductive moves (l : state) (e : label) (i : id) : phase -> phase -> Prop :=
| M_bcast : e = TBcast i -> moves l e i SRun SDrain
| M_supdone : e = TSupDone i -> children_done i l = true -> moves l e i SDrain SDone
| M_setup : moves l e i ASetup ALoop
| M_ready : moves l e i ALoop ARun
| M_runend : moves l e i ARun ALoop
| M_stop : moves l e i ALoop AStop
| M_break : moves l e i ALoop AClean
| M_clean : moves l e i AStop AClean
| M_drop : moves l e i ACleaned ADone.

(* what step e can make of node n; Upd_got wraps another update because TBcast composes two node
   functions *)
Inductive upd (l : state) (e : label) (n : node) : node -> Prop :=
| Upd_same : upd l e n n
| Upd_req : upd l e n (set_req n)
| Upd_ret : n_ph n = SDone -> upd l e n (set_ret n)
| Upd_ph : forall q, moves l e (n_id n) (n_ph n) q -> upd l e n (set_ph q n)
| Upd_cleaned : e = LCleanEnd (n_id n) -> n_ph n = AClean -> upd l e n (set_cleaned (set_ph ACleaned n))
| Upd_got : forall m, upd l e n m -> upd l e n (set_got m).

Lemma upf_upd : forall l e i g f n,
  (n_id n = i -> g n = true -> upd l e n (f n)) -> upd l e n (upf i g f n).
Proof.
  intros l e i g f n H. unfold upf, has_id. destruct (n_id n =? i) eqn:Ei; [|apply Upd_same].
  destruct (g n) eqn:Eg; [|apply Upd_same]. apply H; [apply N.eqb_eq; exact Ei | reflexivity].
Qed.

Lemma Upd_ph_is {l e n p q} : ph_is p n = true -> moves l e (n_id n) p q -> upd l e n (set_ph q n).
Proof. intros H M. apply Upd_ph. rewrite (ph_is_eq H). exact M. Qed.

Lemma G_bcast_upd : forall l e s n m, upd l e n m -> upd l e n (G_bcast s m).
Proof. intros l e s n m U. unfold G_bcast. destruct (par_is s m && negb (done m)); [apply Upd_got|]; exact U. Qed.

Lemma F_upd {l e F} : Fof l e = Some F -> forall n, upd l e n (F n).
Proof.
  intros H n. destruct e; cbn [Fof] in H; try discriminate H; injection H as <-.
  10: apply G_bcast_upd.
  all: apply upf_upd; intros Hi Hg.
  - apply Upd_req.
  - apply Upd_ret, ph_is_eq. apply andb_prop in Hg as [Hg _]. apply andb_prop in Hg as [Hg _]. exact Hg.
  - apply (Upd_ph_is Hg), M_setup.
  - apply (Upd_ph_is Hg), M_ready.
  - apply (Upd_ph_is Hg), M_runend.
  - apply (Upd_ph_is Hg), M_stop.
  - apply orb_prop in Hg as [Hg|Hg]; [apply (Upd_ph_is Hg), M_clean|].
    apply andb_prop in Hg as [Hg _]. apply (Upd_ph_is Hg), M_break.
  - apply Upd_cleaned; [rewrite Hi; reflexivity | exact (ph_is_eq Hg)].
  - apply Upd_same.
  - apply andb_prop in Hg as [Hg _]. apply (Upd_ph_is Hg), M_bcast. rewrite Hi. reflexivity.
  - apply andb_prop in Hg as [Hg Hc]. apply (Upd_ph_is Hg). rewrite Hi.
    apply M_supdone; [reflexivity | exact Hc].
  - apply (Upd_ph_is Hg), M_drop.
Qed.

Lemma upd_id {l e n m} : upd l e n m -> n_id m = n_id n.
Proof. intros U. induction U; cbn; auto. Qed.
Lemma upd_par {l e n m} : upd l e n m -> n_par m = n_par n.
Proof. intros U. induction U; cbn; auto. Qed.
Lemma upd_late {l e n m} : upd l e n m -> n_late m = n_late n.
Proof. intros U. induction U; cbn; auto. Qed.
Lemma upd_got {l e n m} : upd l e n m -> n_got n = true -> n_got m = true.
Proof. intros U H. induction U; cbn; auto. Qed.
Lemma upd_cleaned {l e n m} : upd l e n m -> n_cleaned n = true -> n_cleaned m = true.
Proof. intros U H. induction U; cbn; auto. Qed.
Lemma upd_cleaned_back {l e n m} : upd l e n m -> n_cleaned m = true ->
  n_cleaned n = true \/ e = LCleanEnd (n_id n).
Proof. intros U. induction U; cbn; auto. Qed.

Lemma upd_sup {l e n m} : upd l e n m -> is_sup m = is_sup n.
Proof.
  intros U. unfold is_sup. induction U as [| | E | q M | _ E | m U IH]; cbn; auto.
  - destruct M; reflexivity.
  - rewrite E. reflexivity.
Qed.
Lemma upd_done {l e n m} : upd l e n m -> done n = true -> done m = true.
Proof.
  intros U. unfold done. induction U as [| | E | q M | _ E | m U IH]; cbn; auto.
  - destruct M; discriminate.
  - rewrite E. discriminate.
Qed.
Lemma upd_cleaned_ph {l e n m} : upd l e n m -> cleaned_ph n = true -> cleaned_ph m = true.
Proof.
  intros U. unfold cleaned_ph. induction U as [| | E | q M | _ E | m U IH]; cbn; auto.
  destruct M; auto.
Qed.
Lemma upd_srun {l e n m} : upd l e n m -> n_ph m <> SRun -> n_ph n <> SRun \/ e = TBcast (n_id n).
Proof.
  intros U. induction U as [| | _ | q M | _ E | m U IH]; cbn; auto; intros _.
  - destruct M as [E | | | | | | | |]; [right; exact E | left; discriminate ..].
  - left. rewrite E. discriminate.
Qed.
Lemma upd_sdone {l e n m} : upd l e n m -> n_ph m = SDone ->
  n_ph n = SDone \/ (e = TSupDone (n_id n) /\ children_done (n_id n) l = true).
Proof.
  intros U. induction U as [| | _ | q M | _ _ | m U IH]; cbn; auto; intros E.
  - rewrite E in M. inversion M; auto.
  - discriminate E.
Qed.
Lemma upd_ninv {l e n m} : upd l e n m -> ninv n -> ninv m.
Proof.
  intros U [Hc Hr]. unfold ninv, cleaned_ph in *.
  induction U as [| | E | q M | _ E | m U IH]; cbn; auto.
  - split; intros Hq.
    + (* a move ends past the cleanup only from ACleaned *)
      revert Hc Hq. destruct M; intros Hc Hq; try discriminate Hq. apply Hc. reflexivity.
    + (* no move leaves SDone *)
      rewrite (Hr Hq) in M. inversion M.
  - split; [reflexivity | intros Hq; rewrite (Hr Hq) in E; discriminate E].
Qed.

Lemma F_cleaned : forall l e F n, Fof l e = Some F -> n_cleaned n = true -> n_cleaned (F n) = true.
Proof. intros l e F n H. exact (upd_cleaned (F_upd H n)). Qed.

Lemma par_is_eq : forall i x, par_is i x = true <-> n_par x = Some i.
Proof.
  intros i x. unfold par_is. destruct (n_par x) as [p|]; [rewrite N.eqb_eq|]; split; congruence.
Qed.

Lemma F_bcast_child : forall l s F x, Fof l (TBcast s) = Some F -> n_par x = Some s ->
  done (F x) = true \/ n_got (F x) = true.
Proof.
  intros l s F x H Hp. injection H as <-. unfold G_bcast. set (y := upf s _ _ x).
  assert (Hy : n_par y = Some s) by (unfold y, upf; destruct (has_id s x && _); exact Hp).
  rewrite (proj2 (par_is_eq s y) Hy). destruct (done y) eqn:E; cbn; auto.
Qed.

(* an ended supervisor task has only finished children among those registered while it was alive *)
Definition I1 (l : state) : Prop := forall s x, In s l -> In x l ->
  n_ph s = SDone -> n_par x = Some (n_id s) -> n_late x = false -> done x = true.
Definition I4 (l : state) : Prop := forall x p, In x l -> n_par x = Some p ->
  (exists y, In y l /\ n_id y = p) /\ (forall y, In y l -> n_id y = p -> is_sup y = true).
Definition Inv (l : state) : Prop := I1 l /\ I4 l /\ Forall ninv l /\ NoDup (map n_id l).

Lemma nodup_id : forall l a b, NoDup (map n_id l) -> In a l -> In b l -> n_id a = n_id b -> a = b.
Proof.
  induction l as [|h t IH]; intros a b Hn Ha Hb E; [contradiction|].
  cbn in Hn. inversion Hn as [|? ? Hnot Hn']; subst.
  destruct Ha as [->|Ha], Hb as [->|Hb]; try reflexivity.
  - exfalso. apply Hnot. rewrite E. apply in_map. exact Hb.
  - exfalso. apply Hnot. rewrite <- E. apply in_map. exact Ha.
  - apply IH; assumption.
Qed.

Lemma NoDup_snoc : forall (A : Type) (l : list A) a, NoDup (l ++ [a]) <-> NoDup l /\ ~ In a l.
Proof. intros A l a. rewrite (NoDup_Add (Add_app a l [])), app_nil_r. reflexivity. Qed.

Lemma ids_map : forall (F : node -> node) l, (forall n, n_id (F n) = n_id n) ->
  map n_id (map F l) = map n_id l.
Proof. intros F l H. rewrite map_map. apply map_ext. exact H. Qed.

Lemma Inv_init : Inv init.
Proof.
  unfold init. split; [|split; [|split]].
  - intros s x [<-|[]] _ E. discriminate E.
  - intros x p [<-|[]] E. discriminate E.
  - constructor; [split; cbn; discriminate | constructor].
  - constructor; [intros [] | constructor].
Qed.

Lemma Inv_spawn : forall p x ph l l', (ph = SRun \/ ph = ASetup) ->
  Inv l -> spawn p x ph l = Some l' -> Inv l'.
Proof.
  intros p x ph l l' Hph [H1 [H4 [Hn Hd]]] H.
  apply spawn_some in H as [-> [[pn [Hpn [Hpi Hps]]] Hfresh]].
  split; [|split; [|split]].
  - intros s y Hs Hy Es Ep El.
    apply in_app_iff in Hs as [Hs|[<-|[]]]; [|destruct Hph; cbn in Es; congruence].
    apply in_app_iff in Hy as [Hy|[<-|[]]]; [exact (H1 s y Hs Hy Es Ep El)|].
    (* the supervisor task has ended, so the new task is marked late *)
    cbn in Ep, El. injection Ep as Ep. rewrite (proj2 (existsb_id p _ l)) in El; [discriminate|].
    exists s. split; [exact Hs|]. split; [symmetry; exact Ep|]. unfold ph_is. rewrite Es. reflexivity.
  - intros c q Hc Hq.
    assert (exists y, In y l /\ n_id y = q /\ is_sup y = true) as [y [Hy [Hyi Hys]]].
    { apply in_app_iff in Hc as [Hc|[<-|[]]].
      - destruct (H4 c q Hc Hq) as [[y [Hy Hyi]] Hall]. exists y. auto.
      - injection Hq as <-. exists pn. auto. }
    split; [exists y; split; [apply in_app_iff; left; exact Hy | exact Hyi]|].
    intros z Hz Hzi. apply in_app_iff in Hz as [Hz|[<-|[]]].
    + rewrite (nodup_id l z y Hd Hz Hy); [exact Hys | congruence].
    + elim (Hfresh y Hy). cbn in Hzi. congruence.
  - apply Forall_app. split; [exact Hn|]. constructor; [|constructor].
    split; cbn; [destruct Hph as [-> | ->]; discriminate | discriminate].
  - rewrite map_app. apply NoDup_snoc. split; [exact Hd|].
    intros Hin. apply in_map_iff in Hin as [n [Hi Hin]]. exact (Hfresh n Hin Hi).
Qed.

Lemma children_done_spec : forall i l x, children_done i l = true -> In x l ->
  n_par x = Some i -> done x = true.
Proof.
  intros i l x H Hin Hp. unfold children_done in H. rewrite forallb_forall in H.
  specialize (H x Hin). rewrite (proj2 (par_is_eq i x) Hp) in H. exact H.
Qed.

Lemma Inv_map : forall l e F, Inv l -> Fof l e = Some F -> Inv (map F l).
Proof.
  intros l e F [H1 [H4 [Hn Hd]]] HF. pose proof (F_upd HF) as U.
  split; [|split; [|split]].
  - intros s' x' Hs' Hx' Es Ep El.
    apply in_map_iff in Hs' as [s [<- Hs]]. apply in_map_iff in Hx' as [x [<- Hx]].
    rewrite (upd_par (U x)), (upd_id (U s)) in Ep. rewrite (upd_late (U x)) in El.
    apply (upd_done (U x)).
    destruct (upd_sdone (U s) Es) as [Es' | [_ Hc]].
    + exact (H1 s x Hs Hx Es' Ep El).
    + exact (children_done_spec _ l x Hc Hx Ep).
  - intros x' p Hx' Hp. apply in_map_iff in Hx' as [x [<- Hx]]. rewrite (upd_par (U x)) in Hp.
    destruct (H4 x p Hx Hp) as [[y [Hy Hi]] Hall]. split.
    + exists (F y). split; [apply in_map; exact Hy|]. rewrite (upd_id (U y)). exact Hi.
    + intros z' Hz' Hi'. apply in_map_iff in Hz' as [z [<- Hz]].
      rewrite (upd_id (U z)) in Hi'. rewrite (upd_sup (U z)). exact (Hall z Hz Hi').
  - apply Forall_map. exact (Forall_impl _ (fun n => upd_ninv (U n)) Hn).
  - rewrite ids_map; [exact Hd|]. intros n. exact (upd_id (U n)).
Qed.

Lemma Inv_step : forall l e l', Inv l -> step l e = Some l' -> Inv l'.
Proof.
  intros l e l' HI Hs. destruct (step_cases l e l' Hs) as [[p [x [ph [Hph Hsp]]]] | [F [HF ->]]].
  - apply (Inv_spawn p x ph l l'); [tauto | exact HI | exact Hsp].
  - exact (Inv_map l e F HI HF).
Qed.

Lemma run_inv : forall P : state -> Prop, (forall l e l', P l -> step l e = Some l' -> P l') ->
  forall es l l', P l -> run l es = Some l' -> P l'.
Proof.
  intros P HP. induction es as [|e r IH]; intros l l' Hl H; cbn in H.
  - injection H as <-. exact Hl.
  - destruct (step l e) as [l1|] eqn:E; [|discriminate]. exact (IH l1 l' (HP l e l1 Hl E) H).
Qed.

Definition reachable (l : state) : Prop := exists es, run init es = Some l.

Lemma reachable_Inv : forall l, reachable l -> Inv l.
Proof. intros l [es H]. exact (run_inv Inv Inv_step es init l Inv_init H). Qed.

(* x is registered (transitively, through registrations made while the supervisor task was
   still alive) under the supervisor with id s *)
Inductive under (l : state) (s : id) : node -> Prop :=
| U_child : forall x, In x l -> n_par x = Some s -> n_late x = false -> under l s x
| U_trans : forall y x, under l s y -> In x l -> n_par x = Some (n_id y) -> n_late x = false -> under l s x.

Lemma under_in : forall l s x, under l s x -> In x l.
Proof. intros l s x H. destruct H; assumption. Qed.

Lemma done_sup : forall n, done n = true -> is_sup n = true -> n_ph n = SDone.
Proof. intros n. unfold done, is_sup. destruct (n_ph n); intros; try discriminate; reflexivity. Qed.
Lemma done_act : forall n, done n = true -> is_sup n = false -> n_ph n = ADone.
Proof. intros n. unfold done, is_sup. destruct (n_ph n); intros; try discriminate; reflexivity. Qed.

Lemma sdone_all_stopped : forall l, Inv l -> forall s, In s l -> n_ph s = SDone ->
  forall x, under l (n_id s) x ->
  done x = true /\ (is_sup x = false -> n_ph x = ADone /\ n_cleaned x = true).
Proof.
  intros l [H1 [H4 [Hn Hd]]] s Hs Es x Hu.
  assert (D : done x = true).
  { induction Hu as [x Hx Hp Hl | y x Hu IH Hx Hp Hl].
    - exact (H1 s x Hs Hx Es Hp Hl).
    - destruct (H4 x (n_id y) Hx Hp) as [_ Hall].
      pose proof (Hall y (under_in l _ y Hu) eq_refl) as Hys.
      exact (H1 y x (under_in l _ y Hu) Hx (done_sup y IH Hys) Hp Hl). }
  split; [exact D|]. intros Hx. pose proof (done_act x D Hx) as Ex. split; [exact Ex|].
  rewrite Forall_forall in Hn. destruct (Hn x (under_in l _ x Hu)) as [Hc _]. apply Hc.
  unfold cleaned_ph. rewrite Ex. reflexivity.
Qed.

Lemma ret_sdone : forall l, Inv l -> forall s, In s l -> n_ret s = true -> n_ph s = SDone.
Proof. intros l [_ [_ [Hn _]]] s Hs Hr. rewrite Forall_forall in Hn. exact (proj2 (Hn s Hs) Hr). Qed.

Lemma stopret_guard : forall l s l', step l (LStopRet s) = Some l' ->
  exists sn, In sn l /\ n_id sn = s /\ n_ph sn = SDone.
Proof.
  intros l s l' H. cbn [step] in H. apply on_some in H as [_ [sn [Hsn [Hid Hg]]]].
  apply andb_prop in Hg as [Hg _]. apply andb_prop in Hg as [Hg _].
  exists sn. auto using ph_is_eq.
Qed.

(* registration order: a task is registered after its supervisor *)
Inductive ordered : state -> Prop :=
| O_nil : ordered []
| O_snoc : forall l x, ordered l -> (forall p, n_par x = Some p -> In p (map n_id l)) -> ordered (l ++ [x]).

Lemma ordered_parent_in : forall l, ordered l -> forall c p, In c l -> n_par c = Some p ->
  In p (map n_id l).
Proof.
  intros l Ho. induction Ho as [|l x Ho IH Hx]; intros c p Hc Hp; [contradiction|].
  rewrite map_app. apply in_app_iff. left.
  apply in_app_iff in Hc as [Hc|[<-|[]]]; [exact (IH c p Hc Hp) | exact (Hx p Hp)].
Qed.

Lemma ordered_map : forall F l, (forall n, n_id (F n) = n_id n) -> (forall n, n_par (F n) = n_par n) ->
  ordered l -> ordered (map F l).
Proof.
  intros F l Hid Hpar Ho. induction Ho as [|l x Ho IH Hx]; [constructor|].
  rewrite map_app. apply O_snoc; [exact IH|]. rewrite Hpar, (ids_map F l Hid). exact Hx.
Qed.

Lemma ordered_step : forall l e l', ordered l -> step l e = Some l' -> ordered l'.
Proof.
  intros l e l' Ho Hs. destruct (step_cases l e l' Hs) as [[p [x [ph [_ Hsp]]]] | [F [HF ->]]].
  - apply spawn_some in Hsp as [-> [[pn [Hpn [Hpi _]]] _]]. apply O_snoc; [exact Ho|].
    intros q Hq. injection Hq as <-. rewrite <- Hpi. apply in_map. exact Hpn.
  - pose proof (F_upd HF) as U.
    apply ordered_map; [| |exact Ho]; intros n; [exact (upd_id (U n)) | exact (upd_par (U n))].
Qed.

Lemma reachable_ordered : forall l, reachable l -> ordered l.
Proof.
  intros l [es H]. apply (run_inv ordered ordered_step es init l); [|exact H].
  apply (O_snoc [] _ O_nil). intros p Hp. discriminate Hp.
Qed.

Lemma no_infinite_descent : forall (P : node -> Prop) l, ordered l -> NoDup (map n_id l) ->
  (forall x, In x l -> P x -> exists c, In c l /\ n_par c = Some (n_id x) /\ P c) ->
  forall x, In x l -> ~ P x.
Proof.
  intros P l Ho. induction Ho as [|l z Ho IH Hz]; intros Hd Hc x Hx; [contradiction|].
  rewrite map_app in Hd. apply NoDup_snoc in Hd as [Hd Hnz].
  assert (HPz : ~ P z).
  { (* a child of the task registered last would be registered before its supervisor *)
    intros HP. destruct (Hc z (in_elt z l []) HP) as [c [Hcin [Hcp _]]]. apply Hnz.
    apply in_app_iff in Hcin as [Hcin|[<-|[]]]; [exact (ordered_parent_in l Ho c _ Hcin Hcp) | exact (Hz _ Hcp)]. }
  apply in_app_iff in Hx as [Hx|[<-|[]]]; [|exact HPz].
  apply (IH Hd); [|exact Hx].
  intros y Hy HPy. destruct (Hc y (in_or_app _ _ _ (or_introl Hy)) HPy) as [c [Hcin R]].
  apply in_app_iff in Hcin as [Hcin|[<-|[]]]; [exists c; split; assumption | destruct R; contradiction].
Qed.

(* steps that need nobody's cooperation: hidden steps of the runtime, and the end of actor
   callbacks (each actor step terminates — the property's proviso), and the select loop taking
   the stop branch when the message is there *)
Definition forced (e : label) : bool :=
  match e with
  | TBcast _ | TSupDone _ | TDrop _ | LSetupEnd _ | LRunEnd _ | LCleanBegin _ | LCleanEnd _ => true
  | _ => false
  end.
Definition quiescent (l : state) : Prop := forall e, forced e = true -> step l e = None.

Definition forced_enabled (l : state) (n : node) : bool :=
  match n_ph n with
  | SRun => n_req n || n_got n
  | SDrain => children_done (n_id n) l
  | ASetup | ARun | AStop | AClean | ACleaned => true
  | ALoop => n_got n
  | SDone | ADone => false
  end.
Definition quiescentb (l : state) : bool := forallb (fun n => negb (forced_enabled l n)) l.

Lemma quiescentb_sound : forall l, quiescentb l = true -> quiescent l.
Proof.
  intros l H e He. unfold quiescentb in H. rewrite forallb_forall in H.
  assert (Q : forall i g f, (forall n, n_id n = i -> g n = true -> forced_enabled l n = true) ->
                            on i g f l = None).
  { intros i g f Hg. destruct (on i g f l) eqn:E; [|reflexivity].
    apply on_some in E as [_ [n [Hn [Hi G]]]]. specialize (H n Hn). rewrite (Hg n Hi G) in H. discriminate H. }
  destruct e; try discriminate He; cbn [step].
  all: rewrite Q; [reflexivity|].
  (* the guard of each forced step names phases in which forced_enabled holds *)
  all: intros n <-; unfold forced_enabled, ph_is; destruct (n_ph n); cbn; intros G;
    first [discriminate G | reflexivity | exact G].
Qed.

Definition forced_of (n : node) : label :=
  match n_ph n with
  | SRun => TBcast (n_id n)
  | SDrain => TSupDone (n_id n)
  | ASetup => LSetupEnd (n_id n)
  | ARun => LRunEnd (n_id n)
  | ALoop | AStop => LCleanBegin (n_id n)
  | AClean => LCleanEnd (n_id n)
  | _ => TDrop (n_id n)
  end.

Lemma forced_enabled_step : forall l n, In n l -> forced_enabled l n = true ->
  forced (forced_of n) = true /\ step l (forced_of n) <> None.
Proof.
  intros l n Hn H. unfold forced_enabled in H. unfold forced_of.
  destruct (n_ph n) eqn:E; try discriminate H; (split; [reflexivity|]); cbn [step].
  1: destruct (on _ _ _ l) eqn:Eo; [discriminate | exfalso; revert Eo].
  (* in each phase the task meets the guard of that step *)
  all: apply (on_enabled _ _ _ l n Hn eq_refl); unfold ph_is; rewrite E; exact H.
Qed.

Lemma quiescent_not_enabled : forall l n, quiescent l -> In n l -> forced_enabled l n = false.
Proof.
  intros l n Hq Hn. destruct (forced_enabled l n) eqn:E; [|reflexivity].
  destruct (forced_enabled_step l n Hn E) as [Hf Hs]. elim Hs. exact (Hq _ Hf).
Qed.

(* what a spawn racing the stop breaks *)
Definition covered (l : state) : Prop := forall x p, In x l -> In p l ->
  n_par x = Some (n_id p) -> n_ph p <> SRun -> done x = true \/ n_got x = true.

Lemma children_not_done : forall i l, children_done i l = false ->
  exists c, In c l /\ n_par c = Some i /\ done c = false.
Proof.
  intros i l H. unfold children_done in H.
  induction l as [|x r IH]; cbn in H; [discriminate|].
  destruct (negb (par_is i x) || done x) eqn:E.
  - destruct (IH H) as [c [Hc R]]. exists c. split; [right; exact Hc | exact R].
  - apply orb_false_iff in E as [E1 E2]. apply negb_false_iff, par_is_eq in E1.
    exists x. split; [left; reflexivity | split; assumption].
Qed.

(* a draining supervisor has a live child, which holds the message, so is itself a supervisor
   that drains: all its other phases have a forced step *)
Lemma quiescent_no_drain : forall l, NoDup (map n_id l) -> ordered l -> covered l -> quiescent l ->
  forall x, In x l -> n_ph x <> SDrain.
Proof.
  intros l Hd Ho Hcov Hq. apply (no_infinite_descent (fun x => n_ph x = SDrain) l Ho Hd).
  intros x Hx Hp. pose proof (quiescent_not_enabled l x Hq Hx) as Ex.
  unfold forced_enabled in Ex. rewrite Hp in Ex.
  destruct (children_not_done _ _ Ex) as [c [Hc [Hcp Hcd]]].
  exists c. split; [exact Hc|]. split; [exact Hcp|].
  assert (Hg : n_got c = true).
  { destruct (Hcov c x Hc Hx Hcp) as [H|H]; [rewrite Hp; discriminate | congruence | exact H]. }
  pose proof (quiescent_not_enabled l c Hq Hc) as Ec. unfold forced_enabled in Ec. unfold done in Hcd.
  rewrite Hg, orb_true_r in Ec. destruct (n_ph c); (reflexivity || discriminate).
Qed.

Lemma quiescent_stop_complete : forall l, Inv l -> ordered l -> covered l -> quiescent l ->
  forall s, In s l -> is_sup s = true -> n_req s = true \/ n_got s = true -> n_ph s = SDone.
Proof.
  intros l [_ [_ [_ Hd]]] Ho Hcov Hq s Hs Hsup Hreq.
  pose proof (quiescent_no_drain l Hd Ho Hcov Hq s Hs) as Hnd.
  pose proof (quiescent_not_enabled l s Hq Hs) as Es. unfold forced_enabled in Es. unfold is_sup in Hsup.
  destruct (n_ph s); try discriminate Hsup; [|contradiction|reflexivity].
  destruct Hreq as [H|H]; rewrite H, ?orb_true_r in Es; discriminate Es.
Qed.

Lemma covered_map : forall l e F, covered l -> Fof l e = Some F -> covered (map F l).
Proof.
  intros l e F Hc HF x' p' Hx' Hp' Hpar Hph. pose proof (F_upd HF) as U.
  apply in_map_iff in Hx' as [x [<- Hx]]. apply in_map_iff in Hp' as [p [<- Hp]].
  rewrite (upd_par (U x)), (upd_id (U p)) in Hpar.
  destruct (upd_srun (U p) Hph) as [D | ->].
  - destruct (Hc x p Hx Hp Hpar D) as [H|H];
      [left; exact (upd_done (U x) H) | right; exact (upd_got (U x) H)].
  - (* p leaves its select loop in this very step: it broadcasts *)
    exact (F_bcast_child l (n_id p) F x HF Hpar).
Qed.

Lemma strict_parent : forall p l q, existsb (fun n => has_id p n && negb (ph_is SRun n)) l = false ->
  In q l -> n_id q = p -> n_ph q = SRun.
Proof.
  intros p l q H Hq Hi. destruct (ph_is SRun q) eqn:E; [exact (ph_is_eq E)|].
  rewrite (proj2 (existsb_id p _ l)) in H; [discriminate|]. exists q. rewrite E. auto.
Qed.

Lemma covered_spawn : forall p x ph l l', Inv l -> covered l ->
  existsb (fun n => has_id p n && negb (ph_is SRun n)) l = false ->
  spawn p x ph l = Some l' -> covered l'.
Proof.
  intros p x ph l l' [_ [H4 _]] Hc Hst Hs.
  apply spawn_some in Hs as [-> [[pn [Hpn [Hpi _]]] Hfresh]].
  intros c q Hcin Hqin Hpar Hq.
  apply in_app_iff in Hcin as [Hcin|[<-|[]]]; apply in_app_iff in Hqin as [Hqin|[<-|[]]].
  - exact (Hc c q Hcin Hqin Hpar Hq).
  - exfalso. cbn in Hpar. destruct (H4 c x Hcin Hpar) as [[y [Hy Hyi]] _]. exact (Hfresh y Hy Hyi).
  - (* the new task's supervisor is still in its select loop *)
    cbn in Hpar. injection Hpar as Hpar. elim Hq. exact (strict_parent p l q Hst Hqin (eq_sym Hpar)).
  - exfalso. cbn in Hpar. injection Hpar as Hpar. apply (Hfresh pn Hpn). congruence.
Qed.

(* runs in which nothing is spawned under a supervisor that has left its select loop *)
Fixpoint srun (l : state) (es : list label) : option state :=
  match es with
  | [] => Some l
  | e :: r => if strict l e then match step l e with Some l' => srun l' r | None => None end else None
  end.

Lemma srun_app : forall a b l, srun l (a ++ b) = match srun l a with Some l1 => srun l1 b | None => None end.
Proof.
  induction a as [|e r IH]; intros b l; cbn [srun app]; [reflexivity|].
  destruct (strict l e); [|reflexivity]. destruct (step l e); [apply IH | reflexivity].
Qed.

Lemma srun_run : forall es l l', srun l es = Some l' -> run l es = Some l'.
Proof.
  induction es as [|e r IH]; intros l l' H; cbn [srun run] in *; [exact H|].
  destruct (strict l e); [|discriminate]. destruct (step l e); [exact (IH _ _ H) | discriminate].
Qed.

Lemma hidden_strict : forall l t, visible t = false -> strict l t = true.
Proof. intros l t H. destruct t; (discriminate H || reflexivity). Qed.

Lemma tau_of_hidden : forall l n t, tau_of l n = Some t -> visible t = false.
Proof.
  intros l n t H. unfold tau_of in H.
  destruct (n_ph n); try discriminate H.
  1: destruct (n_req n || n_got n); [|discriminate H].
  2: destruct (children_done (n_id n) l); [|discriminate H].
  all: injection H as <-; reflexivity.
Qed.
Lemma first_tau_hidden : forall l ns t, first_tau l ns = Some t -> visible t = false.
Proof.
  induction ns as [|n r IH]; intros t H; cbn in H; [discriminate|].
  destruct (tau_of l n) eqn:E; [injection H as <-; exact (tau_of_hidden l n _ E) | exact (IH t H)].
Qed.

Lemma saturate_sound : forall f l l' ts, saturate f l = (l', ts) ->
  srun l ts = Some l' /\ filter visible ts = [].
Proof.
  induction f as [|f IH]; intros l l' ts H; cbn in H.
  - injection H as <- <-. split; reflexivity.
  - destruct (first_tau l l) as [t|] eqn:Et; [|injection H as <- <-; split; reflexivity].
    destruct (step l t) as [l1|] eqn:Es; [|injection H as <- <-; split; reflexivity].
    destruct (saturate f l1) as [l2 ts2] eqn:E2. injection H as <- <-.
    destruct (IH l1 l2 ts2 E2) as [Hr Hf]. pose proof (first_tau_hidden l l t Et) as Hv.
    cbn. rewrite (hidden_strict l t Hv), Es, Hv. split; assumption.
Qed.

Lemma vstep_sound : forall l e l' es, vstep l e = Some (l', es) ->
  srun l es = Some l' /\ filter visible es = [e].
Proof.
  intros l e l' es H. unfold vstep in H.
  destruct (visible e) eqn:Ev; [|discriminate]. destruct (strict l e) eqn:Est; [|discriminate]. cbn [andb] in H.
  destruct (step l e) as [l1|] eqn:Es; [|discriminate].
  destruct (saturate (fuel_of l1) l1) as [l2 ts] eqn:E2. injection H as <- <-.
  destruct (saturate_sound _ _ _ _ E2) as [Hr Hf]. cbn. rewrite Est, Es, Ev, Hf. split; [exact Hr | reflexivity].
Qed.

Lemma accept_sound : forall tr l l' es, accept l tr = Some (l', es) ->
  srun l es = Some l' /\ filter visible es = tr.
Proof.
  induction tr as [|e r IH]; intros l l' es H; cbn in H.
  - injection H as <- <-. split; reflexivity.
  - destruct (vstep l e) as [[l1 es1]|] eqn:Ev; [|discriminate].
    destruct (accept l1 r) as [[l2 es2]|] eqn:Ea; [|discriminate]. injection H as <- <-.
    destruct (vstep_sound l e l1 es1 Ev) as [Hr Hf]. destruct (IH l1 l2 es2 Ea) as [Hr2 Hf2].
    rewrite srun_app, Hr, filter_app, Hf, Hf2. split; [exact Hr2 | reflexivity].
Qed.

Definition registered (l : state) (pm : list pent) : Prop := forall x p b, In (x, p, b) pm ->
  exists n, In n l /\ n_id n = x /\ n_par n = Some p /\ b = negb (is_sup n).
Definition nolate (l : state) : Prop := forall n, In n l -> n_late n = false.

Definition ents (e : label) : list pent :=
  match e with LSpawnS p x => [(x, p, false)] | LSpawnA p x => [(x, p, true)] | _ => [] end.
Definition cleans (e : label) (cl : list id) : list id :=
  match e with LCleanEnd a => a :: cl | _ => cl end.
Definition actor_of (e : label) : option id :=
  match e with
  | LSetupEnd a | LReady a | LRunEnd a | LStateStop a | LCleanBegin a | LCleanEnd a => Some a
  | _ => None
  end.

Lemma pstep_pm : forall mt q e, p_pm (pstep mt q e) = p_pm q ++ ents e.
Proof. intros mt q e. destruct e; cbn; rewrite ?app_nil_r; reflexivity. Qed.
Lemma pstep_cl : forall mt q e, p_cl (pstep mt q e) = cleans e (p_cl q).
Proof. intros mt q e. destruct e; reflexivity. Qed.
Lemma pstep_clean_ok : forall mt q e, p_clean_ok (pstep mt q e) =
  p_clean_ok q && match e with LStopRet s => all_under (p_pm q) s (p_cl q) | _ => true end.
Proof. intros mt q e. destruct e; cbn; rewrite ?andb_true_r; reflexivity. Qed.
Lemma pstep_once_ok : forall mt q e, p_once_ok (pstep mt q e) =
  p_once_ok q && match actor_of e with Some a => negb (memb a (p_cl q)) | None => true end.
Proof. intros mt q e. destruct e; cbn; rewrite ?andb_true_r; reflexivity. Qed.

Lemma memb_cleans : forall x e cl, memb x (cleans e cl) = true <-> memb x cl = true \/ e = LCleanEnd x.
Proof.
  intros x e cl. destruct e; try (split; [auto | intros [H|H]; [exact H | discriminate H]]).
  cbn. rewrite orb_true_iff, N.eqb_eq. split; intros [H|H]; auto.
  - right. rewrite H. reflexivity.
  - left. injection H as ->. reflexivity.
Qed.

(* what strict runs keep invariant: facts about the state alone (s_inv, s_nolate, s_cov) and its
   relation to the trace scanner's spawn map and cleaned list.  The scanner facts do not rest on
   s_cov; it is carried here so that strict_run_covered needs no induction of its own. *)
Record sim (l : state) (pm : list pent) (cl : list id) : Prop := {
  s_inv : Inv l;
  s_nolate : nolate l;
  s_cov : covered l;
  s_pm : registered l pm;
  s_cl1 : forall n, In n l -> n_cleaned n = true -> memb (n_id n) cl = true;
  s_cl2 : forall a, memb a cl = true -> exists n, In n l /\ n_id n = a /\ cleaned_ph n = true }.

Lemma sim_map : forall l pm cl e F, sim l pm cl -> Fof l e = Some F -> step l e = Some (map F l) ->
  sim (map F l) pm (cleans e cl).
Proof.
  intros l pm cl e F [Hi Hl Hcv Hp H1 H2] HF Hs. pose proof (F_upd HF) as U. split.
  - exact (Inv_map l e F Hi HF).
  - intros n' Hn'. apply in_map_iff in Hn' as [n [<- Hn]]. rewrite (upd_late (U n)). exact (Hl n Hn).
  - exact (covered_map l e F Hcv HF).
  - intros x p b Hin. destruct (Hp x p b Hin) as [n [Hn R]]. exists (F n). split; [apply in_map; exact Hn|].
    rewrite (upd_id (U n)), (upd_par (U n)), (upd_sup (U n)). exact R.
  - intros n' Hn' Hc. apply in_map_iff in Hn' as [n [<- Hn]]. rewrite (upd_id (U n)).
    apply memb_cleans. destruct (upd_cleaned_back (U n) Hc) as [Hc' | He]; [left; exact (H1 n Hn Hc') | right; exact He].
  - intros a Ha. apply memb_cleans in Ha as [Ha | ->].
    + destruct (H2 a Ha) as [n [Hn [Hid Hc]]]. exists (F n). split; [apply in_map; exact Hn|].
      split; [rewrite (upd_id (U n)); exact Hid | exact (upd_cleaned_ph (U n) Hc)].
    + (* the actor whose cleanup ends here *)
      cbn [step] in Hs. apply on_some in Hs as [_ [m [Hm [Hid Hg]]]]. exists (F m). split; [apply in_map; exact Hm|].
      split; [rewrite (upd_id (U m)); exact Hid|].
      injection HF as <-. unfold upf, has_id. rewrite Hid, N.eqb_refl, Hg. reflexivity.
Qed.

Lemma sim_spawn : forall l pm cl p x ph l', (ph = SRun \/ ph = ASetup) -> sim l pm cl ->
  existsb (fun n => has_id p n && negb (ph_is SRun n)) l = false ->
  spawn p x ph l = Some l' ->
  sim l' (pm ++ [(x, p, negb (is_sup (newnode p x ph l)))]) cl.
Proof.
  intros l pm cl p x ph l' Hph [Hi Hl Hcv Hp H1 H2] Hst Hs.
  pose proof (Inv_spawn p x ph l l' Hph Hi Hs) as Hi'.
  pose proof (covered_spawn p x ph l l' Hi Hcv Hst Hs) as Hcv'.
  apply spawn_some in Hs as [-> _]. split.
  - exact Hi'.
  - intros n Hn. apply in_app_iff in Hn as [Hn|[<-|[]]]; [exact (Hl n Hn)|]. cbn.
    (* its supervisor is in its select loop, so has not ended *)
    destruct (existsb (fun n => has_id p n && ph_is SDone n) l) eqn:E; [|reflexivity].
    apply existsb_id in E as [s [Hs' [Hsi Hsp]]]. apply ph_is_eq in Hsp.
    rewrite (strict_parent p l s Hst Hs' Hsi) in Hsp. discriminate Hsp.
  - exact Hcv'.
  - intros y q b Hin. apply in_app_iff in Hin as [Hin|[Hin|[]]].
    + destruct (Hp y q b Hin) as [n [Hn R]]. exists n. split; [apply in_app_iff; left; exact Hn | exact R].
    + injection Hin as <- <- <-. exists (newnode p x ph l). split; [apply in_elt | repeat split].
  - intros n Hn Hc. apply in_app_iff in Hn as [Hn|[<-|[]]]; [exact (H1 n Hn Hc) | discriminate Hc].
  - intros a Ha. destruct (H2 a Ha) as [n [Hn R]]. exists n. split; [apply in_app_iff; left; exact Hn | exact R].
Qed.

Lemma Fof_ents : forall l e F, Fof l e = Some F -> ents e = [].
Proof. intros l e F H. destruct e; (discriminate H || reflexivity). Qed.

Lemma sim_step : forall l pm cl e l', sim l pm cl -> strict l e = true -> step l e = Some l' ->
  sim l' (pm ++ ents e) (cleans e cl).
Proof.
  intros l pm cl e l' HS Hst Hs.
  destruct (step_cases l e l' Hs) as [[p [x [ph [[[-> ->] | [-> ->]] Hsp]]]] | [F [HF ->]]].
  - apply negb_true_iff in Hst. exact (sim_spawn l pm cl p x SRun l' (or_introl eq_refl) HS Hst Hsp).
  - apply negb_true_iff in Hst. exact (sim_spawn l pm cl p x ASetup l' (or_intror eq_refl) HS Hst Hsp).
  - rewrite (Fof_ents l e F HF), app_nil_r. exact (sim_map l pm cl e F HS HF Hs).
Qed.

Lemma actor_guard : forall l e a l', actor_of e = Some a -> step l e = Some l' ->
  exists m, In m l /\ n_id m = a /\ cleaned_ph m = false.
Proof.
  intros l e a l' Ha Hs. destruct e; try discriminate Ha; injection Ha as ->; cbn [step] in Hs;
    apply on_some in Hs as [_ [m [Hm [Hid Hg]]]]; exists m; (split; [exact Hm|]); (split; [exact Hid|]);
    revert Hg; unfold cleaned_ph, ph_is; destruct (n_ph m); (reflexivity || discriminate).
Qed.

Lemma not_yet_cleaned : forall l pm cl e a l', sim l pm cl -> actor_of e = Some a ->
  step l e = Some l' -> memb a cl = false.
Proof.
  intros l pm cl e a l' HS Ha Hs. destruct (memb a cl) eqn:E; [|reflexivity]. exfalso.
  destruct (actor_guard l e a l' Ha Hs) as [m [Hm [Hid Hc]]].
  destruct (s_cl2 _ _ _ HS a E) as [n [Hn [Hid' Hc']]].
  destruct (s_inv _ _ _ HS) as [_ [_ [_ Hd]]].
  assert (n = m) by (apply (nodup_id l n m Hd Hn Hm); congruence). subst n. congruence.
Qed.

Lemma plookup_in : forall pm x p, plookup x pm = Some p -> exists b, In (x, p, b) pm.
Proof.
  induction pm as [|[[y q] b] r IH]; intros x p H; cbn in H; [discriminate|].
  destruct (y =? x) eqn:E.
  - injection H as <-. apply N.eqb_eq in E as ->. exists b. left. reflexivity.
  - destruct (IH x p H) as [b' Hin]. exists b'. right. exact Hin.
Qed.

(* the scanner's walk up the spawn map follows `under` *)
Lemma anc_under : forall l pm s, nolate l -> registered l pm -> forall fuel n p, In n l -> n_par n = Some p ->
  anc fuel pm s p = true -> under l s n.
Proof.
  intros l pm s Hl Hpm. induction fuel as [|f IH]; intros n p Hn Hp H; cbn in H; apply orb_true_iff in H as [H|H].
  1, 3: apply N.eqb_eq in H as ->; exact (U_child l s n Hn Hp (Hl n Hn)).
  - discriminate H.
  - destruct (plookup p pm) as [q|] eqn:E; [|discriminate].
    destruct (plookup_in _ _ _ E) as [b Hin]. destruct (Hpm p q b Hin) as [y [Hy [Hid [Hq _]]]].
    apply (U_trans l s y n (IH y q Hy Hq H) Hn); [rewrite Hid; exact Hp | exact (Hl n Hn)].
Qed.

Lemma stopret_all_under : forall l pm cl s l', sim l pm cl -> step l (LStopRet s) = Some l' ->
  all_under pm s cl = true.
Proof.
  intros l pm cl s l' HS Hs. destruct (stopret_guard l s l' Hs) as [sn [Hsn [Hid Hph]]].
  unfold all_under. apply forallb_forall. intros [[x p] b] Hin.
  destruct (b && anc (length pm) pm s p) eqn:E; [|reflexivity]. cbn.
  apply andb_true_iff in E as [-> Ha].
  destruct (s_pm _ _ _ HS x p true Hin) as [n [Hn [<- [Hp Hb]]]].
  pose proof (anc_under l pm s (s_nolate _ _ _ HS) (s_pm _ _ _ HS) _ n p Hn Hp Ha) as Hu. rewrite <- Hid in Hu.
  destruct (sdone_all_stopped l (s_inv _ _ _ HS) sn Hsn Hph n Hu) as [_ Hc].
  apply (s_cl1 _ _ _ HS n Hn), Hc. destruct (is_sup n); [discriminate Hb | reflexivity].
Qed.

Definition R (l : state) (q : pst) : Prop :=
  sim l (p_pm q) (p_cl q) /\ p_clean_ok q = true /\ p_once_ok q = true.

Lemma R_init : R init p0.
Proof.
  split; [|split; reflexivity]. split.
  - exact Inv_init.
  - intros n [<-|[]]. reflexivity.
  - intros x p [<-|[]] [<-|[]] H. discriminate.
  - intros x p b [].
  - intros n [<-|[]]. cbn. discriminate.
  - cbn. discriminate.
Qed.

Lemma R_step : forall mt l q e l1, R l q -> strict l e = true -> step l e = Some l1 ->
  R l1 (pstep mt q e).
Proof.
  intros mt l q e l1 [HS [Hc Ho]] Hst Hs. split; [|split].
  - rewrite pstep_pm, pstep_cl. exact (sim_step l _ _ e l1 HS Hst Hs).
  - rewrite pstep_clean_ok, Hc. destruct e; try reflexivity. exact (stopret_all_under l _ _ s l1 HS Hs).
  - rewrite pstep_once_ok, Ho. destruct (actor_of e) as [a|] eqn:Ea; [|reflexivity].
    rewrite (not_yet_cleaned l _ _ e a l1 HS Ea Hs). reflexivity.
Qed.

Lemma R_srun : forall mt es l q l', R l q -> srun l es = Some l' -> R l' (fold_left (pstep mt) es q).
Proof.
  intros mt. induction es as [|e r IH]; intros l q l' HR H; cbn [srun] in H.
  - injection H as <-. exact HR.
  - destruct (strict l e) eqn:Est; [|discriminate]. destruct (step l e) as [l1|] eqn:Es; [|discriminate].
    exact (IH l1 _ l' (R_step mt l q e l1 HR Est Es) H).
Qed.

Lemma pscan_visible : forall mt es q,
  fold_left (pstep mt) (filter visible es) q = fold_left (pstep mt) es q.
Proof.
  intros mt. induction es as [|e r IH]; intros q; [reflexivity|]. destruct e; cbn; apply IH.
Qed.

(* in EVERY strict run (hidden steps interleaved in any way, not only as early as possible) the
   logged events satisfy the safety part of the trace-level property *)
Theorem strict_run_clean : forall es l, srun init es = Some l ->
  pcheck_clean (filter visible es) = true.
Proof.
  intros es l H. destruct (R_srun true es init p0 l R_init H) as [_ [Hc Ho]].
  unfold pcheck_clean, pscan. rewrite pscan_visible, Hc, Ho. reflexivity.
Qed.

Lemma strict_run_covered : forall es l, srun init es = Some l -> covered l.
Proof. intros es l H. exact (s_cov _ _ _ (proj1 (R_srun true es init p0 l R_init H))). Qed.

Lemma accept_state : forall tr l es, accept init tr = Some (l, es) -> reachable l /\ covered l.
Proof.
  intros tr l es H. destruct (accept_sound tr init l es H) as [Hr _].
  split; [exists es; exact (srun_run es init l Hr) | exact (strict_run_covered es l Hr)].
Qed.
