(* LC (every live entry equals its recomputation from its direct groups' stored MemberOf) is the state
   invariant.  apply_memberof restores LC provided every live entry outside the affected set is consistent
   in the changed graph (Covered), and the affected set of each operation gives Covered.  LC with a ranking
   gives Exact; without one it does not: the two refuting inputs stand at the end. *)
From Coq Require Import List NArith Bool Lia.
Import ListNotations.
Require Import KV.C17.Model.
Open Scope N_scope.

Lemma ninsert_in : forall x y l, In x (ninsert y l) <-> In x (y :: l).
Proof.
  intros x y l. induction l as [|z r IH]; cbn [ninsert]; [reflexivity|].
  destruct (y ?= z) eqn:E.
  - apply N.compare_eq in E. subst z. cbn. tauto.
  - reflexivity.
  - cbn [In]. rewrite IH. cbn. tauto.
Qed.
Lemma nunion_in : forall x a b, In x (nunion a b) <-> In x a \/ In x b.
Proof.
  intros x a b. induction a as [|y r IH]; cbn [nunion fold_right]; [cbn; tauto|].
  fold (nunion r b). rewrite ninsert_in. cbn [In]. rewrite IH. tauto.
Qed.
Lemma nsort_in : forall x l, In x (nsort l) <-> In x l.
Proof. intros x l. change (nsort l) with (nunion l []). rewrite nunion_in. cbn. tauto. Qed.
Lemma nmem_in : forall x l, nmem x l = true <-> In x l.
Proof.
  intros x l. unfold nmem. rewrite existsb_exists. split.
  - intros [y [Hy E]]. apply N.eqb_eq in E. subst. exact Hy.
  - intros H. exists x. split; [exact H | apply N.eqb_refl].
Qed.
Lemma nmem_false : forall x l, nmem x l = false <-> ~ In x l.
Proof. intros x l. rewrite <- nmem_in. symmetry. apply not_true_iff_false. Qed.
Lemma nminus_in : forall x l d, In x (nminus l d) <-> In x l /\ ~ In x d.
Proof.
  intros x l d. unfold nminus. rewrite filter_In, negb_true_iff, nmem_false. tauto.
Qed.
Lemma nmem_nminus : forall u l D, ~ In u D -> nmem u (nminus l D) = nmem u l.
Proof. intros u l D H. apply eq_true_iff_eq. rewrite !nmem_in, nminus_in. tauto. Qed.
Lemma symdiff_in : forall x a b, In x (symdiff a b) <-> (In x a /\ ~ In x b) \/ (In x b /\ ~ In x a).
Proof. intros x a b. unfold symdiff. rewrite in_app_iff, !nminus_in. tauto. Qed.
Lemma nmem_symdiff : forall u a b, ~ In u (symdiff a b) -> nmem u b = nmem u a.
Proof.
  intros u a b. rewrite symdiff_in, <- !nmem_false, <- !nmem_in.
  destruct (nmem u a), (nmem u b); intuition congruence.
Qed.
Lemma subset_in : forall a b, subset a b = true <-> forall x, In x a -> In x b.
Proof.
  intros a b. unfold subset. rewrite forallb_forall.
  split; intros H x Hx; apply nmem_in, H, Hx.
Qed.
Lemma leqb_eq : forall a b, leqb a b = true -> a = b.
Proof.
  induction a as [|x r IH]; destruct b as [|y q]; cbn [leqb]; intros H; try discriminate; [reflexivity|].
  apply andb_true_iff in H. destruct H as [E H]. apply N.eqb_eq in E. subst. f_equal. apply IH, H.
Qed.
Lemma leqb_refl : forall a, leqb a a = true.
Proof. induction a as [|x r IH]; cbn [leqb]; [reflexivity|]. rewrite N.eqb_refl, IH. reflexivity. Qed.

Definition isparent (s : state) (g u : N) : Prop := exists p, In p s /\ eid p = g /\ isp u p = true.

Inductive reach (s : state) : N -> N -> Prop :=
| r_direct : forall g u, isparent s g u -> reach s g u
| r_step : forall g p u, reach s g p -> isparent s p u -> reach s g u.

Definition Exact (s : state) : Prop :=
  forall e, In e s -> elive e = true ->
    (forall g, In g (edmo e) <-> isparent s g (eid e)) /\ (forall g, In g (emo e) <-> reach s g (eid e)).

(* (d, m) is what do_group_memberof computes for u in state s *)
Definition fits (s : state) (u : N) (d m : list N) : Prop :=
  (forall g, In g d <-> isparent s g u)
  /\ (forall g, In g m <-> isparent s g u \/ exists p, In p s /\ isp u p = true /\ In g (emo p)).
Definition cons (s : state) (e : ent) : Prop := fits s (eid e) (edmo e) (emo e).
Definition LC (s : state) : Prop := forall e, In e s -> elive e = true -> cons s e.

Lemma isp_true : forall u p,
  isp u p = true <-> elive p = true /\ egrp p = true /\ In u (emem p ++ edyn p).
Proof.
  intros u p. unfold isp, lists. rewrite !andb_true_iff, orb_true_iff, !nmem_in, in_app_iff. tauto.
Qed.
Lemma isp_live : forall u p, isp u p = true -> elive p = true.
Proof. intros u p H. apply isp_true in H. tauto. Qed.

Lemma parents_in : forall s u g, In g (parents s u) <-> isparent s g u.
Proof.
  intros s u g. unfold parents, pgroups, isparent. rewrite nsort_in, in_map_iff. split.
  - intros [p [E H]]. apply filter_In in H. exists p. tauto.
  - intros [p [H [E I]]]. exists p. split; [exact E|]. apply filter_In. tauto.
Qed.

Lemma recompute_fits : forall s u, fits s u (fst (recompute s u)) (snd (recompute s u)).
Proof.
  intros s u. unfold recompute. cbn [fst snd]. split; intros g.
  - apply (parents_in s u g).
  - rewrite nunion_in. fold (parents s u). rewrite parents_in, in_flat_map. unfold pgroups. split.
    + intros [[p [H I]]|H]; [right|left; exact H]. apply filter_In in H. exists p. tauto.
    + intros [H|[p [H [I J]]]]; [right; exact H|left]. exists p. split; [apply filter_In; tauto|exact J].
Qed.

(* What do_group_memberof computes for u depends on the state only through the ids and the MemberOf of
   the direct groups of u.  f may also cut every MemberOf down to a set `keep` that contains all direct
   groups of u (refint::remove_references does that), if d and m are cut down in the same way. *)
Lemma fits_map_keep : forall (keep : N -> Prop) f s u d m d' m',
  (forall p, In p s -> eid (f p) = eid p /\ isp u (f p) = isp u p) ->
  (forall p, In p s -> isp u p = true ->
     keep (eid p) /\ forall g, In g (emo (f p)) <-> In g (emo p) /\ keep g) ->
  (forall g, In g d' <-> In g d /\ keep g) -> (forall g, In g m' <-> In g m /\ keep g) ->
  fits s u d m -> fits (map f s) u d' m'.
Proof.
  intros keep f s u d m d' m' G K Hd Hm [F1 F2].
  assert (P : forall g, isparent (map f s) g u <-> isparent s g u).
  { intros g. unfold isparent. split.
    - intros [p' [H [E I]]]. apply in_map_iff in H. destruct H as [p [<- H]]. exists p.
      destruct (G p H) as [A B]. rewrite A in E. rewrite B in I. tauto.
    - intros [p [H [E I]]]. exists (f p). destruct (G p H) as [A B]. rewrite A, B. auto using in_map. }
  assert (PK : forall g, isparent s g u -> keep g).
  { intros g [p [H [<- I]]]. apply K; assumption. }
  split; intros g.
  - rewrite Hd, F1, P. split; [tauto | auto].
  - rewrite Hm, F2, P. split.
    + intros [[H|[p [H [I J]]]] Kg]; [left; exact H | right]. exists (f p).
      rewrite (proj2 (G p H)). split; [apply in_map, H|]. split; [exact I|]. apply K; auto.
    + intros [H|[p' [H [I J]]]]; [split; [left; exact H | apply PK, H]|].
      apply in_map_iff in H. destruct H as [p [<- H]]. rewrite (proj2 (G p H)) in I.
      apply (K p H I) in J. split; [right; exists p|]; tauto.
Qed.

Lemma fits_map : forall f s u d m,
  (forall p, In p s ->
     eid (f p) = eid p /\ isp u (f p) = isp u p /\ (isp u p = true -> emo (f p) = emo p)) ->
  fits s u d m -> fits (map f s) u d m.
Proof.
  intros f s u d m K. apply (fits_map_keep (fun _ => True)); try tauto.
  - intros p Hp. split; apply K, Hp.
  - intros p Hp Ip. destruct (K p Hp) as [_ [_ E]]. rewrite (E Ip). tauto.
Qed.

Lemma fits_extend : forall s s1 u d m,
  (forall p, In p s -> In p s1) -> (forall p, In p s1 -> isp u p = true -> In p s) ->
  fits s u d m -> fits s1 u d m.
Proof.
  intros s s1 u d m K1 K2 [F1 F2].
  assert (P : forall g, isparent s1 g u <-> isparent s g u).
  { intros g. split; intros [p [H [E J]]]; exists p; auto. }
  split; intros g.
  - rewrite F1. symmetry. apply P.
  - rewrite F2, P. split; (intros [H|[p [H [J L]]]]; [left; exact H | right; exists p; auto]).
Qed.

(* One pass of the loop and the final leaf pass are this map, at inwork W and at inleaf all: the selected
   entries are recomputed, all of them from the state s at the start of the pass. *)
Definition refresh (c : ent -> bool) (s : state) (e : ent) : ent :=
  if c e then set_mo e (recompute s (eid e)) else e.

Lemma refresh_graph : forall c s e u,
  eid (refresh c s e) = eid e /\ egrp (refresh c s e) = egrp e /\ elive (refresh c s e) = elive e
  /\ isp u (refresh c s e) = isp u e.
Proof. intros c s e u. unfold refresh. destruct (c e); repeat split. Qed.

Lemma refresh_cons : forall c s e,
  c e = true \/ cons s e ->
  (forall p, In p s -> isp (eid e) p = true -> emo (refresh c s p) = emo p) ->
  cons (map (refresh c s) s) (refresh c s e).
Proof.
  intros c s e H K.
  assert (F : fits s (eid e) (edmo (refresh c s e)) (emo (refresh c s e))).
  { unfold refresh. destruct (c e); [apply recompute_fits|]. destruct H; [discriminate | assumption]. }
  unfold cons. destruct (refresh_graph c s e (eid e)) as [-> _]. revert F. apply fits_map.
  intros p Hp. destruct (refresh_graph c s p (eid e)) as [A [_ [_ B]]]. auto.
Qed.

(* a changed group puts its members and dynmembers on the next work list *)
Lemma stripe_next : forall s W s1 W1 u p, stripe s W = (s1, W1) ->
  In p s -> isp u p = true -> ~ In u W1 -> emo (refresh (inwork W) s p) = emo p.
Proof.
  intros s W s1 W1 u p E Hp Ip Nu. unfold refresh. destruct (inwork W p) eqn:Wp; [|reflexivity].
  destruct (changed p (recompute s (eid p))) eqn:C.
  - exfalso. apply Nu. injection E as _ <-. apply nsort_in, in_flat_map. exists p. split; [exact Hp|].
    rewrite Wp, C. apply isp_true in Ip. apply Ip.
  - unfold changed in C. apply negb_false_iff, andb_true_iff in C. symmetry. apply leqb_eq, C.
Qed.

(* loop invariant: a live entry is consistent unless it is still to be done - a group on the work list,
   or a non-group among the affected uuids, which wait for the leaf pass *)
Definition LoopInv (s : state) (W all : list N) : Prop :=
  forall e, In e s -> elive e = true -> ~ In (eid e) (if egrp e then W else all) -> cons s e.

Lemma stripe_inv : forall s W all s1 W1,
  LoopInv s W all -> stripe s W = (s1, W1) -> LoopInv s1 W1 (nunion W1 all).
Proof.
  intros s W all s1 W1 HI E. assert (K := fun u p => stripe_next s W s1 W1 u p E).
  unfold stripe in E. injection E as <- _. fold (refresh (inwork W) s).
  intros e' He' Le' Ne'. apply in_map_iff in He'. destruct He' as [e [<- He]].
  destruct (refresh_graph (inwork W) s e (eid e)) as [Eid [Eg [El _]]].
  rewrite Eid, Eg in Ne'. rewrite El in Le'.
  assert (N1 : ~ In (eid e) W1) by (destruct (egrp e); [exact Ne' | rewrite nunion_in in Ne'; tauto]).
  apply refresh_cons; [|intros p Hp Ip; exact (K _ p Hp Ip N1)].
  destruct (inwork W e) eqn:We; [left; reflexivity | right]. apply (HI e He Le').
  unfold inwork in We. rewrite Le' in We. destruct (egrp e); cbn in We.
  - apply nmem_false, We.
  - rewrite nunion_in in Ne'. tauto.
Qed.

Lemma leaves_lc : forall s all, LoopInv s [] all -> LC (leaves s all).
Proof.
  intros s all HI e' He' Le'. unfold leaves in *. fold (refresh (inleaf all) s) in *.
  apply in_map_iff in He'. destruct He' as [e [<- He]].
  destruct (refresh_graph (inleaf all) s e (eid e)) as [_ [_ [El _]]]. rewrite El in Le'.
  apply refresh_cons.
  - destruct (inleaf all e) eqn:Il; [left; reflexivity | right]. apply (HI e He Le').
    unfold inleaf in Il. rewrite Le' in Il. destruct (egrp e); cbn in Il; [intros [] | apply nmem_false, Il].
  - (* direct groups are groups: the leaf pass leaves them alone *)
    intros p _ Ip. apply isp_true in Ip. destruct Ip as [_ [Gp _]].
    unfold refresh, inleaf. rewrite Gp, andb_false_r. reflexivity.
Qed.

Lemma loop_rule : forall P : state -> list N -> list N -> Prop,
  (forall s W all s1 W1, P s W all -> stripe s W = (s1, W1) -> P s1 W1 (nunion W1 all)) ->
  forall fuel s W all s1 all1, P s W all -> loop fuel s W all = Some (s1, all1) -> P s1 [] all1.
Proof.
  intros P HP. induction fuel as [|f IH]; intros s W all s1 all1 H E;
    destruct W as [|w W']; cbn [loop] in E; try discriminate E.
  1, 2: injection E as <- <-; exact H.
  destruct (stripe s (w :: W')) as [s2 W2] eqn:S. eapply IH; [|exact E]. eapply HP; eassumption.
Qed.

Lemma apply_rule : forall (P : state -> list N -> list N -> Prop) (Q : state -> Prop),
  (forall s W all s1 W1, P s W all -> stripe s W = (s1, W1) -> P s1 W1 (nunion W1 all)) ->
  (forall s all, P s [] all -> Q (leaves s all)) ->
  forall fuel s aff s1, P s (nsort aff) (nsort aff) -> apply_memberof fuel s aff = Some s1 -> Q s1.
Proof.
  intros P Q HS HL fuel s aff s1 H E. unfold apply_memberof in E.
  destruct (loop fuel s (nsort aff) (nsort aff)) as [[s2 all]|] eqn:L; [|discriminate].
  injection E as <-. eapply HL, loop_rule; eassumption.
Qed.

Definition Covered (s : state) (aff : list N) : Prop :=
  forall e, In e s -> elive e = true -> ~ In (eid e) aff -> cons s e.

Lemma apply_lc : forall fuel s aff s1,
  Covered s aff -> apply_memberof fuel s aff = Some s1 -> LC s1.
Proof.
  intros fuel s aff s1 C. apply (apply_rule LoopInv LC stripe_inv leaves_lc).
  intros e He Le Na. apply C; [exact He | exact Le |].
  destruct (egrp e); rewrite nsort_in in Na; exact Na.
Qed.

Lemma lc_dmo_exact : forall s, LC s -> forall e, In e s -> elive e = true ->
  forall g, In g (edmo e) <-> isparent s g (eid e).
Proof. intros s H e He Le. destruct (H e He Le) as [D _]. exact D. Qed.

Lemma lc_mo_complete : forall s, LC s -> forall e, In e s -> elive e = true ->
  forall g, reach s g (eid e) -> In g (emo e).
Proof.
  intros s H e He Le g R. remember (eid e) as u eqn:Eu. revert e He Le Eu.
  induction R as [g u P | g p u R IH P]; intros e He Le ->; destruct (H e He Le) as [_ M]; apply M.
  - left. exact P.
  - right. destruct P as [pe [Hp [Ep Ip]]]. exists pe. split; [exact Hp|]. split; [exact Ip|].
    apply IH; [exact Hp | eapply isp_live, Ip | symmetry; exact Ep].
Qed.

Definition Ranked (s : state) : Prop :=
  exists rank : N -> nat, forall p u, isparent s p u -> (rank p < rank u)%nat.

(* every stored MemberOf value is justified by a chain: induction on a bound n of the rank *)
Lemma lc_mo_sound_ranked : forall s (rank : N -> nat), LC s ->
  (forall p u, isparent s p u -> (rank p < rank u)%nat) ->
  forall n e, (rank (eid e) < n)%nat -> In e s -> elive e = true ->
  forall g, In g (emo e) -> reach s g (eid e).
Proof.
  intros s rank H Rk. induction n as [|n IH]; intros e Hn He Le g Hg; [lia|].
  destruct (H e He Le) as [_ M]. apply M in Hg. destruct Hg as [P|[p [Hp [Ip Jp]]]].
  - apply r_direct, P.
  - assert (P : isparent s (eid p) (eid e)) by (exists p; tauto).
    apply r_step with (p := eid p); [|exact P].
    apply IH; [|exact Hp|eapply isp_live, Ip|exact Jp]. specialize (Rk _ _ P). lia.
Qed.

Lemma lc_exact_ranked : forall s, LC s -> Ranked s -> Exact s.
Proof.
  intros s H [rank Rk] e He Le. split.
  - apply lc_dmo_exact; assumption.
  - intros g. split.
    + apply (lc_mo_sound_ranked s rank H Rk (S (rank (eid e)))); auto.
    + apply lc_mo_complete; assumption.
Qed.

Lemma reach_head : forall s p u, reach s p u -> forall g, isparent s g p -> reach s g u.
Proof.
  intros s p u R. induction R as [p u Q | p q u R IH Q]; intros g P.
  - exact (r_step s g p u (r_direct s g p P) Q).
  - exact (r_step s g q u (IH g P) Q).
Qed.

Lemma grow_sound : forall s u k C, (forall x, In x C -> reach s x u) ->
  forall x, In x (grow k s C) -> reach s x u.
Proof.
  intros s u. induction k as [|k IH]; intros C HC; cbn [grow]; [exact HC|].
  apply IH. intros y Hy. apply nunion_in in Hy. destruct Hy as [Hy|Hy]; [|auto].
  apply in_flat_map in Hy. destruct Hy as [p [Hp Hy]]. apply parents_in in Hy.
  exact (reach_head s p u (HC p Hp) y Hy).
Qed.

Lemma closure_sound : forall s u x, In x (closure s u) -> reach s x u.
Proof.
  intros s u x. unfold closure. apply grow_sound. intros y Hy. apply r_direct, parents_in, Hy.
Qed.

Lemma closed_complete : forall s u C, closedb s u C = true -> forall g, reach s g u -> In g C.
Proof.
  intros s u C H. unfold closedb in H. apply andb_true_iff in H. destruct H as [H1 H2].
  rewrite subset_in in H1. rewrite forallb_forall in H2.
  assert (A : forall g x, isparent s g x -> x = u \/ In x C -> In g C).
  { intros g x P [->|Hx]; [apply H1, parents_in, P|].
    specialize (H2 x Hx). rewrite subset_in in H2. apply H2, parents_in, P. }
  assert (B : forall g x, reach s g x -> x = u \/ In x C -> In g C).
  { intros g x R. induction R as [g x P | g p x R IH P]; intros Hx; [eapply A; eauto|].
    apply IH. right. eapply A; eauto. }
  intros g R. eapply B; eauto.
Qed.

Lemma exactb_sound : forall s, exactb s = true -> Exact s.
Proof.
  intros s H e He Le. unfold exactb in H. rewrite forallb_forall in H. specialize (H e He).
  unfold exact_ent in H. rewrite Le in H. cbn [negb orb] in H.
  apply andb_true_iff in H. destruct H as [D H]. apply andb_true_iff in H. destruct H as [C M].
  apply leqb_eq in D. apply leqb_eq in M. split; intros g.
  - rewrite D. apply parents_in.
  - (* no completeness lemma about closure: exact_ent itself checks that it is closed under parents *)
    rewrite M. split; [apply closure_sound | apply closed_complete, C].
Qed.

Lemma lcb_sound : forall s, lcb s = true -> LC s.
Proof.
  intros s H e He Le. unfold lcb in H. rewrite forallb_forall in H. specialize (H e He).
  unfold lc_ent in H. rewrite Le in H. cbn [negb orb] in H. apply andb_true_iff in H. destruct H as [D M].
  apply leqb_eq in D. apply leqb_eq in M. unfold cons. rewrite D, M. apply recompute_fits.
Qed.

Lemma rankedb_sound : forall s, rankedb s = true -> Ranked s.
Proof.
  intros s H. exists N.to_nat. intros p u [pe [Hp [<- Ip]]].
  unfold rankedb in H. rewrite forallb_forall in H. specialize (H pe Hp).
  apply isp_true in Ip. destruct Ip as [L [G X]]. rewrite L, G in H. cbn in H.
  rewrite forallb_forall in H. specialize (H u X). apply N.ltb_lt in H. lia.
Qed.

Definition DynWF (s : state) : Prop := forall e, In e s -> edyng e = false -> edyn e = [].

Lemma dynwfb_sound : forall s, dynwfb s = true -> DynWF s.
Proof.
  intros s H e He Dg. unfold dynwfb in H. rewrite forallb_forall in H. specialize (H e He).
  rewrite Dg in H. cbn in H. destruct (edyn e); [reflexivity | discriminate].
Qed.

Definition dyn_ok (e : ent) : Prop := edyng e = false -> edyn e = [].
Lemma dynwf_map : forall f s, (forall e, dyn_ok e -> dyn_ok (f e)) -> DynWF s -> DynWF (map f s).
Proof.
  intros f s K H e' He'. apply in_map_iff in He'. destruct He' as [e [<- He]]. apply K. exact (H e He).
Qed.
Lemma refresh_dynwf : forall c s0 s, DynWF s -> DynWF (map (refresh c s0) s).
Proof. intros c s0 s. apply dynwf_map. intros e H. unfold refresh. destruct (c e); exact H. Qed.

Lemma apply_dynwf : forall fuel s aff s1, DynWF s -> apply_memberof fuel s aff = Some s1 -> DynWF s1.
Proof.
  intros fuel s aff s1. apply (apply_rule (fun s _ _ => DynWF s) DynWF).
  - intros s0 W _ s2 W2 H E. unfold stripe in E. injection E as <- _.
    apply (refresh_dynwf (inwork W) s0), H.
  - intros s0 all. apply (refresh_dynwf (inleaf all) s0).
Qed.

Lemma apply_inv : forall fuel s aff s1,
  DynWF s -> Covered s aff -> apply_memberof fuel s aff = Some s1 -> DynWF s1 /\ LC s1.
Proof. intros fuel s aff s1 W C E. split; [eapply apply_dynwf | eapply apply_lc]; eassumption. Qed.

Lemma lc_covered : forall s aff, LC s -> Covered s aff.
Proof. intros s aff H e He Le _. exact (H e He Le). Qed.

Lemma covered_map : forall f s aff,
  (forall e, In e s -> eid (f e) = eid e) ->
  (forall e, In e s -> elive (f e) = true -> ~ In (eid e) aff ->
     elive e = true /\ emo (f e) = emo e /\ edmo (f e) = edmo e
     /\ forall p, In p s -> isp (eid e) (f p) = isp (eid e) p /\ (isp (eid e) p = true -> emo (f p) = emo p)) ->
  Covered s aff -> Covered (map f s) aff.
Proof.
  intros f s aff Fid K C e' He' Le' Na. apply in_map_iff in He'. destruct He' as [e [<- He]].
  rewrite (Fid e He) in Na. destruct (K e He Le' Na) as [Le [Emo [Edmo P]]].
  unfold cons. rewrite (Fid e He), Emo, Edmo. apply fits_map; [|apply C; assumption].
  intros p Hp. split; [apply Fid, Hp | apply P, Hp].
Qed.

Definition graph_only (f : ent -> ent) : Prop :=
  forall e, eid (f e) = eid e /\ egrp (f e) = egrp e /\ elive (f e) = elive e
            /\ emo (f e) = emo e /\ edmo (f e) = edmo e.

Lemma lists_same : forall a b u,
  ~ In u (symdiff (emem a) (emem b)) -> ~ In u (symdiff (edyn a) (edyn b)) -> lists b u = lists a u.
Proof. intros a b u H1 H2. unfold lists. rewrite (nmem_symdiff _ _ _ H1), (nmem_symdiff _ _ _ H2). reflexivity. Qed.

(* post_modify_inner / post_create_inner: the symmetric differences of Member and DynMember are affected *)
Lemma covered_edit : forall f s aff, graph_only f ->
  (forall p u, In p s ->
     In u (symdiff (emem p) (emem (f p))) \/ In u (symdiff (edyn p) (edyn (f p))) -> In u aff) ->
  Covered s aff -> Covered (map f s) aff.
Proof.
  intros f s aff G A. apply covered_map; [intros e _; exact (proj1 (G e))|].
  intros e He Le Na. destruct (G e) as [_ [_ [El [Emo Edmo]]]]. rewrite El in Le.
  split; [exact Le|]. split; [exact Emo|]. split; [exact Edmo|]. intros p Hp.
  destruct (G p) as [_ [Eg [Elp [Emp _]]]]. split; [|intros _; exact Emp].
  unfold isp. rewrite Eg, Elp. f_equal.
  apply lists_same; intros X; apply Na, (A p (eid e) Hp); tauto.
Qed.

Lemma upd_mem_with : forall memch e, exists m, upd_mem memch e = with_mem e m.
Proof.
  intros memch e. unfold upd_mem.
  destruct (assoc (eid e) memch) as [m|]; [destruct (egrp e)|]; eauto; exists (emem e); destruct e; reflexivity.
Qed.
Lemma upd_dyn_with : forall dynch e,
  exists d, upd_dyn dynch e = with_dyn e d /\ (edyng e = false -> d = edyn e).
Proof.
  intros dynch e. unfold upd_dyn.
  destruct (assoc (eid e) dynch) as [d|]; [destruct (edyng e && egrp e) eqn:X|].
  - exists d. split; [reflexivity|]. intros Z. rewrite Z in X. discriminate X.
  - exists (edyn e). destruct e. split; reflexivity.
  - exists (edyn e). destruct e. split; reflexivity.
Qed.

Lemma graph_only_upd : forall memch dynch, graph_only (fun e => upd_dyn dynch (upd_mem memch e)).
Proof.
  intros memch dynch e. destruct (upd_mem_with memch e) as [m ->].
  destruct (upd_dyn_with dynch (with_mem e m)) as [d [-> _]]. repeat split.
Qed.
Lemma dyn_ok_upd_dyn : forall dynch e, dyn_ok e -> dyn_ok (upd_dyn dynch e).
Proof.
  intros dynch e H. destruct (upd_dyn_with dynch e) as [d [-> Ed]]. intros Z. cbn in Z |- *.
  rewrite (Ed Z). exact (H Z).
Qed.
Lemma dyn_ok_upd : forall memch dynch e, dyn_ok e -> dyn_ok (upd_dyn dynch (upd_mem memch e)).
Proof.
  intros memch dynch e H. apply dyn_ok_upd_dyn. destruct (upd_mem_with memch e) as [m ->]. exact H.
Qed.

Lemma mod_inner_inv : forall fuel s cand memch dynch s1,
  DynWF s -> LC s -> mod_inner fuel s cand memch dynch = Some s1 -> DynWF s1 /\ LC s1.
Proof.
  intros fuel s cand memch dynch s1 W H E. unfold mod_inner in E. eapply apply_inv; [| |exact E].
  - apply dynwf_map; [intros e; apply dyn_ok_upd | exact W].
  - apply covered_edit; [apply graph_only_upd | | apply lc_covered, H].
    intros p u Hp Hu. apply in_app_iff. right. apply in_flat_map. exists p. split; [exact Hp|].
    unfold pair_aff. rewrite !in_app_iff. tauto.
Qed.

Lemma do_mod_inv : forall strict fuel s cand memch dynch s1,
  DynWF s -> LC s -> do_mod strict fuel s cand memch dynch = Some s1 -> DynWF s1 /\ LC s1.
Proof.
  intros strict fuel s cand memch dynch s1 W H E. unfold do_mod in E.
  match type of E with (if ?c then _ else _) = _ => destruct c end.
  - eapply mod_inner_inv; eassumption.
  - injection E as <-. tauto.
Qed.

Lemma insert_ent_in : forall x e s, In x (insert_ent e s) <-> In x (e :: s).
Proof.
  intros x e s. induction s as [|y r IH]; cbn [insert_ent]; [reflexivity|].
  destruct (eid e <? eid y); [reflexivity|]. cbn [In]. rewrite IH. cbn. tauto.
Qed.
Lemma fold_insert_in : forall x l s,
  In x (fold_right (fun n acc => insert_ent (new_ent n) acc) s l) <-> In x (map new_ent l) \/ In x s.
Proof.
  intros x l s. induction l as [|n r IH]; cbn [fold_right map]; [cbn; tauto|].
  rewrite insert_ent_in. cbn [In]. rewrite IH. tauto.
Qed.

Lemma do_create_inv : forall strict fuel s l dynch s1,
  DynWF s -> LC s -> do_create strict fuel s l dynch = Some s1 -> DynWF s1 /\ LC s1.
Proof.
  intros strict fuel s l dynch s1 W H E. unfold do_create in E.
  set (s0 := fold_right (fun n acc => insert_ent (new_ent n) acc) s l) in *.
  match type of E with (if ?c then _ else _) = _ => destruct c end; [|injection E as <-; tauto].
  eapply apply_inv; [| |exact E]; clear E.
  - apply dynwf_map; [intros e; apply dyn_ok_upd_dyn|].
    intros e He. apply fold_insert_in in He. destruct He as [He|He]; [|exact (W e He)].
    apply in_map_iff in He. destruct He as [n [<- _]]. intros _. reflexivity.
  - apply covered_edit; [exact (graph_only_upd [] dynch) | |].
    + intros p u Hp [X|X]; [|rewrite !in_app_iff; right; left; apply in_flat_map; eauto].
      destruct (upd_dyn_with dynch p) as [d [Ed _]]. rewrite Ed in X. apply symdiff_in in X. tauto.
    + (* a created entry is affected; so is whatever a created group lists, hence an old entry outside
         the affected set has its old direct groups *)
      intros e He Le Na. rewrite !in_app_iff in Na. apply fold_insert_in in He. destruct He as [He|He].
      { exfalso. apply Na. left. apply in_map_iff in He. destruct He as [n [<- Hn]]. exact (in_map nid l n Hn). }
      apply fits_extend with (s := s); [| |apply H; assumption].
      * intros p Hp. apply fold_insert_in. right. exact Hp.
      * intros p Hp Ip. apply fold_insert_in in Hp. destruct Hp as [Hp|Hp]; [exfalso|exact Hp].
        apply in_map_iff in Hp. destruct Hp as [n [<- Hn]]. apply isp_true in Ip. destruct Ip as [_ [Gn Iu]].
        cbn in Gn, Iu. rewrite Gn, app_nil_r, nsort_in in Iu.
        apply Na. right. right. apply in_flat_map. exists n. rewrite Gn. auto.
Qed.

(* refint::remove_references of ids that no live entry carries: a live entry keeps its direct groups,
   and D goes from all the sets alike *)
Lemma strip_covered : forall D s aff,
  (forall e, In e s -> elive e = true -> ~ In (eid e) D) -> Covered s aff -> Covered (map (strip D) s) aff.
Proof.
  intros D s aff HD C e' He' Le' Na. apply in_map_iff in He'. destruct He' as [e [<- He]].
  cbn [strip elive eid] in Le', Na.
  apply (fits_map_keep (fun g => ~ In g D)) with (d := edmo e) (m := emo e).
  - intros p Hp. split; [reflexivity|]. unfold isp, lists. cbn [strip elive egrp emem edyn eid].
    rewrite !nmem_nminus by (apply HD; assumption). reflexivity.
  - intros p Hp Ip. split; [apply HD; [exact Hp | eapply isp_live, Ip]|]. intros g. apply nminus_in.
  - intros g. apply nminus_in.
  - intros g. apply nminus_in.
  - exact (C e He Le' Na).
Qed.

Lemma do_delete_inv : forall fuel s ids s1,
  DynWF s -> LC s -> do_delete fuel s ids = Some s1 -> DynWF s1 /\ LC s1.
Proof.
  intros fuel s ids s1 W H E. unfold do_delete in E.
  destruct (filter (is_live s) ids) as [|d0 D']; [injection E as <-; tauto|].
  revert E. generalize (d0 :: D'). clear d0 D'. intros D E.
  set (hit := fun e => elive e && nmem (eid e) D) in *.
  rewrite <- (map_map (fun e => if hit e then recycle e else e) (strip D)) in E.
  eapply apply_inv; [| |exact E]; clear E.
  - apply dynwf_map; [|apply dynwf_map; [|exact W]].
    + intros e K Z. cbn in Z |- *. rewrite (K Z). reflexivity.
    + intros e K. destruct (hit e); exact K.
  - apply strip_covered.
    + intros e' He' Le'. apply in_map_iff in He'. destruct He' as [e [<- He]].
      destruct (hit e) eqn:X; [discriminate Le'|]. unfold hit in X. rewrite Le' in X. apply nmem_false, X.
    + apply covered_map; [intros e _; destruct (hit e); reflexivity | | apply lc_covered, H].
      intros e He Le Na. destruct (hit e); [discriminate Le|].
      split; [exact Le|]. split; [reflexivity|]. split; [reflexivity|]. intros p Hp.
      destruct (hit p) eqn:X; [|split; reflexivity].
      (* a deleted group that lists e would have put e into the affected set *)
      assert (Ip : isp (eid e) p = false); [|rewrite Ip; split; [reflexivity | discriminate]].
      apply not_true_is_false. intros Ip. apply Na, in_flat_map. exists p. split; [exact Hp|].
      fold (hit p). rewrite X. apply isp_true in Ip. destruct Ip as [_ [-> Ip]]. cbn [andb].
      destruct (edyng p) eqn:Dg; [exact Ip|]. rewrite (W p Hp Dg) in Ip. exact Ip.
Qed.

Lemma readd_inv : forall fuel stash s id dynch s1,
  DynWF s -> LC s -> readd fuel s id stash dynch = Some s1 -> DynWF s1 /\ LC s1.
Proof.
  intros fuel stash. induction stash as [|g r IH]; intros s id dynch s1 W H E; cbn [readd] in E.
  - injection E as <-. tauto.
  - destruct (find_ent s g) as [ge|]; [|eapply IH; eassumption].
    match type of E with match ?m with _ => _ end = _ => destruct m as [s2|] eqn:M end; [|discriminate].
    destruct (mod_inner_inv _ _ _ _ _ _ W H M) as [W2 H2]. eapply IH; eassumption.
Qed.

Lemma do_revive_inv : forall fuel s id dynch s1,
  DynWF s -> LC s -> do_revive fuel s id dynch = Some s1 -> DynWF s1 /\ LC s1.
Proof.
  intros fuel s id dynch s1 W H E. unfold do_revive in E.
  destruct (find_ent s id) as [e0|]; [|injection E as <-; tauto].
  destruct (elive e0); [injection E as <-; tauto|].
  set (f := fun x => if eid x =? id then upd_dyn (only_key id dynch) (revived x) else x) in *.
  match type of E with match ?m with _ => _ end = _ => destruct m as [s2|] eqn:M end; [|discriminate].
  assert (I2 : DynWF s2 /\ LC s2); [|destruct I2; eapply readd_inv; eassumption].
  eapply apply_inv; [| |exact M]; clear M E.
  - apply dynwf_map; [|exact W]. intros e K. unfold f. destruct (eid e =? id); [|exact K].
    apply dyn_ok_upd_dyn. exact K.
  - assert (Fid : forall e, eid (f e) = eid e).
    { intros e. unfold f. destruct (eid e =? id); [exact (proj1 (graph_only_upd [] _ (revived e))) | reflexivity]. }
    apply covered_map; [intros e _; apply Fid | | apply lc_covered, H].
    intros e He Le Na.
    assert (Fe : f e = e).
    { unfold f. destruct (eid e =? id) eqn:X; [exfalso | reflexivity].
      apply Na. left. symmetry. apply N.eqb_eq, X. }
    rewrite Fe in Le |- *. split; [exact Le|]. split; [reflexivity|]. split; [reflexivity|].
    intros p Hp. unfold f. destruct (eid p =? id) eqn:Ep; [|auto].
    destruct (upd_dyn_with (only_key id dynch) (revived p)) as [d [Ed _]].
    (* p is revived: what it lists, and what its DynMember gains or loses, is affected *)
    assert (Q : ~ In (eid e) (pair_aff [id] p (with_dyn (revived p) d) ++ (if egrp p then emem p else []))).
    { intros Hv. apply Na. right. apply in_flat_map. exists p. rewrite Ep, Ed. auto. }
    unfold pair_aff in Q. cbn [nmem existsb with_dyn revived egrp edyng emem edyn eid] in Q.
    rewrite Ep, !in_app_iff in Q.
    rewrite Ed. split; [|reflexivity]. unfold isp, lists. cbn [with_dyn revived elive egrp emem edyn].
    rewrite (nmem_symdiff (eid e) (edyn p) d) by tauto.
    (* if p was live nothing else changes; if not, it lists e neither before nor after *)
    destruct (elive p); [reflexivity|]. destruct (egrp p); [|reflexivity]. cbn [andb].
    apply orb_false_iff. split; apply nmem_false; intros X; [tauto|].
    destruct (edyng p) eqn:Dg; [|rewrite (W p Hp Dg) in X; exact X].
    apply Q. left. right. right. right. apply in_app_iff. auto.
Qed.

Lemma step_fuel_inv : forall fuel s o s1,
  DynWF s -> LC s -> step_fuel fuel s o = Some s1 -> DynWF s1 /\ LC s1.
Proof.
  intros fuel s o s1 W H E. destruct o; cbn [step_fuel] in E;
    [eapply do_create_inv | eapply do_mod_inv | eapply do_delete_inv | eapply do_revive_inv]; eassumption.
Qed.

Fixpoint run (s : state) (ops : list op) : option state :=
  match ops with
  | [] => Some s
  | o :: r => match step s o with Some s1 => run s1 r | None => None end
  end.

Lemma run_inv : forall ops s s1, DynWF s -> LC s -> run s ops = Some s1 -> DynWF s1 /\ LC s1.
Proof.
  induction ops as [|o r IH]; intros s s1 W H E; cbn [run] in E.
  - injection E as <-. tauto.
  - destruct (step s o) as [s2|] eqn:S; [|discriminate].
    destruct (step_fuel_inv _ _ _ _ W H S) as [W2 H2]. eapply IH; eassumption.
Qed.

Lemma inv_nil : DynWF [] /\ LC [].
Proof. split; intros e []. Qed.

Lemma ent_eqb_eq : forall a b, ent_eqb a b = true -> a = b.
Proof.
  intros [a1 a2 a3 a4 a5 a6 a7 a8 a9] [b1 b2 b3 b4 b5 b6 b7 b8 b9] H. unfold ent_eqb in H. cbn in H.
  apply andb_prop in H as
    [[[[[[[[H1 H2]%andb_prop H3]%andb_prop H4]%andb_prop H5]%andb_prop H6]%andb_prop H7]%andb_prop H8]%andb_prop H9].
  apply N.eqb_eq in H1. apply Bool.eqb_prop in H2, H3, H4. apply leqb_eq in H5, H6, H7, H8, H9.
  subst. reflexivity.
Qed.
Lemma state_eqb_eq : forall a b, state_eqb a b = true -> a = b.
Proof.
  induction a as [|x r IH]; destruct b as [|y q]; cbn [state_eqb]; intros H; try discriminate; [reflexivity|].
  apply andb_true_iff in H. destruct H as [E H]. apply ent_eqb_eq in E. subst. f_equal. apply IH, H.
Qed.

Lemma hist_all_pre : forall (f : state -> ostep -> bool) (P : state -> Prop),
  (forall pre st, P pre -> f pre st = true -> P (spost st)) ->
  forall l pre, P pre -> hist_all f pre l = true ->
  forall st, In st l -> exists pre', P pre' /\ f pre' st = true.
Proof.
  intros f P HP. induction l as [|st0 r IH]; intros pre H A st Hst; [destruct Hst|].
  cbn [hist_all] in A. apply andb_true_iff in A. destruct A as [A0 A].
  destruct Hst as [<-|Hst]; [exists pre; auto | exact (IH (spost st0) (HP pre st0 H A0) A st Hst)].
Qed.

(* the observed post-state is the model's or, where the model's loop does not end, the pre-state *)
Lemma step_agree_inv : forall pre st,
  DynWF pre /\ LC pre -> step_agree pre st = true -> DynWF (spost st) /\ LC (spost st).
Proof.
  intros pre st [W H] A. unfold step_agree in A. destruct (step pre (sop st)) as [s1|] eqn:S.
  - apply andb_true_iff in A. destruct A as [A _]. apply andb_true_iff in A. destruct A as [_ A].
    apply state_eqb_eq in A. subst s1. exact (step_fuel_inv _ _ _ _ W H S).
  - apply andb_true_iff in A. destruct A as [_ A]. apply state_eqb_eq in A. rewrite <- A. tauto.
Qed.

Lemma step_prop_sound : forall pre st, step_prop pre st = true -> scode st < 2 /\ Exact (spost st).
Proof.
  intros pre st A. unfold step_prop in A. apply andb_true_iff in A. destruct A as [C E].
  split; [apply N.ltb_lt, C | apply exactb_sound, E].
Qed.

Lemma loop_O : forall s w W all, loop 0 s (w :: W) all = None.
Proof. reflexivity. Qed.

Lemma loop_diverges : forall P : state * list N -> Prop,
  (forall s W, P (s, W) -> W <> [] /\ P (stripe s W)) ->
  forall fuel s W all, P (s, W) -> loop fuel s W all = None.
Proof.
  intros P HP. induction fuel as [|f IH]; intros s W all H; destruct (HP s W H) as [NE H1];
    (destruct W as [|w W']; [destruct NE; reflexivity|]).
  - apply loop_O.
  - cbn [loop]. destruct (stripe s (w :: W')) as [s1 W1]. apply IH, H1.
Qed.

(* The two refuting inputs, both reproduced on the real server by harness/src/bin/c17.rs --probe. *)
(* A=0 in B=1 in C=2 in A, and A in G=3: as read back from the real server after the create *)
Definition stale_pre : state :=
  [mkent 0 true false true [2] [] [0; 1; 2; 3] [1; 3] []; mkent 1 true false true [0] [] [0; 1; 2; 3] [2] [];
   mkent 2 true false true [1] [] [0; 1; 2; 3] [0] []; mkent 3 true false true [0] [] [] [] []].
(* G.member := [] *)
Definition stale_op : op := OMod false [3] [(3, [])] [].
Definition stale_post : state :=
  [mkent 0 true false true [2] [] [0; 1; 2; 3] [1] []; mkent 1 true false true [0] [] [0; 1; 2; 3] [2] [];
   mkent 2 true false true [1] [] [0; 1; 2; 3] [0] []; mkent 3 true false true [] [] [] [] []].

Lemma stale_step : step stale_pre stale_op = Some stale_post.
Proof. vm_compute. reflexivity. Qed.

Lemma reach_src : forall s g u, reach s g u -> exists x, isparent s g x.
Proof. intros s g u R. induction R as [g u P | g p u R IH P]; [exists u; exact P | exact IH]. Qed.

(* G=3 is still in the MemberOf of A=0, but lists nothing any more *)
Lemma stale_post_not_exact : ~ Exact stale_post.
Proof.
  intros H.
  destruct (H (mkent 0 true false true [2] [] [0; 1; 2; 3] [1] [])) as [_ M]; [left; reflexivity | reflexivity |].
  assert (R : reach stale_post 3 0) by (apply M; cbn; tauto).
  apply reach_src in R. destruct R as [x [p [Hp [Ep Ip]]]].
  cbn in Hp. destruct Hp as [<-|[<-|[<-|[<-|[]]]]]; cbn in Ep; try discriminate Ep.
  unfold isp, lists in Ip. cbn in Ip. discriminate Ip.
Qed.

(* A=0 in G1=2, B=1 in G2=3: as read back from the real server *)
Definition osc_pre : state :=
  [mkent 0 true false true [] [] [2] [2] []; mkent 1 true false true [] [] [3] [3] [];
   mkent 2 true false true [0] [] [] [] []; mkent 3 true false true [1] [] [] [] []].
(* one batch: A.member=[B], B.member=[A], G1.member=[], G2.member=[] *)
Definition osc_op : op := OMod false [0; 1; 2; 3] [(0, [1]); (1, [0]); (2, []); (3, [])] [].

(* the loop starts from the edited graph with all four groups to do; the fourth pass leads back to the
   configuration after the second *)
Definition osc_cfgs : list (state * list N) :=
  let pass := fun c : state * list N => stripe (fst c) (snd c) in
  let c0 := (map (fun e => upd_dyn [] (upd_mem [(0, [1]); (1, [0]); (2, []); (3, [])] e)) osc_pre,
             [0; 1; 2; 3]) in
  [c0; pass c0; pass (pass c0); pass (pass (pass c0))].

Lemma osc_cfgs_closed : forall s W, In (s, W) osc_cfgs -> W <> [] /\ In (stripe s W) osc_cfgs.
Proof.
  intros s W H. vm_compute in H. destruct H as [H|[H|[H|[H|[]]]]]; injection H as <- <-;
    (split; [discriminate|]); vm_compute; auto 6.
Qed.

Lemma osc_diverges : forall fuel, step_fuel fuel osc_pre osc_op = None.
Proof.
  intros fuel. unfold step_fuel, osc_op, do_mod.
  match goal with |- (if ?c then _ else _) = _ => replace c with true by (vm_compute; reflexivity) end.
  unfold mod_inner, apply_memberof.
  rewrite (loop_diverges (fun c => In c osc_cfgs) osc_cfgs_closed); [reflexivity|].
  vm_compute. auto.
Qed.

Lemma osc_pre_exact : exactb osc_pre = true /\ dynwfb osc_pre = true.
Proof. vm_compute. tauto. Qed.
Lemma stale_pre_exact : exactb stale_pre = true /\ dynwfb stale_pre = true.
Proof. vm_compute. tauto. Qed.
