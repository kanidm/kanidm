(* Vocabulary (KV.C17.Proofs): isparent s g u = g is a live group whose Member or DynMember lists u;
   reach s g u = chain of >= 1 such links through live groups; Exact s = every live entry has
   DirectMemberOf = {g | isparent s g e} and MemberOf = {g | reach s g e};
   LC s = every live entry equals its recomputation from its direct groups' stored MemberOf;
   DynWF s = only dynamic groups carry DynMember; Ranked s = the live group graph has a topological
   ranking (is acyclic); run s ops = the model's step folded over an op list (None = some
   apply_memberof loop did not come to an end). Ops: create / modify+batch modify / delete / revive with
   ARBITRARY DynMember changes as input. *)
From Coq Require Import List NArith Bool.
Import ListNotations.
Require Import KV.C17.Model KV.C17.Proofs.
Open Scope N_scope.

(* The full statement: every operation on an exact state comes to an end in an exact state. *)
Definition C17_full_statement : Prop :=
  forall s o s1, DynWF s -> Exact s -> step s o = Some s1 -> Exact s1.
Definition C17_termination_statement : Prop :=
  forall s o, DynWF s -> Exact s -> exists fuel s1, step_fuel fuel s o = Some s1.

(* REFUTED (confirmed on the real server): groups A in B in C in A and A in G; after G.member := []
   A, B and C keep G in MemberOf - every recomputation reads a neighbour's stale MemberOf. *)
Theorem C17_refuted : ~ C17_full_statement.
Proof.
  intros F. apply stale_post_not_exact.
  destruct stale_pre_exact as [E W].
  exact (F stale_pre stale_op stale_post (dynwfb_sound _ W) (exactb_sound _ E) stale_step).
Qed.

(* REFUTED (confirmed on the real server: the write transaction never returns): A in G1, B in G2; one
   batch modify A.member=[B], B.member=[A], G1.member=[], G2.member=[] makes the passes of
   apply_memberof alternate between two states for ever - for EVERY amount of fuel. *)
Theorem C17_oscillation : forall fuel, step_fuel fuel osc_pre osc_op = None.
Proof. exact osc_diverges. Qed.
Theorem C17_termination_refuted : ~ C17_termination_statement.
Proof.
  intros T. destruct osc_pre_exact as [E W].
  destruct (T osc_pre osc_op (dynwfb_sound _ W) (exactb_sound _ E)) as [fuel [s1 H]].
  rewrite C17_oscillation in H. discriminate H.
Qed.

(* The core of apply_memberof, for any graph, cyclic or not: whenever every live entry outside the
   affected set is locally consistent in the changed graph, a finished run leaves every live entry
   locally consistent. *)
Theorem C17_apply_memberof_restores : forall fuel s aff s1,
  Covered s aff -> apply_memberof fuel s aff = Some s1 -> LC s1.
Proof. exact apply_lc. Qed.

(* Every operation that finishes preserves local consistency (the affected sets of create, modify,
   delete and revive cover every entry whose direct groups changed). *)
Theorem C17_lc_step : forall fuel s o s1,
  DynWF s -> LC s -> step_fuel fuel s o = Some s1 -> DynWF s1 /\ LC s1.
Proof. exact step_fuel_inv. Qed.

(* After any finished history from the empty state - whatever graphs, cyclic or not, it went through and
   whatever DynMember changes it was given - the state is well-formed and locally consistent. *)
Theorem C17_lc_invariant : forall ops s, run [] ops = Some s -> DynWF s /\ LC s.
Proof. intros ops s. apply run_inv; apply inv_nil. Qed.

(* After any finished history, DirectMemberOf of every live entry is exactly the set of live groups
   that list it directly. *)
Theorem C17_dmo_exact : forall ops s, run [] ops = Some s ->
  forall e, In e s -> elive e = true -> forall g, In g (edmo e) <-> isparent s g (eid e).
Proof. intros ops s E. apply lc_dmo_exact. apply (C17_lc_invariant ops s E). Qed.

(* After any finished history MemberOf never misses a group: every live group from which the entry
   can be reached is in it ... *)
Theorem C17_mo_complete : forall ops s, run [] ops = Some s ->
  forall e, In e s -> elive e = true -> forall g, reach s g (eid e) -> In g (emo e).
Proof. intros ops s E. apply lc_mo_complete. apply (C17_lc_invariant ops s E). Qed.

(* ... in particular a group on a cycle is a member of itself. *)
Theorem C17_cycle_self_member : forall ops s, run [] ops = Some s ->
  forall e, In e s -> elive e = true -> reach s (eid e) (eid e) -> In (eid e) (emo e).
Proof. intros ops s E e He Le R. eapply C17_mo_complete; eassumption. Qed.

(* PARTIAL (the full statement restricted to acyclic CURRENT graphs; missing: states with a cycle, where
   it is refuted above): after any finished history - even one that went through cyclic graphs and
   stale values - a state whose live group graph is acyclic is exact. *)
Theorem C17_exact_acyclic_partial : forall ops s, run [] ops = Some s -> Ranked s -> Exact s.
Proof. intros ops s E R. apply lc_exact_ranked; [apply (C17_lc_invariant ops s E) | exact R]. Qed.

(* The same for ANY locally consistent state, not only the reachable ones. *)
Theorem C17_lc_acyclic_exact : forall s, LC s -> Ranked s -> Exact s.
Proof. exact lc_exact_ranked. Qed.

(* The executable predicates used at run time are sound for the declarative notions. *)
Theorem C17_exactb_sound : forall s, exactb s = true -> Exact s.
Proof. exact exactb_sound. Qed.
Theorem C17_lcb_sound : forall s, lcb s = true -> LC s.
Proof. exact lcb_sound. Qed.
Theorem C17_rankedb_sound : forall s, rankedb s = true -> Ranked s.
Proof. exact rankedb_sound. Qed.

(* pcheck is sound: if it passes, every operation of the observed history returned and every observed
   state is exact. *)
Theorem C17_pcheck_sound : forall l, pcheck (CHist l) = true ->
  forall st, In st l -> scode st < 2 /\ Exact (spost st).
Proof.
  intros l H st Hst.
  destruct (hist_all_pre step_prop (fun _ => True) (fun _ _ _ _ => I) l [] I H st Hst) as [pre [_ S]].
  exact (step_prop_sound pre st S).
Qed.

(* In a history on which the implementation agrees with the model step by step, every observed state
   is locally consistent - hence has exact DirectMemberOf, a complete MemberOf, and is exact as soon as
   its live group graph is acyclic.
   PARTIAL w.r.t. `agree c -> pcheck c`: that implication is false (C17_refuted, C17_oscillation). *)
Theorem C17_agree_implies_lc : forall l, agree (CHist l) = true ->
  forall st, In st l -> LC (spost st) /\ DynWF (spost st).
Proof.
  intros l A st Hst.
  destruct (hist_all_pre step_agree _ step_agree_inv l [] inv_nil A st Hst) as [pre [P S]].
  destruct (step_agree_inv pre st P S). tauto.
Qed.

Theorem C17_agree_implies_property_partial : forall l, agree (CHist l) = true ->
  forall st, In st l ->
    (forall e, In e (spost st) -> elive e = true ->
       (forall g, In g (edmo e) <-> isparent (spost st) g (eid e))
       /\ (forall g, reach (spost st) g (eid e) -> In g (emo e)))
    /\ (Ranked (spost st) -> Exact (spost st)).
Proof.
  intros l A st Hst. destruct (C17_agree_implies_lc l A st Hst) as [L _]. split.
  - intros e He Le. split; [apply lc_dmo_exact | apply lc_mo_complete]; assumption.
  - apply lc_exact_ranked, L.
Qed.
