From Coq Require Import List NArith Bool.
Import ListNotations.
Require Import KV.C17.Model KV.C17.Proofs.
Open Scope N_scope.

(* nested groups 0 > 1 > 2 > leaf 5, dynamic group 3 with dynmember 6; edits, delete and revive of the
   middle group: the history finishes, the final graph is acyclic (ranked), exact, and after the revive
   leaf 5 is again a member of 0 and 1 (indirectly) besides 2 and 3 (directly) *)
Definition w_ops : list op :=
  [OCreate false [mknew 0 true false [1]; mknew 1 true false [2]; mknew 2 true false [5];
            mknew 3 true true []; mknew 5 false false []; mknew 6 false false []] [(3, [6])];
   OMod false [1] [(1, [2; 6])] [];
   ODelete [1];
   OMod false [5] [] [(3, [5; 6])];
   ORevive 1 [];
   OMod false [6] [] [(3, [5])]].
Example C17_witness_run : exists s,
  run [] w_ops = Some s /\ rankedb s = true /\ exactb s = true /\ lcb s = true /\ dynwfb s = true
  /\ existsb (fun e => (eid e =? 5) && leqb (emo e) [0; 1; 2; 3] && leqb (edmo e) [2; 3]) s = true
  /\ existsb (fun e => (eid e =? 6) && leqb (emo e) [0; 1]) s = true.
Proof. eexists. split; [vm_compute; reflexivity | vm_compute; tauto]. Qed.

(* a history that builds a 3-cycle with a tail: it finishes, the state is exact, every group of the cycle
   is a member of itself (hypothesis of C17_cycle_self_member) *)
Definition w_cyc : list op :=
  [OCreate false [mknew 0 true false [1]; mknew 1 true false [2]; mknew 2 true false [7]; mknew 7 false false []] [];
   OMod false [2] [(2, [0; 7])] []].
Example C17_witness_cycle : exists s,
  run [] w_cyc = Some s /\ exactb s = true /\ cyclicb s = true
  /\ forallb (fun e => negb (egrp e) || nmem (eid e) (emo e)) s = true
  /\ existsb (fun e => (eid e =? 7) && leqb (emo e) [0; 1; 2]) s = true.
Proof. eexists. split; [vm_compute; reflexivity | vm_compute; tauto]. Qed.

(* hypotheses of the refuted statements hold of the refuting inputs: both start states are exact and
   well-formed; the first op finishes in the model, in a state that is locally consistent but not exact *)
Example C17_witness_refuted_stale :
  exactb stale_pre = true /\ dynwfb stale_pre = true /\ step stale_pre stale_op = Some stale_post
  /\ exactb stale_post = false /\ lcb stale_post = true /\ cyclicb stale_post = true.
Proof. vm_compute. tauto. Qed.
Example C17_witness_refuted_oscillation :
  exactb osc_pre = true /\ dynwfb osc_pre = true /\ cyclicb osc_pre = false
  /\ step osc_pre osc_op = None.
Proof. vm_compute. tauto. Qed.

(* the two histories as recorded from the REAL server: the model agrees with every step, the property
   fails, and the failure is inside the known classes *)
Definition real_stale : case :=
  CHist [mkstep (OCreate false [mknew 0 true false [2]; mknew 1 true false [0]; mknew 2 true false [1];
                          mknew 3 true false [0]] []) 0 stale_pre;
         mkstep stale_op 0 stale_post].
Example C17_witness_real_stale : agree real_stale = true /\ pcheck real_stale = false /\ known real_stale = true.
Proof. vm_compute. tauto. Qed.
Definition real_osc : case :=
  CHist [mkstep (OCreate false [mknew 0 true false []; mknew 1 true false []; mknew 2 true false [0];
                          mknew 3 true false [1]] []) 0 osc_pre;
         mkstep osc_op 2 osc_pre].
Example C17_witness_real_oscillation : agree real_osc = true /\ pcheck real_osc = false /\ known real_osc = true.
Proof. vm_compute. tauto. Qed.

(* a property failure that is NOT in a known class is reported: an acyclic state with a surplus MemberOf *)
Example C17_witness_unknown_failure :
  let bad := [mkent 0 true false true [1] [] [] [] []; mkent 1 false false true [] [] [0; 9] [0] []] in
  let c := CHist [mkstep (OMod false [] [] []) 0 bad] in
  pcheck c = false /\ known c = false.
Proof. vm_compute. tauto. Qed.

(* the refuting inputs do not depend on which referential-integrity variant the tree has *)
Example C17_witness_refuted_strict_refint :
  step stale_pre (OMod true [3] [(3, [])] []) = Some stale_post
  /\ step osc_pre (OMod true [0; 1; 2; 3] [(0, [1]); (1, [0]); (2, []); (3, [])] []) = None.
Proof. vm_compute. tauto. Qed.
(* the two variants differ exactly on a recycled reference that comes with a live one *)
Example C17_witness_refint_variants :
  let s := [mkent 0 true false true [] [] [] [] []; mkent 1 true false false [] [] [] [] [];
            mkent 2 false false true [] [] [] [] []] in
  (exists s1, step s (OMod false [0] [(0, [1; 2])] []) = Some s1 /\ existsb (fun e => leqb (emem e) [1; 2]) s1 = true)
  /\ step s (OMod true [0] [(0, [1; 2])] []) = Some s
  /\ step s (OMod false [0] [(0, [1])] []) = Some s.
Proof. vm_compute. split; [eexists; split; reflexivity | tauto]. Qed.
