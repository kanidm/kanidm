(* Vocabulary (Model.v): times are nanoseconds, G = 1e9, trunc = floor to the
   whole second.
   `login pol t priv t0` = the session opened by an authentication of type t at time t0
   (AuthSession::issue_uat, signed token, stored session record); `state_after .. s0 pre` = the
   session after the operations `pre` (present a token / re-authenticate through reauth_init /
   issue_uat called directly with a Reauth intent and ARBITRARY type and session expiry), at
   ARBITRARY times, in any order, any number; `snd (step .. s o)` = what operation o answers;
   `no_raw pre` (Proofs.v) = the history pre contains no direct issue_uat call. *)
From Coq Require Import List NArith Bool.
Import ListNotations.
Require Import KV.C33.Model KV.C33.Proofs.
Open Scope N_scope.

(* WRITE ACCESS NEEDS A WINDOW. Whenever presenting token i at time ct yields ReadWrite, there is
   an authentication event at some time a that granted a window of W seconds — either the login
   itself (and then the specification's table grants W = min(E, 3600) for this type / privileged
   flag) or an earlier read-write re-authentication of the history (W = privilege expiry P) — and
   ct lies before floor_s(a) + W; if the token is used after it was issued, a <= ct < a + W. *)
Theorem C33_rw_needs_window : forall E P anon t priv t0 lg s0 pre i ct,
  login (mkpol E P) t priv t0 = (lg, Some s0) ->
  snd (step (mkpol E P) anon (state_after (mkpol E P) anon s0 pre) (HUse i ct)) = BUse (OScope AReadWrite) ->
  exists a W,
    ((a = t0 /\ spec_login_window E t priv = Some W) \/
     (((exists j, In (HReauth j true a) pre) \/ (exists ty sx, In (HRaw ty true sx a) pre)) /\ W = P)) /\
    ct < trunc a + W * G /\ (a <= ct -> a <= ct < a + W * G).
Proof.
  intros E P anon t priv t0 lg s0 pre i ct Hl (k & Hk & Hu)%use_step.
  destruct (login_some Hl) as (u & r & ->).
  destruct (proj2 (session_inv Hl pre) k (tok_in Hk)) as [Hok Hfrom].
  destruct (use_rw Hok Hu) as (W & Hw & Hlt).
  exists (tk_at k), W. split; [|split; [exact Hlt | intro Hle; split; [exact Hle|]]].
  2: { eapply N.lt_le_trans; [exact Hlt | apply N.add_le_mono_r, trunc_le]. }
  destruct Hfrom as [[-> <-]|(o & Ho & Hor)].
  { left. split; [reflexivity | exact Hw]. }
  right. destruct o as [j c | j rw c | ty rw sx c]; cbn [origin] in Hor; [destruct Hor| |];
    destruct Hor as [<- Hrw]; rewrite Hw in Hrw; destruct (reauth_window_some (eq_sym Hrw)) as [-> ->].
  - split; [left; exists j; exact Ho | reflexivity].
  - split; [right; exists ty, sx; exact Ho | reflexivity].
Qed.

(* The login window is at most one hour whatever the policy says. *)
Theorem C33_login_window_bounded : forall E t priv W,
  spec_login_window E t priv = Some W -> W <= LIMITED /\ W <= E /\ ro_class t = false.
Proof.
  intros E t priv W H. unfold spec_login_window in H.
  destruct (ro_class t); [discriminate|]. destruct (priv || is_genpw t); [|discriminate].
  injection H as <-. repeat split; [apply N.le_min_r | apply N.le_min_l].
Qed.

(* ANONYMOUS AND OAUTH2-TRUST SESSIONS ARE ALWAYS READ-ONLY: over the real flows (no direct
   issue_uat call) no token of the session ever yields ReadWrite (or Synchronise) and no
   re-authentication ever succeeds, whatever the privileged flag, the policy and the times. *)
Theorem C33_always_ro : forall E P anon t priv t0 lg s0 pre o,
  ro_class t = true ->
  login (mkpol E P) t priv t0 = (lg, Some s0) ->
  no_raw pre -> is_raw o = false ->
  match snd (step (mkpol E P) anon (state_after (mkpol E P) anon s0 pre) o) with
  | BUse (OScope AReadWrite) | BUse (OScope ASynchronise) | BRe (ROk _) => False
  | _ => True
  end.
Proof.
  intros E P anon t priv t0 lg s0 pre o Hc Hl Hn Ho.
  destruct (login_some Hl) as (u & r & ->).
  destruct o as [i ct | i rw ct | ty rw sx ct]; [| |discriminate Ho].
  - rewrite (ro_state_fixed Hl Hc pre Hn).
    destruct (snd (step (mkpol E P) anon s0 (HUse i ct))) as [[[| |]| |]|rr] eqn:Hs; try exact I.
    + destruct (C33_rw_needs_window _ _ _ _ _ _ _ _ [] _ _ Hl Hs)
        as (a & W & [[_ Hw]|[[(j & [])|(ty & sx & [])] _]] & _).
      apply C33_login_window_bounded in Hw as (_ & _ & Hw). congruence.
    + apply use_step in Hs as (k & _ & Hu). exact (use_not_sync Hu).
    + discriminate Hs.
  - cbn [step]. destruct (reauth (mkpol E P) anon _ i rw ct) as [u'| | | |e|] eqn:Hr; try exact I.
    destruct (reauth_sound Hl Hr) as [Hro _]. congruence.
Qed.

(* AN ORDINARY LOGIN IS READ-ONLY UNTIL RE-AUTHENTICATION: a non-privileged login of any type
   but GeneratedPassword (break-glass accounts, read-write for at most an hour by design) never
   yields ReadWrite before a read-write re-authentication has happened in the history. *)
Theorem C33_plain_login_ro_until_reauth : forall E P anon t t0 lg s0 pre i ct,
  is_genpw t = false ->
  login (mkpol E P) t false t0 = (lg, Some s0) ->
  (forall j a, ~ In (HReauth j true a) pre) ->
  (forall ty sx a, ~ In (HRaw ty true sx a) pre) ->
  snd (step (mkpol E P) anon (state_after (mkpol E P) anon s0 pre) (HUse i ct)) <> BUse (OScope AReadWrite).
Proof.
  intros E P anon t t0 lg s0 pre i ct Hg Hl Hn1 Hn2 Hs.
  destruct (C33_rw_needs_window _ _ _ _ _ _ _ _ _ _ _ Hl Hs) as (a & W & [[_ Hw]|[[(j & Hj)|(ty & sx & Hr)] _]] & _).
  - unfold spec_login_window in Hw. rewrite Hg in Hw. destruct (ro_class t); discriminate.
  - exact (Hn1 _ _ Hj).
  - exact (Hn2 _ _ _ Hr).
Qed.

(* RE-AUTHENTICATION NEVER EXTENDS THE SESSION: a token issued by a successful re-authentication
   carries exactly the expiry of the login token (and the session is not an anonymous /
   OAuth2-trust one) ... *)
Theorem C33_reauth_keeps_expiry : forall E P anon t priv t0 u0 r s0 pre i rw ct u,
  login (mkpol E P) t priv t0 = (IOk u0 r, Some s0) ->
  snd (step (mkpol E P) anon (state_after (mkpol E P) anon s0 pre) (HReauth i rw ct)) = BRe (ROk u) ->
  u_expiry u = u_expiry u0 /\ ro_class t = false.
Proof.
  intros E P anon t priv t0 u0 r s0 pre i rw ct u Hl Hs. cbn [step] in Hs.
  destruct (reauth (mkpol E P) anon _ i rw ct) as [u'| | | |e|] eqn:Hr; try discriminate Hs.
  injection Hs as ->. destruct (reauth_sound Hl Hr) as (Hro & He & _).
  split; [exact He | exact Hro].
Qed.

(* ... and on every account whose sessions are recorded (all but `anonymous`), NO token of the
   session — not even one minted by calling issue_uat directly with a later expiry — is accepted
   after the expiry fixed at login, which is at most login + session expiry E. *)
Theorem C33_session_never_outlives_login_expiry : forall E P t priv t0 u0 r s0 pre i ct sc,
  login (mkpol E P) t priv t0 = (IOk u0 r, Some s0) -> r <> None ->
  snd (step (mkpol E P) false (state_after (mkpol E P) false s0 pre) (HUse i ct)) = BUse (OScope sc) ->
  exists x, u_expiry u0 = Some x /\ ct <= x /\ x <= trunc t0 + E * G.
Proof.
  intros E P t priv t0 u0 r s0 pre i ct sc Hl Hr (k & _ & Hu)%use_step.
  destruct (login_token (proj1 (login_inv Hl))) as (_ & (x & Hx & Hle) & Hrec & _).
  exists x. split; [exact Hx | split; [|exact Hle]].
  apply (use_bound Hl Hu).
  destruct r as [[[sc' sx] ty]|]; [|congruence]. destruct (Hrec _ _ _ eq_refl) as [_ ->]. exact Hx.
Qed.

(* Function level, all nine authentication types and both intents: a token issued by issue_uat at
   time a yields ReadWrite at ct only inside the window of that call. *)
Theorem C33_issue_window : forall i t a E P u r ct,
  issue_uat i t a (mkpol E P) = IOk u r -> uat_scope (ser u) ct = AReadWrite ->
  exists W,
    match i with
    | IInitial priv => spec_login_window E t priv = Some W /\ W <= LIMITED
    | IReauth rw _ => rw = true /\ W = P
    end /\ ct < trunc a + W * G.
Proof.
  intros i t a E P u r ct Hi Hs. destruct i as [priv | rw sx].
  - destruct (login_token Hi) as (Hser & _ & _ & Hok). rewrite Hser in Hs.
    destruct (tk_ok_rw Hok Hs) as (W & Hw & Hlt). exists W.
    split; [split; [exact Hw | apply (C33_login_window_bounded _ _ _ _ Hw)] | exact Hlt].
  - destruct (tk_ok_rw (proj2 (reissue_token Hi)) Hs) as (W & Hw & Hlt). exists W.
    split; [exact (reauth_window_some Hw) | exact Hlt].
Qed.

(* Anonymous / OAuth2-trust: the issued token is ReadOnly and a re-authentication is refused. *)
Theorem C33_ro_types_issue : forall t priv ct E P,
  ro_class t = true ->
  (exists u r, issue_uat (IInitial priv) t ct (mkpol E P) = IOk u r /\ u_purpose (ser u) = PReadOnly) /\
  (forall rw sx, issue_uat (IReauth rw sx) t ct (mkpol E P) = IErr EAU0006).
Proof.
  intros t priv ct E P Hc. destruct t; try discriminate Hc; (split; [|reflexivity]);
    cbn; eexists; eexists; (split; [reflexivity|reflexivity]).
Qed.

(* Certificate and LDAP password identities are read-only; an API token is read-write only if it
   was issued read-write and is not expired (the stated exception). *)
Theorem C33_cert_ldap_api : forall ct,
  cert_use ct = OScope AReadOnly /\ cert_uat_use ct = OScope AReadOnly /\ ldap_use ct = OScope AReadOnly /\
  forall rw e, api_use rw e ct = OScope AReadWrite ->
    rw = true /\ match e with Some x => ct < x | None => True end.
Proof.
  intro ct. split; [reflexivity|]. split; [apply cert_uat_use_ro|]. split; [reflexivity|].
  intros rw e. apply api_use_rw.
Qed.

(* The answers of a whole run are exactly the step answers used in the theorems above. *)
Theorem C33_run_decompose : forall pol anon pre s o post,
  run pol anon s (pre ++ o :: post) =
  run pol anon s pre
  ++ snd (step pol anon (state_after pol anon s pre) o)
  :: run pol anon (state_after pol anon s (pre ++ [o])) post.
Proof.
  intros pol anon pre. induction pre as [|p r IH]; intros s o post; cbn [app run state_after].
  - destruct (step pol anon s o) as [s1 b]. reflexivity.
  - destruct (step pol anon s p) as [s1 b] eqn:Hs. cbn [fst]. rewrite IH. reflexivity.
Qed.

(* Soundness of the run-time tie: whenever the implementation's observations agree with the
   model, the property's executable predicate holds on those observations. *)
Theorem C33_agree_implies_property : forall c : case, agree c = true -> pcheck c = true.
Proof.
  intros [E P anon t priv t0 lg ops | rw e uses | uses | uses]; cbn [agree pcheck].
  - destruct (login (mkpol E P) t priv t0) as [m [s0|]] eqn:Hl; rewrite andb_true_iff;
      intros [<-%ires_eqb_eq Hag].
    + destruct (login_some Hl) as (u & r & ->). exact (session_pcheck Hl ops Hag).
    + unfold login in Hl. destruct (issue_uat (IInitial priv) t t0 (mkpol E P)); [discriminate|].
      injection Hl as <-. exact Hag.
  - apply forallb_impl. intros [ct o]. cbn [fst snd]. intros <-%outcome_eqb_eq.
    destruct (api_use rw e ct) as [[| |]| |] eqn:Ha; try reflexivity.
    + apply api_use_rw in Ha as [-> Hx]. destruct e; [apply N.ltb_lt; exact Hx | reflexivity].
    + unfold api_use in Ha. destruct (match e with Some x => x <=? ct | None => false end), rw; discriminate.
  - apply forallb_impl. intros [ct o]. cbn [fst snd]. intros <-%outcome_eqb_eq. reflexivity.
  - apply forallb_impl. intros [ct [o1 o2]]. cbn [fst snd]. rewrite andb_true_iff.
    intros [<-%outcome_eqb_eq <-%outcome_eqb_eq]. rewrite cert_uat_use_ro. reflexivity.
Qed.
