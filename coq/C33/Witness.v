(* Non-vacuity: concrete sessions meet the hypotheses of the implication
   theorems, and the executable property predicate rejects fabricated bad observations. *)
From Coq Require Import List NArith Bool.
Import ListNotations.
Require Import KV.C33.Model KV.C33.Proofs.
Open Scope N_scope.

Definition s (n : N) : N := n * G.
Definition pol1 := mkpol 7200 600.
Definition t0 : N := s 10 + 500000000.                 (* 10.5 s *)

(* the session a login opens (closed terms, so that vm_compute decides the examples) *)
Definition sess (pol : policy) (t : authtype) (priv : bool) : st :=
  match snd (login pol t priv t0) with Some s0 => s0 | None => mkst None [] end.
Definition opened (pol : policy) (t : authtype) (priv : bool) : Prop :=
  login pol t priv t0 = (fst (login pol t priv t0), Some (sess pol t priv)).

(* an ordinary password login: read-only; a read-write re-authentication at 100 s opens 600 s of
   write access on the NEW token only; the session still ends at 10 s + 7200 s.  The third conjunct is the
   hypothesis of C33_rw_needs_window; the last two are hypotheses of C33_plain_login_ro_until_reauth for the
   prefix [HUse 0 (s 11)] (which has no HRaw either) *)
Definition pre1 : list hop := [HUse 0 (s 11); HReauth 0 true (s 100 + 7)].
Example C33_witness_window :
  let s0 := sess pol1 TPassword false in opened pol1 TPassword false /\
  run pol1 false s0 (pre1 ++ [HUse 1 (s 300); HUse 1 (s 700 - 1); HUse 1 (s 700); HUse 0 (s 300);
                              HUse 1 (s 7210); HUse 1 (s 7210 + 1); HReauth 1 false (s 400)])
  = [BUse (OScope AReadOnly);
     BRe (ROk (mkuat (s 100) (Some (s 7210)) (PReadWrite (Some (s 700)))));
     BUse (OScope AReadWrite); BUse (OScope AReadWrite); BUse (OScope AReadOnly); BUse (OScope AReadOnly);
     BUse (OScope AReadOnly); BUse OExpired;
     BRe (ROk (mkuat (s 400) (Some (s 7210)) (PReadWrite None)))] /\
  snd (step pol1 false (state_after pol1 false s0 pre1) (HUse 1 (s 300))) = BUse (OScope AReadWrite) /\
  (forall j a, ~ In (HReauth j true a) [HUse 0 (s 11)]) /\ is_genpw TPassword = false.
Proof.
  cbv zeta. split; [vm_compute; reflexivity|]. split; [vm_compute; reflexivity|].
  split; [vm_compute; reflexivity|]. split; [|reflexivity].
  intros j a [H|[]]. discriminate H.
Qed.

(* hypotheses of C33_reauth_keeps_expiry / C33_session_never_outlives_login_expiry *)
Example C33_witness_reauth_expiry :
  let s0 := sess pol1 TPassword false in
  let u0 := mkuat (s 10) (Some (s 7210)) (PReadWrite None) in
  let r := Some (ScPrivilegeCapable, Some (s 7210), TPassword) in
  let u := mkuat (s 100) (Some (s 7210)) (PReadWrite (Some (s 700))) in
  login pol1 TPassword false t0 = (IOk u0 r, Some s0) /\ r <> None /\
  snd (step pol1 false (state_after pol1 false s0 [HUse 0 (s 11)]) (HReauth 0 true (s 100 + 7))) = BRe (ROk u) /\
  u_expiry u0 = Some (s 7210) /\
  snd (step pol1 false (state_after pol1 false s0 pre1) (HUse 1 (s 7210))) = BUse (OScope AReadOnly).
Proof.
  cbv zeta. split; [vm_compute; reflexivity|]. split; [discriminate|].
  split; [vm_compute; reflexivity|]. split; vm_compute; reflexivity.
Qed.

(* anonymous and OAuth2-trust logins (privileged flag set!): read-only, re-authentication refused *)
Example C33_witness_always_ro :
  ro_class TAnonymous = true /\ ro_class TOAuth2Trust = true /\
  let s0 := sess pol1 TAnonymous true in let s0' := sess pol1 TOAuth2Trust true in
    opened pol1 TAnonymous true /\
    run pol1 true s0 [HUse 0 (s 11); HReauth 0 true (s 12); HUse 0 (s 7211)]
    = [BUse (OScope AReadOnly); BRe RNoSession; BUse OExpired] /\
    opened pol1 TOAuth2Trust true /\
    run pol1 false s0' [HUse 0 (s 11); HReauth 0 true (s 12)]
    = [BUse (OScope AReadOnly); BRe RMayNotReauth] /\
    no_raw [HUse 0 (s 11); HReauth 0 true (s 12)].
Proof.
  split; [reflexivity|]. split; [reflexivity|]. cbv zeta.
  split; [vm_compute; reflexivity|]. split; [vm_compute; reflexivity|].
  split; [vm_compute; reflexivity|]. split; [vm_compute; reflexivity|].
  intros o [<-|[<-|[]]]; reflexivity.
Qed.

(* a privileged passkey login is read-write for min(E, 3600) s and cannot be extended; a generated
   password is read-write without the flag; with E = 30 the window is the 30 s of the session *)
Example C33_witness_privileged :
  let s0 := sess pol1 TPasskey true in opened pol1 TPasskey true /\
  run pol1 false s0 [HUse 0 (s 3610 - 1); HUse 0 (s 3610); HUse 0 (s 3610 + 1); HReauth 0 true (s 20)]
  = [BUse (OScope AReadWrite); BUse (OScope AReadOnly); BUse OExpired; BRe RMayNotReauth] /\
  spec_login_window 7200 TPasskey true = Some 3600 /\
  spec_login_window 7200 TGeneratedPassword false = Some 3600 /\
  spec_login_window 30 TPassword true = Some 30 /\
  spec_login_window 7200 TPassword false = None.
Proof. cbv zeta. repeat split; vm_compute; reflexivity. Qed.

(* issue_uat called directly: a re-issue with the session's expiry works for 600 s; one with a
   LATER session expiry is rejected against the stored session at every time *)
Example C33_witness_raw :
  let s0 := sess pol1 TPasswordTotp false in opened pol1 TPasswordTotp false /\
  run pol1 false s0 [HRaw TPasswordTotp true (Some (s 7210)) (s 50); HUse 1 (s 60); HUse 1 (s 650);
                     HRaw TPasskey true (Some (s 9999)) (s 70); HUse 2 (s 71);
                     HRaw TGeneratedPassword true (Some (s 7210)) (s 80)]
  = [BRe (ROk (mkuat (s 50) (Some (s 7210)) (PReadWrite (Some (s 650)))));
     BUse (OScope AReadWrite); BUse (OScope AReadOnly);
     BRe (ROk (mkuat (s 70) (Some (s 9999)) (PReadWrite (Some (s 670)))));
     BUse OExpired; BRe (RIssueErr EAU0006)].
Proof. cbv zeta. split; vm_compute; reflexivity. Qed.

(* the executable predicate is not vacuous: it accepts the faithful observation of the first
   witness and rejects (a) write access without a window, (b) write access after the window,
   (c) a re-authentication that extends the session, (d) a read-write certificate identity *)
Definition obs_ok : case :=
  CSess 7200 600 false TPassword false t0
    (IOk (mkuat (s 10) (Some (s 7210)) (PReadWrite None)) (Some (ScPrivilegeCapable, Some (s 7210), TPassword)))
    [(HUse 0 (s 11), BUse (OScope AReadOnly));
     (HReauth 0 true (s 100 + 7), BRe (ROk (mkuat (s 100) (Some (s 7210)) (PReadWrite (Some (s 700))))));
     (HUse 1 (s 300), BUse (OScope AReadWrite)); (HUse 1 (s 700), BUse (OScope AReadOnly))].
Definition obs_no_window : case :=
  CSess 7200 600 false TPassword false t0
    (IOk (mkuat (s 10) (Some (s 7210)) (PReadWrite None)) (Some (ScPrivilegeCapable, Some (s 7210), TPassword)))
    [(HUse 0 (s 11), BUse (OScope AReadWrite))].
Definition obs_late : case :=
  CSess 7200 600 false TPassword false t0
    (IOk (mkuat (s 10) (Some (s 7210)) (PReadWrite None)) (Some (ScPrivilegeCapable, Some (s 7210), TPassword)))
    [(HReauth 0 true (s 100 + 7), BRe (ROk (mkuat (s 100) (Some (s 7210)) (PReadWrite (Some (s 700))))));
     (HUse 1 (s 700), BUse (OScope AReadWrite))].
Definition obs_extended : case :=
  CSess 7200 600 false TPassword false t0
    (IOk (mkuat (s 10) (Some (s 7210)) (PReadWrite None)) (Some (ScPrivilegeCapable, Some (s 7210), TPassword)))
    [(HReauth 0 true (s 100), BRe (ROk (mkuat (s 100) (Some (s 7300)) (PReadWrite (Some (s 700))))))].
Example C33_witness_pcheck :
  agree obs_ok = true /\ pcheck obs_ok = true /\
  pcheck obs_no_window = false /\ agree obs_no_window = false /\
  pcheck obs_late = false /\ pcheck obs_extended = false /\
  pcheck (CCert [(s 5, (OScope AReadWrite, OScope AReadOnly))]) = false /\
  pcheck (CLdap [(s 5, OScope AReadWrite)]) = false /\
  pcheck (CApi false None [(s 5, OScope AReadWrite)]) = false /\
  pcheck (CApi true (Some (s 9)) [(s 5, OScope AReadWrite); (s 9, OExpired)]) = true.
Proof. vm_compute. repeat split; reflexivity. Qed.
