(* What issue_uat issues (tk_ok); what a step does to a session (the stored record stays, tokens are only
   added, each by the operation recorded in it: session_inv); for a session opened by a login, what an
   accepted token and a successful re-authentication imply. *)
From Coq Require Import List NArith Bool Lia.
Import ListNotations.
Require Import KV.C33.Model.
Open Scope N_scope.

Lemma G_nz : G <> 0. Proof. discriminate. Qed.
Lemma G_pos : 0 < G. Proof. reflexivity. Qed.

Lemma trunc_le : forall t, trunc t <= t.
Proof. intro t. unfold trunc. rewrite N.mul_comm. apply N.mul_div_le. exact G_nz. Qed.

Lemma trunc_add : forall t k, trunc (t + k * G) = trunc t + k * G.
Proof.
  intros t k. unfold trunc. rewrite N.div_add by exact G_nz. apply N.mul_add_distr_r.
Qed.

Lemma trunc_mul : forall k, trunc (k * G) = k * G.
Proof. intro k. unfold trunc. rewrite N.div_mul by exact G_nz. reflexivity. Qed.

Lemma trunc_idem : forall t, trunc (trunc t) = trunc t.
Proof. intro t. unfold trunc at 2. apply trunc_mul. Qed.

Lemma min_window : forall c e l, N.min (c + e * G) (c + l * G) = c + N.min e l * G.
Proof.
  intros c e l. rewrite N.add_min_distr_l. f_equal. apply N.mul_min_distr_r.
Qed.

Lemma option_eqb_eq {A} (eqb : A -> A -> bool) :
  (forall x y, eqb x y = true -> x = y) ->
  forall a b, match a, b with Some x, Some y => eqb x y | None, None => true | _, _ => false end = true -> a = b.
Proof. intros He [x|] [y|] H; try discriminate; [f_equal; apply He; exact H | reflexivity]. Qed.

Lemma optN_eqb_eq : forall a b, optN_eqb a b = true -> a = b.
Proof. apply option_eqb_eq. intros x y. apply N.eqb_eq. Qed.
Lemma optN_eqb_refl : forall a, optN_eqb a a = true.
Proof. intros [a|]; [apply N.eqb_refl | reflexivity]. Qed.
Lemma purpose_eqb_eq : forall a b, purpose_eqb a b = true -> a = b.
Proof. intros [|x] [|y]; cbn; try discriminate; [|intros ->%optN_eqb_eq]; reflexivity. Qed.
Lemma uat_eqb_eq : forall a b, uat_eqb a b = true -> a = b.
Proof.
  intros [i1 e1 p1] [i2 e2 p2]. unfold uat_eqb. cbn. rewrite !andb_true_iff.
  intros [[->%N.eqb_eq ->%optN_eqb_eq] ->%purpose_eqb_eq]. reflexivity.
Qed.
Lemma at_code_inj : forall a b, at_code a =? at_code b = true -> a = b.
Proof. intros [] []; (reflexivity || discriminate). Qed.
Lemma sc_code_inj : forall a b, sc_code a =? sc_code b = true -> a = b.
Proof. intros [] []; (reflexivity || discriminate). Qed.
Lemma ierr_code_inj : forall a b, ierr_code a =? ierr_code b = true -> a = b.
Proof. intros [] []; (reflexivity || discriminate). Qed.
Lemma as_code_inj : forall a b, as_code a =? as_code b = true -> a = b.
Proof. intros [] []; (reflexivity || discriminate). Qed.
Lemma srec_eqb_eq : forall a b, srec_eqb a b = true -> a = b.
Proof.
  intros [[s1 e1] t1] [[s2 e2] t2]. cbn. rewrite !andb_true_iff.
  intros [[->%sc_code_inj ->%optN_eqb_eq] ->%at_code_inj]. reflexivity.
Qed.
Lemma osrec_eqb_eq : forall a b, osrec_eqb a b = true -> a = b.
Proof. apply option_eqb_eq. exact srec_eqb_eq. Qed.
Lemma ires_eqb_eq : forall a b, ires_eqb a b = true -> a = b.
Proof.
  intros [u r|e] [u' r'|e']; cbn; try discriminate.
  - rewrite andb_true_iff. intros [->%uat_eqb_eq ->%osrec_eqb_eq]. reflexivity.
  - intros ->%ierr_code_inj. reflexivity.
Qed.
Lemma outcome_eqb_eq : forall a b, outcome_eqb a b = true -> a = b.
Proof. intros [x| |] [y| |]; cbn; try discriminate; [intros ->%as_code_inj| |]; reflexivity. Qed.
Lemma rres_eqb_eq : forall a b, rres_eqb a b = true -> a = b.
Proof.
  intros [u| | | |e|] [u'| | | |e'|]; cbn; try discriminate; try reflexivity.
  - intros ->%uat_eqb_eq. reflexivity.
  - intros ->%ierr_code_inj. reflexivity.
Qed.
Lemma hobs_eqb_eq : forall a b, hobs_eqb a b = true -> a = b.
Proof.
  intros [x|x] [y|y]; cbn; try discriminate.
  - intros ->%outcome_eqb_eq. reflexivity.
  - intros ->%rres_eqb_eq. reflexivity.
Qed.

Lemma forallb_impl {A} (f g : A -> bool) l :
  (forall x, f x = true -> g x = true) -> forallb f l = true -> forallb g l = true.
Proof. rewrite !forallb_forall. intros Hfg H x Hx. apply Hfg, H, Hx. Qed.

Lemma use_scope {db anon u ct sc} :
  use db anon u ct = OScope sc ->
  token_expired u ct = false /\ session_valid db anon u ct = true /\ sc = uat_scope u ct.
Proof.
  unfold use. destruct (token_expired u ct); [discriminate|].
  destruct (session_valid db anon u ct); [|discriminate].
  intros [= <-]. repeat split.
Qed.

Lemma uat_scope_rw : forall u ct,
  uat_scope u ct = AReadWrite -> exists e, u_purpose u = PReadWrite (Some e) /\ ct < e.
Proof.
  intros u ct H. unfold uat_scope in H.
  destruct (u_purpose u) as [|[e|]]; try discriminate.
  destruct (ct <? e) eqn:E; [|discriminate]. exists e. split; [reflexivity | apply N.ltb_lt; exact E].
Qed.

Lemma uat_scope_not_sync : forall u ct, uat_scope u ct <> ASynchronise.
Proof.
  intros u ct. unfold uat_scope. destruct (u_purpose u) as [|[e|]]; try discriminate.
  destruct (ct <? e); discriminate.
Qed.

Lemma no_window_readonly : forall u ct,
  (forall e, u_purpose u <> PReadWrite (Some e)) -> uat_scope u ct = AReadOnly.
Proof.
  intros u ct H. unfold uat_scope. destruct (u_purpose u) as [|[e|]]; try reflexivity.
  exfalso. exact (H e eq_refl).
Qed.

Lemma use_not_sync {db anon u ct} : use db anon u ct <> OScope ASynchronise.
Proof. intros (_ & _ & H)%use_scope. exact (uat_scope_not_sync u ct (eq_sym H)). Qed.

Lemma api_use_rw : forall rw e ct,
  api_use rw e ct = OScope AReadWrite -> rw = true /\ match e with Some x => ct < x | None => True end.
Proof.
  intros rw e ct. unfold api_use. destruct e as [x|].
  - destruct (x <=? ct) eqn:Hx; [discriminate|]. apply N.leb_gt in Hx.
    destruct rw; [split; [reflexivity | exact Hx] | discriminate].
  - destruct rw; [split; [reflexivity | exact I] | discriminate].
Qed.

Lemma cert_uat_use_ro : forall ct, cert_uat_use ct = OScope AReadOnly.
Proof.
  intro ct. unfold cert_uat_use, use, cert_uat, token_expired, session_valid, uat_scope.
  cbn [u_expiry u_issued u_purpose].
  assert (H : ct <? ct + GRACE = true).
  { apply N.ltb_lt. assert (0 < GRACE) by reflexivity. lia. }
  rewrite H. reflexivity.
Qed.

(* every theorem about write access rests on this: a token's write deadline, if it has one, is the end of
   the window attached to the event that issued it *)
Definition tk_ok (k : tk) : Prop :=
  forall e, u_purpose (tk_u k) = PReadWrite (Some e) ->
  exists W, tk_win k = Some W /\ e = trunc (tk_at k) + W * G.

Lemma tk_ok_rw {k ct} :
  tk_ok k -> uat_scope (tk_u k) ct = AReadWrite ->
  exists W, tk_win k = Some W /\ ct < trunc (tk_at k) + W * G.
Proof.
  intros Hok (e & He & Hlt)%uat_scope_rw. destruct (Hok e He) as (W & Hw & ->).
  exists W. split; [exact Hw | exact Hlt].
Qed.

Lemma use_rw {db anon k ct} :
  tk_ok k -> use db anon (tk_u k) ct = OScope AReadWrite ->
  exists W, tk_win k = Some W /\ ct < trunc (tk_at k) + W * G.
Proof. intros Hok (_ & _ & H)%use_scope. exact (tk_ok_rw Hok (eq_sym H)). Qed.

Lemma reauth_window_some {P rw W} : spec_reauth_window P rw = Some W -> rw = true /\ W = P.
Proof. destruct rw; intros [= <-]. split; reflexivity. Qed.

Lemma login_window_scope : forall E t priv,
  spec_login_window E t priv =
  match initial_scope t priv with ScReadWrite => Some (N.min E LIMITED) | _ => None end.
Proof. intros E [] []; reflexivity. Qed.

Lemma login_token {E P t priv t0 u r} :
  issue_uat (IInitial priv) t t0 (mkpol E P) = IOk u r ->
  ser u = u /\
  (exists x, u_expiry u = Some x /\ x <= trunc t0 + E * G) /\
  (forall sc sx ty, r = Some (sc, sx, ty) -> sc = initial_scope t priv /\ sx = u_expiry u) /\
  tk_ok (mktk u t0 (spec_login_window E t priv)).
Proof.
  unfold issue_uat. destruct (to_uat _ t0 _) as [u'|] eqn:Hu; [|discriminate]. intros [= <- <-].
  assert (Hr : forall sc sx ty,
    match t with TAnonymous => None | _ => Some (initial_scope t priv, u_expiry u', t) end = Some (sc, sx, ty) ->
    sc = initial_scope t priv /\ sx = u_expiry u').
  { intros sc sx ty H. destruct t; inversion H; split; reflexivity. }
  unfold tk_ok. rewrite login_window_scope. revert Hu. unfold to_uat. cbn [p_sess tk_u tk_at tk_win].
  rewrite min_window.
  destruct (initial_scope t priv); intros [= <-]; unfold ser; cbn [u_issued u_expiry u_purpose option_map];
    rewrite ?trunc_add, !trunc_idem; (split; [reflexivity|]); (split; [|split; [exact Hr|]]).
  1,3,5: eexists; split; [reflexivity | apply N.add_le_mono_l, N.mul_le_mono_r; lia].
  1,3: discriminate.
  intros e [= <-]. eexists. split; reflexivity.
Qed.

Lemma reissue_token {pol t rw sx ct u r} :
  issue_uat (IReauth rw sx) t ct pol = IOk u r ->
  u_expiry (ser u) = option_map trunc sx /\ tk_ok (mktk (ser u) ct (spec_reauth_window (p_priv pol) rw)).
Proof.
  unfold issue_uat. destruct (reauth_scope t) as [sc|] eqn:Hs; [|discriminate].
  assert (sc = ScPrivilegeCapable) as -> by (destruct t; cbn in Hs; congruence).
  unfold to_reissue, tk_ok, ser.
  destruct rw; intros [= <- <-]; cbn [tk_u tk_at tk_win u_issued u_expiry u_purpose option_map];
    (split; [reflexivity|]); intros e [= <-].
  exists (p_priv pol). split; [reflexivity | apply trunc_add].
Qed.

Lemma tok_in {s i k} : tok s i = Some k -> In k (s_toks s).
Proof. apply nth_error_In. Qed.

Lemma use_step {pol anon s i ct sc} :
  snd (step pol anon s (HUse i ct)) = BUse (OScope sc) ->
  exists k, tok s i = Some k /\ use (s_db s) anon (tk_u k) ct = OScope sc.
Proof.
  cbn [step snd]. destruct (tok s i) as [k|]; intros [= H]. exists k. split; [reflexivity | exact H].
Qed.

Lemma reauth_ok {pol anon s i rw ct u} :
  reauth pol anon s i rw ct = ROk u ->
  exists sx ty u' r', s_db s = Some (ScPrivilegeCapable, sx, ty) /\
    issue_uat (IReauth rw sx) ty ct pol = IOk u' r' /\ u = ser u'.
Proof.
  unfold reauth. destruct (tok s i) as [k|]; [|discriminate].
  destruct (use (s_db s) anon (tk_u k) ct); try discriminate.
  destruct (s_db s) as [[[[] sx] ty]|]; try discriminate.
  destruct (issue_uat (IReauth rw sx) ty ct pol) as [u' r'|e] eqn:Hi; [|discriminate].
  intros [= <-]. exists sx, ty, u', r'. repeat split. exact Hi.
Qed.

(* o may have minted k: k records the time of o and the window the specification attaches to o *)
Definition origin (P : N) (o : hop) (k : tk) : Prop :=
  match o with
  | HUse _ _ => False
  | HReauth _ rw ct | HRaw _ rw _ ct => tk_at k = ct /\ tk_win k = spec_reauth_window P rw
  end.

Lemma step_state : forall pol anon s o,
  fst (step pol anon s o) = s \/
  exists k, fst (step pol anon s o) = add s k /\ tk_ok k /\ origin (p_priv pol) o k.
Proof.
  intros pol anon s [i ct | i rw ct | ty rw sx ct]; cbn [step].
  - left. reflexivity.
  - destruct (reauth pol anon s i rw ct) as [u| | | |e|] eqn:Hr; try (left; reflexivity).
    destruct (reauth_ok Hr) as (sx & ty & u' & r' & _ & Hi & ->).
    right. eexists. split; [reflexivity|]. split; [exact (proj2 (reissue_token Hi)) | split; reflexivity].
  - destruct (issue_uat (IReauth rw sx) ty ct pol) as [u' r'|e] eqn:Hi; [|left; reflexivity].
    right. eexists. split; [reflexivity|]. split; [exact (proj2 (reissue_token Hi)) | split; reflexivity].
Qed.

Lemma state_after_snoc : forall pol anon ops s o,
  state_after pol anon s (ops ++ [o]) = fst (step pol anon (state_after pol anon s ops) o).
Proof.
  intros pol anon ops. induction ops as [|p ops IH]; intros s o; cbn [app state_after]; [reflexivity | apply IH].
Qed.

(* histories of the real flows: no direct issue_uat call *)
Definition is_raw (o : hop) : bool := match o with HRaw _ _ _ _ => true | _ => false end.
Definition no_raw (ops : list hop) : Prop := forall o, In o ops -> is_raw o = false.

Lemma login_some {pol t priv t0 lg s0} :
  login pol t priv t0 = (lg, Some s0) -> exists u r, lg = IOk u r.
Proof.
  unfold login.
  destruct (issue_uat (IInitial priv) t t0 pol) as [u r|e]; intros [= <- _]. exists (ser u), r. reflexivity.
Qed.

(* what the observations of a session are checked against in p_ops *)
Definition wins (s : st) : list (N * option N) := map (fun k => (tk_at k, tk_win k)) (s_toks s).
Definition rexp_of (r : option srec) : option (option N) :=
  match r with Some (_, sx, _) => Some sx | None => None end.
Definition bound_of (anon : bool) (r : option srec) : option N :=
  match r with Some (_, sx, _) => if anon then None else sx | None => None end.

Lemma wins_nth {s i k} :
  tok s i = Some k -> nth_error (wins s) (N.to_nat i) = Some (tk_at k, tk_win k).
Proof. apply map_nth_error. Qed.

Lemma wins_add : forall s u a w, wins (add s (mktk u a w)) = wins s ++ [(a, w)].
Proof. intros s u a w. apply map_app. Qed.

Section Session.
Context {E P : N} {anon : bool} {t : authtype} {priv : bool} {t0 : N} {u0 : uat} {r : option srec} {s0 : st}.
Hypothesis Hl : login (mkpol E P) t priv t0 = (IOk u0 r, Some s0).
Local Notation pol := (mkpol E P).

Lemma login_inv :
  issue_uat (IInitial priv) t t0 pol = IOk u0 r /\ s0 = mkst r [mktk u0 t0 (spec_login_window E t priv)].
Proof.
  revert Hl. unfold login. destruct (issue_uat (IInitial priv) t t0 pol) as [u r'|e] eqn:Hi; [|discriminate].
  rewrite (proj1 (login_token Hi)). intros [= -> -> <-]. split; reflexivity.
Qed.

Lemma login_wins : wins s0 = [(t0, spec_login_window E t priv)].
Proof. rewrite (proj2 login_inv). reflexivity. Qed.

Lemma session_inv : forall pre,
  s_db (state_after pol anon s0 pre) = r /\
  forall k, In k (s_toks (state_after pol anon s0 pre)) ->
    tk_ok k /\ ((tk_at k = t0 /\ tk_win k = spec_login_window E t priv) \/ exists o, In o pre /\ origin P o k).
Proof.
  intro pre. induction pre as [|o pre [Hdb Htk]] using rev_ind.
  - destruct login_inv as [Hi ->]. split; [reflexivity|]. intros k [<-|[]].
    split; [apply (login_token Hi) | left; split; reflexivity].
  - rewrite state_after_snoc.
    assert (Hold : forall k, In k (s_toks (state_after pol anon s0 pre)) ->
      tk_ok k /\ ((tk_at k = t0 /\ tk_win k = spec_login_window E t priv) \/
                  exists o', In o' (pre ++ [o]) /\ origin P o' k)).
    { intros k [Hok [Hlg|(o' & Ho' & Hor)]]%Htk; (split; [exact Hok|]); [left; exact Hlg|].
      right. exists o'. split; [apply in_or_app; left; exact Ho' | exact Hor]. }
    destruct (step_state pol anon (state_after pol anon s0 pre) o) as [->|(k' & -> & Hok & Hor)];
      (split; [exact Hdb|]); [exact Hold|].
    intros k [Hk|[<-|[]]]%in_app_or; [exact (Hold k Hk)|].
    split; [exact Hok|]. right. exists o. split; [apply in_elt | exact Hor].
Qed.

Lemma use_bound {pre u ct sc e} :
  use (s_db (state_after pol anon s0 pre)) anon u ct = OScope sc -> bound_of anon r = Some e -> ct <= e.
Proof.
  rewrite (proj1 (session_inv pre)). intros (Hex & Hsv & _)%use_scope. unfold bound_of, session_valid, token_expired in *.
  destruct r as [[[sc' sx] ty]|]; [|discriminate]. destruct anon; [discriminate|]. intros ->.
  destruct (u_expiry u) as [e'|]; [|discriminate].
  apply N.eqb_eq in Hsv as ->. apply N.ltb_ge. exact Hex.
Qed.

(* a re-authentication needs a PrivilegeCapable record, which anonymous and OAuth2-trust logins do not store *)
Lemma reauth_sound {pre i rw ct u} :
  reauth pol anon (state_after pol anon s0 pre) i rw ct = ROk u ->
  ro_class t = false /\ u_expiry u = u_expiry u0 /\ exists ty, r = Some (ScPrivilegeCapable, u_expiry u0, ty).
Proof.
  intros (sx & ty & u' & r' & Hs & Hi & ->)%reauth_ok. rewrite (proj1 (session_inv pre)) in Hs.
  destruct (login_token (proj1 login_inv)) as (Hser & _ & Hr & _).
  destruct (Hr _ _ _ Hs) as [Hsc ->]. split; [|split].
  - destruct t, priv; (reflexivity || discriminate Hsc).
  - rewrite (proj1 (reissue_token Hi)). exact (f_equal u_expiry Hser).
  - exists ty. exact Hs.
Qed.

Lemma ro_state_fixed : ro_class t = true ->
  forall pre, no_raw pre -> state_after pol anon s0 pre = s0.
Proof.
  intros Hc pre. induction pre as [|o pre IH] using rev_ind; intro Hn; [reflexivity|].
  rewrite state_after_snoc, IH by (intros o' Ho'; apply Hn, in_or_app; left; exact Ho').
  specialize (Hn o (in_elt o pre [])).
  destruct o as [i ct | i rw ct | ty rw sx ct]; cbn [step]; [reflexivity | | discriminate Hn].
  destruct (reauth pol anon s0 i rw ct) as [u| | | |e|] eqn:Hr; try reflexivity.
  destruct (reauth_sound (pre:=[]) Hr) as [Hro _]. congruence.
Qed.

(* along the run the observed answers are the model's, and p_ops asks of each answer what use_rw,
   use_bound and reauth_sound say *)
Lemma ops_bridge : forall ops pre,
  ops_agree pol anon (state_after pol anon s0 pre) ops = true ->
  p_ops P (rexp_of r) (bound_of anon r) (ro_class t) (wins (state_after pol anon s0 pre)) ops = true.
Proof.
  induction ops as [|[o b] rest IH]; intros pre Hag; [reflexivity|].
  specialize (IH (pre ++ [o])). rewrite state_after_snoc in IH.
  pose proof (proj2 (session_inv pre)) as Hok.
  set (s := state_after pol anon s0 pre) in *.
  cbn [ops_agree] in Hag. destruct (step pol anon s o) as [s1 m] eqn:Hst.
  apply andb_prop in Hag as [<-%hobs_eqb_eq Hag]. specialize (IH Hag). cbn [fst] in IH.
  destruct o as [i ct | i rw ct | ty rw sx ct]; cbn [step] in Hst.
  - injection Hst as <- <-.
    destruct (tok s i) as [k|] eqn:Hk; [|exact IH].
    destruct (use (s_db s) anon (tk_u k) ct) as [sc| |] eqn:Hu; try exact IH.
    cbn [p_ops]. rewrite IH, andb_true_r. apply andb_true_intro. split.
    + destruct sc; [reflexivity| |destruct (use_not_sync Hu)].
      destruct (use_rw (proj1 (Hok k (tok_in Hk))) Hu) as (W & Hw & Hlt).
      rewrite (wins_nth Hk), Hw. apply N.ltb_lt. exact Hlt.
    + destruct (bound_of anon r) as [e|] eqn:Hb; [|reflexivity].
      apply negb_true_iff, N.ltb_ge. exact (use_bound Hu Hb).
  - destruct (reauth pol anon s i rw ct) as [u| | | |e|] eqn:Hr; injection Hst as <- <-; try exact IH.
    cbn [p_ops]. rewrite wins_add in IH. rewrite IH, andb_true_r.
    destruct (reauth_sound Hr) as (-> & -> & ty & ->). apply optN_eqb_refl.
  - destruct (issue_uat (IReauth rw sx) ty ct pol) as [u r'|e]; injection Hst as <- <-; [|exact IH].
    cbn [p_ops]. rewrite wins_add in IH. exact IH.
Qed.

Lemma session_pcheck : forall ops,
  ops_agree pol anon s0 ops = true -> pcheck (CSess E P anon t priv t0 (IOk u0 r) ops) = true.
Proof.
  intros ops Hb%(ops_bridge ops []). cbn [state_after] in Hb. rewrite login_wins in Hb.
  destruct (login_token (proj1 login_inv)) as (_ & (x & Hx & _) & Hrec & _).
  cbn [pcheck]. destruct r as [[[sc sx] ty]|]; [|exact Hb].
  destruct (Hrec _ _ _ eq_refl) as [_ ->]. rewrite optN_eqb_refl. rewrite Hx in Hb |- *. exact Hb.
Qed.

End Session.
