(* [decode] is a five-row table on the 8-byte header ([decode_is_clean]). What the decode loop makes
   of a byte string is the relation [run]; [drain] computes it, [parse] (the grammar) computes it,
   and [feed_run] shows that cutting the bytes into reads does not change it. The theorems about
   encoder output, bad headers and EOF are then runs of particular byte strings. *)
From Coq Require Import List NArith Bool Lia.
Import ListNotations.
Require Import KV.C14.Model.
Open Scope N_scope.

Lemma from_be_app : forall a x, from_be (a ++ [x]) = from_be a * 256 + x.
Proof. intros a x. unfold from_be. rewrite fold_left_app. reflexivity. Qed.

Lemma from_be_be_bytes : forall k n, from_be (be_bytes k n) = n mod 256 ^ N.of_nat k.
Proof.
  induction k as [|k IH]; intros n.
  - cbn [be_bytes]. change (N.of_nat 0) with 0. rewrite N.pow_0_r, N.mod_1_r. reflexivity.
  - cbn [be_bytes]. rewrite from_be_app, IH, Nat2N.inj_succ, N.pow_succ_r'.
    assert (Hp : 256 ^ N.of_nat k <> 0) by (apply N.pow_nonzero; discriminate).
    rewrite (N.mod_mul_r n 256 (256 ^ N.of_nat k)) by (try exact Hp; discriminate). lia.
Qed.

Lemma length_be_bytes : forall k n, length (be_bytes k n) = k.
Proof.
  induction k as [|k IH]; intros n; cbn [be_bytes]; [reflexivity|].
  rewrite app_length, IH. cbn. lia.
Qed.

Lemma length_be64 : forall n, length (be64 n) = 8%nat.
Proof. intros n. apply length_be_bytes. Qed.

Lemma from_be_be64 : forall n, n < 2 ^ 64 -> from_be (be64 n) = n.
Proof.
  intros n Hn. unfold be64. rewrite from_be_be_bytes.
  change (256 ^ N.of_nat 8) with (2 ^ 64). apply N.mod_small. exact Hn.
Qed.

Lemma be_bytes_lt : forall k n x, In x (be_bytes k n) -> x < 256.
Proof.
  induction k as [|k IH]; intros n x Hin; cbn [be_bytes] in Hin; [contradiction|].
  apply in_app_or in Hin as [Hin|[<-|[]]]; [eapply IH; exact Hin|].
  apply N.mod_lt. discriminate.
Qed.

Lemma len_app : forall {A} (a b : list A), len (a ++ b) = len a + len b.
Proof. intros A a b. unfold len. rewrite app_length. lia. Qed.

Lemma len_be64 : forall n, len (be64 n) = 8.
Proof. intros n. unfold len. rewrite length_be64. reflexivity. Qed.

Lemma to_nat_len : forall {A} (l : list A), N.to_nat (len l) = length l.
Proof. intros A l. unfold len. apply Nat2N.id. Qed.

Lemma skipn_add : forall {A} y x (l : list A), skipn x (skipn y l) = skipn (y + x) l.
Proof.
  intros A y. induction y as [|y IH]; intros x l; [reflexivity|].
  destruct l as [|a l]; [cbn; destruct x; reflexivity|]. cbn [skipn Nat.add]. apply IH.
Qed.

Lemma firstn_skipn_app : forall {A} n (a b : list A), (n <= length a)%nat ->
  firstn n (a ++ b) = firstn n a /\ skipn n (a ++ b) = skipn n a ++ b.
Proof.
  intros A n a b H. rewrite firstn_app, skipn_app.
  replace (n - length a)%nat with 0%nat by lia. rewrite app_nil_r. split; reflexivity.
Qed.

Lemma hdr_none : forall s, hdr s = None <-> (length s < 8)%nat.
Proof.
  intros s. do 8 (destruct s as [|? s]; [cbn; split; [intros _; lia | reflexivity]|]).
  cbn. split; [discriminate | lia].
Qed.

Lemma hdr_some : forall s n body, hdr s = Some (n, body) ->
  (8 <= length s)%nat /\ n = from_be (firstn 8 s) /\ body = skipn 8 s.
Proof.
  intros s n body H. do 8 (destruct s as [|? s]; [discriminate|]).
  cbn [hdr] in H. injection H as <- <-. split; [cbn; lia|]. split; [|reflexivity].
  cbn [firstn]. unfold from_be. cbn [fold_left]. lia.
Qed.

Lemma hdr_app : forall s n body x, hdr s = Some (n, body) -> hdr (s ++ x) = Some (n, body ++ x).
Proof.
  intros s n body x H. do 8 (destruct s as [|? s]; [discriminate|]).
  cbn [hdr app] in *. injection H as <- <-. reflexivity.
Qed.

Lemma hdr_be64 : forall n x, n < 2 ^ 64 -> hdr (be64 n ++ x) = Some (n, x).
Proof.
  intros n x Hn. assert (L := length_be64 n). destruct (hdr (be64 n ++ x)) as [[n' body]|] eqn:E.
  - apply hdr_some in E as (_ & -> & ->).
    destruct (firstn_skipn_app 8 (be64 n) x) as [-> ->]; [lia|].
    rewrite firstn_all2, skipn_all2, from_be_be64 by (assumption || lia). reflexivity.
  - apply hdr_none in E. rewrite app_length in E. lia.
Qed.

Section P.
  Variable M : Type.
  Variable de : bytes -> option M.
  Variable max : N.
  Notation decode := (Model.decode M de max).
  Notation drain := (Model.drain M de max).
  Notation drain_all := (Model.drain_all M de max).
  Notation feed := (Model.feed M de max).
  Notation parse := (Model.parse M de max).

  (* the same function without the length arithmetic and without the dead "trim" arm *)
  Definition decode_clean (src : bytes) : dres M * bytes :=
    match hdr src with
    | None => (DNeed, src)
    | Some (n, body) =>
      if n =? 0 then (DErr EEmpty, src)
      else if max <? n then (DErr ETooLarge, src)
      else if len body <? n then (DNeed, src)
      else (match de (firstn (N.to_nat n) body) with Some m => DMsg m | None => DErr EBadJson end,
            skipn (N.to_nat n) body)
    end.

  Lemma decode_is_clean : forall src, decode src = decode_clean src.
  Proof.
    intros src. unfold decode_clean. destruct (hdr src) as [[n body]|] eqn:E.
    - apply hdr_some in E as (Hl & Hn & Hb). unfold Model.decode.
      assert (H8 : (len src <? 8) = false) by (apply N.ltb_ge; unfold len; lia).
      rewrite H8. cbv zeta. rewrite <- Hn, <- Hb.
      destruct (N.eqb_spec n 0) as [|E0]; [reflexivity|].
      destruct (max <? n); [reflexivity|].
      destruct (N.ltb_spec (len body) n) as [|E2]; [reflexivity|].
      assert (Hlen : len src = 8 + len body).
      { subst body. unfold len. rewrite skipn_length. lia. }
      assert (Hd : (len src =? n) = false) by (apply N.eqb_neq; lia).
      rewrite Hd. f_equal. subst body. rewrite skipn_add. f_equal. lia.
    - apply hdr_none in E. unfold Model.decode.
      assert (H8 : (len src <? 8) = true) by (apply N.ltb_lt; unfold len; lia).
      rewrite H8. reflexivity.
  Qed.

  Lemma decode_nil : decode [] = (DNeed, []).
  Proof. reflexivity. Qed.

  Lemma decode_app : forall src x d r, d <> DNeed ->
    decode src = (d, r) -> decode (src ++ x) = (d, r ++ x).
  Proof.
    intros src x d r Hd. rewrite !decode_is_clean. unfold decode_clean.
    destruct (hdr src) as [[n body]|] eqn:E; [|congruence].
    rewrite (hdr_app _ _ _ x E).
    destruct (n =? 0); [intros [= <- <-]; reflexivity|].
    destruct (max <? n); [intros [= <- <-]; reflexivity|].
    destruct (N.ltb_spec (len body) n) as [|E2]; [congruence|].
    destruct (N.ltb_spec (len (body ++ x)) n) as [E3|_]; [rewrite len_app in E3; lia|].
    destruct (firstn_skipn_app (N.to_nat n) body x) as [-> ->]; [unfold len in E2; lia|].
    intros [= <- <-]. reflexivity.
  Qed.

  (* fewer than 8 + max bytes: an incomplete header, or a header announcing at most max bytes and an
     incomplete body *)
  Lemma decode_need_inv : forall src r, decode src = (DNeed, r) -> r = src /\ len src < 8 + max.
  Proof.
    intros src r. rewrite decode_is_clean. unfold decode_clean.
    destruct (hdr src) as [[n body]|] eqn:E.
    - apply hdr_some in E as (_ & _ & ->).
      destruct (n =? 0); [discriminate|]. destruct (N.ltb_spec max n) as [|E1]; [discriminate|].
      destruct (N.ltb_spec (len (skipn 8 src)) n) as [E2|]; [|destruct (de _); discriminate].
      intros [= <-]. unfold len in *. rewrite skipn_length in E2. split; [reflexivity|lia].
    - apply hdr_none in E. intros [= <-]. unfold len. split; [reflexivity|lia].
  Qed.

  Lemma decode_msg_inv : forall src m r, decode src = (DMsg m, r) ->
    exists n p, hdr src = Some (n, p ++ r) /\ len p = n /\ 0 < n /\ n <= max /\ de p = Some m.
  Proof.
    intros src m r. rewrite decode_is_clean. unfold decode_clean.
    destruct (hdr src) as [[n body]|]; [|discriminate].
    destruct (N.eqb_spec n 0) as [|E0]; [discriminate|].
    destruct (N.ltb_spec max n) as [|E1]; [discriminate|].
    destruct (N.ltb_spec (len body) n) as [|E2]; [discriminate|].
    destruct (de (firstn (N.to_nat n) body)) as [m'|] eqn:D; [|discriminate].
    intros [= <- <-]. exists n, (firstn (N.to_nat n) body).
    rewrite firstn_skipn. repeat split; try lia; try exact D.
    unfold len in *. rewrite firstn_length. lia.
  Qed.

  Lemma decode_err_inv : forall src e r, decode src = (DErr e, r) ->
    exists n body, hdr src = Some (n, body) /\
      ((e = EEmpty /\ n = 0 /\ r = src) \/ (e = ETooLarge /\ max < n /\ r = src) \/
       (e = EBadJson /\ 0 < n /\ n <= max /\ n <= len body /\ de (firstn (N.to_nat n) body) = None
        /\ r = skipn (N.to_nat n) body)).
  Proof.
    intros src e r. rewrite decode_is_clean. unfold decode_clean.
    destruct (hdr src) as [[n body]|]; [|discriminate]. intros H. exists n, body. split; [reflexivity|].
    destruct (N.eqb_spec n 0) as [E0|E0]. { injection H as <- <-. left. auto. }
    destruct (N.ltb_spec max n) as [E1|E1]. { injection H as <- <-. right. left. auto. }
    destruct (N.ltb_spec (len body) n) as [|E2]; [discriminate|].
    destruct (de (firstn (N.to_nat n) body)) as [m'|] eqn:D; [discriminate|].
    injection H as <- <-. right. right. repeat split; try lia; reflexivity.
  Qed.

  (* 9: the header and at least one byte of body *)
  Lemma decode_msg_shrinks : forall src m r, decode src = (DMsg m, r) -> (length r + 9 <= length src)%nat.
  Proof.
    intros src m r H. apply decode_msg_inv in H as (n & p & E & Hp & H0 & _).
    apply hdr_some in E as (Hl & _ & E). apply (f_equal (@length _)) in E.
    rewrite app_length, skipn_length in E. unfold len in Hp. lia.
  Qed.

  Lemma decode_bad_header : forall n junk, n < 2 ^ 64 ->
    (n = 0 -> decode (be64 n ++ junk) = (DErr EEmpty, be64 n ++ junk)) /\
    (max < n -> decode (be64 n ++ junk) = (DErr ETooLarge, be64 n ++ junk)).
  Proof.
    intros n junk H64. rewrite decode_is_clean. unfold decode_clean. rewrite hdr_be64 by exact H64.
    split; [intros ->; reflexivity|]. intros Hm.
    destruct (N.eqb_spec n 0); [lia|]. destruct (N.ltb_spec max n); [reflexivity | lia].
  Qed.

  (* one constructor per arm of [drain]; no fuel, and no dependence on how the bytes arrived (feed_run) *)
  Inductive run : bytes -> list (item M) -> status -> Prop :=
  | run_need s : decode s = (DNeed, s) -> run s [] (Cont s)
  | run_err s e r : decode s = (DErr e, r) -> run s [IErr e] Stop
  | run_msg s m r is st : decode s = (DMsg m, r) -> run r is st -> run s (IMsg m :: is) st.

  Lemma run_fun : forall s is st, run s is st -> forall is' st', run s is' st' -> is = is' /\ st = st'.
  Proof.
    induction 1 as [s E|s e r E|s m r is st E _ IH]; intros is' st';
      inversion 1 as [? E'|? ? ? E'|? ? ? ? ? E' R']; subst; rewrite E in E'; try discriminate.
    - split; reflexivity.
    - injection E' as <-. split; reflexivity.
    - injection E' as <- <-. destruct (IH _ _ R') as [<- <-]. split; reflexivity.
  Qed.

  Lemma run_not_oof : forall s is st, run s is st -> st <> OutOfFuel.
  Proof. induction 1; [discriminate | discriminate | assumption]. Qed.

  Lemma run_resting : forall s is b, run s is (Cont b) -> decode b = (DNeed, b).
  Proof.
    intros s is b R. remember (Cont b) as st eqn:Est.
    induction R as [s E| |]; [injection Est as <-; exact E | discriminate | apply IHR; exact Est].
  Qed.

  Lemma run_app : forall s is st x, run s is st ->
    match st with
    | Cont b => forall is' st', run (b ++ x) is' st' -> run (s ++ x) (is ++ is') st'
    | _ => run (s ++ x) is st
    end.
  Proof.
    intros s is st x. induction 1 as [s E|s e r E|s m r is st E _ IH].
    - intros is' st' R'. exact R'.
    - apply (run_err _ e (r ++ x)). apply decode_app; [discriminate | exact E].
    - assert (D : decode (s ++ x) = (DMsg m, r ++ x)) by (apply decode_app; [discriminate | exact E]).
      destruct st as [b| |]; [intros is' st' R'; specialize (IH _ _ R')| |]; exact (run_msg _ _ _ _ _ D IH).
  Qed.

  (* fuel above the length of the buffer is enough: every delivered message shortens the buffer, the
     other two answers end the loop *)
  Lemma drain_run : forall f buf, (length buf < f)%nat ->
    run buf (items_of M (fst (drain f buf))) (snd (drain f buf)).
  Proof.
    induction f as [|f IH]; intros buf Hf; [lia|].
    cbn [Model.drain]. destruct (decode buf) as [[|e|m] b'] eqn:E.
    - apply decode_need_inv in E as E'. destruct E' as [-> _]. exact (run_need _ E).
    - exact (run_err _ _ _ E).
    - apply decode_msg_shrinks in E as Sh. specialize (IH b' ltac:(lia)).
      destruct (drain f b') as [tr s]. exact (run_msg _ _ _ _ _ E IH).
  Qed.

  Lemma parse_step : forall f s, parse (S f) s =
    match decode s with
    | (DNeed, _) => ([], Some s)
    | (DErr e, _) => ([IErr e], None)
    | (DMsg m, r) => let '(is, t) := parse f r in (IMsg m :: is, t)
    end.
  Proof.
    intros f s. rewrite decode_is_clean. unfold decode_clean. cbn [Model.parse].
    destruct (hdr s) as [[n body]|]; [|reflexivity].
    destruct (n =? 0); [reflexivity|]. destruct (max <? n); [reflexivity|].
    destruct (len body <? n); [reflexivity|]. destruct (de _); reflexivity.
  Qed.

  Definition retained (st : status) : option bytes := match st with Cont b => Some b | _ => None end.

  Lemma run_parse : forall s is st, run s is st ->
    forall f, (length s < f)%nat -> parse f s = (is, retained st).
  Proof.
    induction 1 as [s E|s e r E|s m r is st E _ IH]; intros [|f] Hf; try lia; rewrite parse_step, E;
      try reflexivity.
    apply decode_msg_shrinks in E. rewrite IH by lia. reflexivity.
  Qed.

  Lemma items_of_app : forall a b, items_of M (a ++ b) = items_of M a ++ items_of M b.
  Proof. intros a b. unfold items_of. apply flat_map_app. Qed.

  Lemma feed_run : forall chunks buf, decode buf = (DNeed, buf) ->
    run (buf ++ concat chunks) (items_of M (concat (fst (feed buf chunks)))) (snd (feed buf chunks)).
  Proof.
    induction chunks as [|c cs IH]; intros buf Hb; cbn [Model.feed concat].
    - rewrite app_nil_r. exact (run_need _ Hb).
    - rewrite app_assoc. assert (R := drain_run (S (length (buf ++ c))) (buf ++ c) ltac:(lia)).
      fold (drain_all (buf ++ c)) in R. destruct (drain_all (buf ++ c)) as [tr [b'| |]]; cbn [fst snd] in R.
      2,3: cbn [fst snd concat]; rewrite app_nil_r; exact (run_app _ _ _ (concat cs) R).
      specialize (IH b' (run_resting _ _ _ R)). destruct (feed b' cs) as [trs st]. cbn [fst snd concat] in *.
      rewrite items_of_app. exact (run_app _ _ _ (concat cs) R _ _ IH).
  Qed.

  Lemma drain_eof_resting : forall b, decode b = (DNeed, b) ->
    drain_eof M de max (S (length b)) b = match b with [] => [] | _ => [IErr ERemaining] end.
  Proof. intros b H. cbn [Model.drain_eof]. rewrite H. reflexivity. Qed.

  (* Whatever the reads were, the decode loop over them and the FramedRead stream are the run of
     the concatenated bytes; at EOF a non-empty retained buffer is reported once. *)
  Theorem framed_run : forall chunks eof is st, run (concat chunks) is st ->
    items_of M (concat (fst (feed [] chunks))) = is
    /\ snd (feed [] chunks) = st
    /\ framed M de max chunks eof =
       is ++ match model_rest st with [] => [] | _ => if eof then [IErr ERemaining] else [] end.
  Proof.
    intros chunks eof is st R. assert (F := feed_run chunks [] decode_nil). cbn [app] in F.
    unfold Model.framed. destruct (feed [] chunks) as [trs st']. cbn [fst snd] in *.
    destruct (run_fun _ _ _ F _ _ R) as [-> ->]. split; [reflexivity|]. split; [reflexivity|]. f_equal.
    destruct st as [b| |]; [|reflexivity|reflexivity]. cbn [model_rest].
    destruct eof; [|destruct b; reflexivity].
    rewrite (drain_eof_resting b (run_resting _ _ _ R)). reflexivity.
  Qed.

  Lemma feed_is_parse : forall chunks,
    parse (S (length (concat chunks))) (concat chunks)
    = (items_of M (concat (fst (feed [] chunks))), retained (snd (feed [] chunks))).
  Proof. intros chunks. apply run_parse; [exact (feed_run chunks [] decode_nil) | lia]. Qed.

  Lemma framed_is_spec : forall chunks eof,
    framed M de max chunks eof = fst (spec_stream M de max (concat chunks) eof).
  Proof.
    intros chunks eof. assert (R := feed_run chunks [] decode_nil). cbn [app] in R.
    destruct (framed_run chunks eof _ _ R) as (_ & _ & ->).
    unfold Model.spec_stream. rewrite feed_is_parse.
    destruct (snd (feed [] chunks)) as [[|]| |], eof; cbn; rewrite ?app_nil_r; reflexivity.
  Qed.

  Lemma feed_rest_bounded : forall chunks b, snd (feed [] chunks) = Cont b -> len b < 8 + max.
  Proof.
    intros chunks b H. assert (R := feed_run chunks [] decode_nil). rewrite H in R.
    apply run_resting, decode_need_inv in R. apply R.
  Qed.

  Lemma feed_no_oof : forall chunks, snd (feed [] chunks) <> OutOfFuel.
  Proof. intros chunks. exact (run_not_oof _ _ _ (feed_run chunks [] decode_nil)). Qed.

  Lemma drain_need_bounded : forall f buf n, In (DNeed, n) (fst (drain f buf)) -> n < 8 + max.
  Proof.
    induction f as [|f IH]; intros buf n; [intros []|].
    cbn [Model.drain]. destruct (decode buf) as [[|e|m] b1] eqn:E; cbn [fst].
    - intros [[= <-]|[]]. apply decode_need_inv in E as [-> B]. exact B.
    - intros [[=]|[]].
    - specialize (IH b1 n). destruct (drain f b1) as [tr s]. intros [[=]|H]. apply IH. exact H.
  Qed.

  Lemma feed_need_bounded : forall chunks buf n,
    In (DNeed, n) (concat (fst (feed buf chunks))) -> n < 8 + max.
  Proof.
    induction chunks as [|c cs IH]; intros buf n; cbn [Model.feed]; [intros []|].
    assert (B := drain_need_bounded (S (length (buf ++ c))) (buf ++ c) n).
    fold (drain_all (buf ++ c)) in B.
    destruct (drain_all (buf ++ c)) as [tr [b'| |]]; cbn [fst] in B.
    2,3: cbn [fst concat]; rewrite app_nil_r; exact B.
    specialize (IH b' n). destruct (feed b' cs) as [trs s']. cbn [fst concat] in *.
    intros H. apply in_app_or in H as [H|H]; [apply B | apply IH]; exact H.
  Qed.

  Variable ser : M -> bytes.
  Notation frame := (Model.frame M ser).
  Notation wire := (Model.wire M ser).
  Notation valid := (Model.valid M ser max).

  Lemma encode_total : forall m dst, encode M ser m dst = Some (dst ++ frame m).
  Proof.
    intros m dst. unfold Model.encode, Model.frame. rewrite !len_be64, N.eqb_refl. reflexivity.
  Qed.

  Lemma encode_all_wire : forall ms dst, encode_all M ser ms dst = Some (dst ++ wire ms).
  Proof.
    induction ms as [|m ms IH]; intros dst; cbn [Model.encode_all].
    - unfold Model.wire. cbn. rewrite app_nil_r. reflexivity.
    - rewrite encode_total, IH. unfold Model.wire. cbn [map concat]. rewrite app_assoc. reflexivity.
  Qed.

  Lemma validb_valid : forall m, validb M ser max m = true <-> valid m.
  Proof.
    intros m. unfold Model.validb, Model.valid. rewrite !andb_true_iff, !N.ltb_lt, N.leb_le. tauto.
  Qed.

  (* an in-limit message that serde reads back (serde's own round trip, per message) *)
  Definition good (m : M) : Prop := valid m /\ de (ser m) = Some m.

  Lemma good_all : (forall m, de (ser m) = Some m) -> forall ms, Forall valid ms -> Forall good ms.
  Proof. intros Hrt. apply Forall_impl. intros m Hm. split; [exact Hm | apply Hrt]. Qed.

  Lemma decode_frame : forall m r, good m -> decode (frame m ++ r) = (DMsg m, r).
  Proof.
    intros m r [(H0 & Hmax & H64) de_ser]. apply (decode_app _ r _ []); [discriminate|].
    rewrite decode_is_clean. unfold decode_clean, Model.frame. rewrite hdr_be64 by exact H64.
    destruct (N.eqb_spec (len (ser m)) 0); [lia|]. destruct (N.ltb_spec max (len (ser m))); [lia|].
    rewrite N.ltb_irrefl, to_nat_len, firstn_all, skipn_all, de_ser. reflexivity.
  Qed.

  Lemma run_wire : forall ms r is st, Forall good ms ->
    run r is st -> run (wire ms ++ r) (map IMsg ms ++ is) st.
  Proof.
    intros ms r is st Hv R. induction Hv as [|m ms Hm _ IH]; [exact R|].
    unfold Model.wire. cbn [map concat app]. fold (wire ms). rewrite <- app_assoc.
    exact (run_msg _ _ _ _ _ (decode_frame m _ Hm) IH).
  Qed.

  Lemma run_bad_header : forall n junk, n < 2 ^ 64 ->
    (n = 0 -> run (be64 n ++ junk) [IErr EEmpty] Stop) /\
    (max < n -> run (be64 n ++ junk) [IErr ETooLarge] Stop).
  Proof.
    intros n junk H64. destruct (decode_bad_header n junk H64) as [D0 D1].
    split; intros Hn; eapply run_err; [apply D0 | apply D1]; exact Hn.
  Qed.

  (* the bytes are wire msgs ++ []: the frames are delivered one by one (run_wire), the empty rest
     waits (run_need), and framed_run carries this run over to any reads *)
  Lemma any_split : forall msgs chunks eof, Forall good msgs -> concat chunks = wire msgs ->
    framed M de max chunks eof = map IMsg msgs
    /\ items_of M (concat (fst (feed [] chunks))) = map IMsg msgs
    /\ snd (feed [] chunks) = Cont [].
  Proof.
    intros msgs chunks eof Hv Hc.
    destruct (framed_run chunks eof (map IMsg msgs ++ []) (Cont [])) as (A & B & C).
    { rewrite Hc, <- (app_nil_r (wire msgs)). exact (run_wire _ _ _ _ Hv (run_need _ decode_nil)). }
    cbn [model_rest] in C. rewrite !app_nil_r in *. split; [exact C|]. split; [exact A | exact B].
  Qed.

  Lemma reject_after : forall msgs r e chunks eof, Forall good msgs -> run r [IErr e] Stop ->
    concat chunks = wire msgs ++ r ->
    framed M de max chunks eof = map IMsg msgs ++ [IErr e] /\ snd (feed [] chunks) = Stop.
  Proof.
    intros msgs r e chunks eof Hv R Hc.
    destruct (framed_run chunks eof (map IMsg msgs ++ [IErr e]) Stop) as (_ & B & C).
    { rewrite Hc. exact (run_wire _ _ _ _ Hv R). }
    cbn [model_rest] in C. rewrite app_nil_r in C. split; [exact C | exact B].
  Qed.
End P.

Lemma list_eqb_iff : forall {A} (eqb : A -> A -> bool), (forall a b, eqb a b = true <-> a = b) ->
  forall l1 l2, list_eqb eqb l1 l2 = true <-> l1 = l2.
Proof.
  intros A eqb H. induction l1 as [|x l1 IH]; intros [|y l2]; cbn;
    [split; reflexivity | split; discriminate | split; discriminate |].
  rewrite andb_true_iff, H, IH. split; [intros [-> ->]; reflexivity | intros [= -> ->]; split; reflexivity].
Qed.
Lemma bytes_eqb_iff : forall a b, bytes_eqb a b = true <-> a = b.
Proof. apply list_eqb_iff. apply N.eqb_eq. Qed.
Lemma ekind_eqb_iff : forall a b, ekind_eqb a b = true <-> a = b.
Proof. intros [] []; cbn; split; congruence. Qed.
Lemma iobs_eqb_iff : forall a b, iobs_eqb a b = true <-> a = b.
Proof.
  intros [x|x] [y|y]; cbn; rewrite ?N.eqb_eq, ?ekind_eqb_iff; split; congruence.
Qed.
Lemma entry_eqb_iff : forall a b, entry_eqb a b = true <-> a = b.
Proof.
  intros [r n] [r' n']. unfold entry_eqb. cbn [fst snd]. rewrite andb_true_iff, N.eqb_eq.
  destruct r as [|x|x], r' as [|y|y]; cbn; rewrite ?N.eqb_eq, ?ekind_eqb_iff; intuition congruence.
Qed.

Lemma concat_split_cuts : forall cuts s, concat (split_cuts cuts s) = s.
Proof.
  induction cuts as [|c cs IH]; intros s; cbn [split_cuts].
  - destruct s; cbn; [reflexivity | rewrite app_nil_r; reflexivity].
  - cbn [concat]. rewrite IH. apply firstn_skipn.
Qed.

Definition obs_entry (e : tr_entry msg) : robs * N := (robs_of (fst e), snd e).

Lemma concat_obs_trace : forall trs, concat (obs_trace trs) = map obs_entry (concat trs).
Proof. intros trs. unfold obs_trace. rewrite concat_map. reflexivity. Qed.

Lemma tr_items_obs : forall trs, tr_items (obs_trace trs) = map iobs_of (items_of msg (concat trs)).
Proof.
  intros trs. unfold tr_items. rewrite concat_obs_trace. induction (concat trs) as [|[r n] l IH]; [reflexivity|].
  cbn [map flat_map]. rewrite IH. unfold items_of. cbn [flat_map]. rewrite map_app.
  destruct r as [|e|[id|]]; reflexivity.
Qed.

Lemma need_bounded_obs : forall max trs,
  (forall n, In (DNeed, n) (concat trs) -> n < 8 + max) ->
  forallb (need_bounded max) (concat (obs_trace trs)) = true.
Proof.
  intros max trs H. rewrite concat_obs_trace. apply forallb_forall. intros x Hx.
  apply in_map_iff in Hx as [[r n] [<- Hin]]. unfold need_bounded, obs_entry. cbn [fst snd].
  destruct r as [|e|[id|]]; cbn; try reflexivity. apply N.ltb_lt. apply H. exact Hin.
Qed.

Lemma ser_id_len : forall jt id, forallb (fun row => len (fst row) <? 2 ^ 64) jt = true ->
  len (ser_id jt id) < 2 ^ 64.
Proof.
  induction jt as [|[q r] jt IH]; intros id H; cbn [ser_id].
  - reflexivity.
  - cbn [forallb fst] in H. apply andb_true_iff in H as [H1 H2]. apply N.ltb_lt in H1.
    destruct r as [i|]; [destruct (i =? id); [exact H1|]|]; apply IH; exact H2.
Qed.

Lemma is_frames_wire : forall jt msgs, forallb (fun row => len (fst row) <? 2 ^ 64) jt = true ->
  is_frames jt msgs (wire msg (ser_case jt) (map Some msgs)) = true.
Proof.
  intros jt msgs Hl. induction msgs as [|id r IH]; [reflexivity|].
  unfold wire. cbn [map concat]. fold (wire msg (ser_case jt) (map Some r)).
  unfold frame. cbn [ser_case is_frames]. rewrite <- app_assoc, hdr_be64 by (apply ser_id_len; exact Hl).
  rewrite !to_nat_len.
  destruct (firstn_skipn_app _ (ser_id jt id) (wire msg (ser_case jt) (map Some r)) (le_n _)) as [-> ->].
  rewrite firstn_all, skipn_all, !andb_true_iff, N.eqb_eq, bytes_eqb_iff, N.leb_le, len_app.
  repeat split; [lia | exact IH].
Qed.

Lemma good_msgs : forall jt max msgs,
  forallb (fun id => opt_eqb (opt_eqb N.eqb) (de_case jt (ser_id jt id)) (Some (Some id))) msgs = true ->
  forallb (fun id => validb msg (ser_case jt) max (Some id)) msgs = true ->
  Forall (good msg (de_case jt) max (ser_case jt)) (map Some msgs).
Proof.
  intros jt max msgs H1 H2. apply Forall_forall. intros m Hm. apply in_map_iff in Hm as [id [<- Hid]].
  rewrite forallb_forall in H1, H2. specialize (H1 id Hid). specialize (H2 id Hid). split.
  - apply validb_valid. exact H2.
  - cbn [ser_case]. destruct (de_case jt (ser_id jt id)) as [[i|]|]; cbn in H1; try discriminate.
    apply N.eqb_eq in H1. subst i. reflexivity.
Qed.

Lemma map_iobs_msgs : forall msgs, map iobs_of (map IMsg (map Some msgs)) = map OMsg msgs.
Proof. induction msgs as [|id r IH]; cbn; [reflexivity|]. rewrite IH. reflexivity. Qed.

Lemma spec_stream_false : forall M de max s,
  spec_stream M de max s false = parse M de max (S (length s)) s.
Proof.
  intros M de max s. unfold spec_stream. destruct (parse M de max (S (length s)) s) as [is [[|? ?]|]]; reflexivity.
Qed.

Theorem agree_implies_pcheck : forall c, agree c = true -> pcheck c = true.
Proof.
  intros [max jt msgs enc extra cuts eof trace rest fr]. unfold agree, pcheck, wf_case, model_enc.
  rewrite encode_all_wire. cbn [app]. set (W := wire msg (ser_case jt) (map Some msgs)).
  set (chunks := split_cuts cuts (stream_of enc extra)).
  assert (Hcc : concat chunks = stream_of enc extra) by apply concat_split_cuts.
  assert (FP := feed_is_parse msg (de_case jt) max chunks).
  assert (FB := feed_need_bounded msg (de_case jt) max chunks []).
  assert (FS := framed_is_spec msg (de_case jt) max chunks eof).
  rewrite Hcc in FP, FS.
  destruct (feed msg (de_case jt) max [] chunks) as [trs s] eqn:F. cbn [fst snd] in FP, FB.
  rewrite !andb_true_iff. intros [[Hlen Hrt] [[[Henc Htr] Hrest] Hfr]].
  destruct enc as [e|]; [|discriminate]. apply bytes_eqb_iff in Henc. subst e. cbn [stream_of] in *.
  apply (list_eqb_iff _ (list_eqb_iff _ entry_eqb_iff)) in Htr. subst trace.
  apply (list_eqb_iff _ iobs_eqb_iff) in Hfr. subst fr.
  rewrite spec_stream_false, FP.
  destruct (spec_stream msg (de_case jt) max (W ++ extra) eof) as [sise st']. cbn [fst] in FS. subst sise.
  rewrite !andb_true_iff. repeat split.
  - apply is_frames_wire. exact Hlen.
  - destruct extra as [|x extra']; [|reflexivity]. cbn [andb].
    destruct (forallb (fun id => validb msg (ser_case jt) max (Some id)) msgs) eqn:V; [|reflexivity].
    rewrite app_nil_r in Hcc.
    destruct (any_split msg (de_case jt) max (ser_case jt) (map Some msgs) chunks eof
                (good_msgs jt max msgs Hrt V) Hcc) as (A1 & A2 & A3).
    rewrite F in A2, A3. cbn [fst snd] in A2, A3. subst s.
    rewrite tr_items_obs, A1, A2, map_iobs_msgs, !andb_true_iff, !(list_eqb_iff _ iobs_eqb_iff).
    repeat split. destruct rest; [reflexivity | discriminate].
  - apply (list_eqb_iff _ iobs_eqb_iff). apply tr_items_obs.
  - apply (list_eqb_iff _ iobs_eqb_iff). reflexivity.
  - destruct s as [b| |]; [exact Hrest | reflexivity | reflexivity].
  - apply need_bounded_obs. exact FB.
Qed.
