(* Concrete values that meet the hypotheses of the implication theorems; the executable predicate is
   not trivially true. *)
From Coq Require Import List NArith Bool.
Import ListNotations.
Require Import KV.C14.Model.
Open Scope N_scope.

(* a toy serde with the round-trip property: messages are their own JSON *)
Definition wser (m : bytes) : bytes := m.
Definition wde (p : bytes) : option bytes := Some p.

Ltac all_valid :=
  repeat (apply Forall_cons || apply Forall_nil); (split; [|split]); vm_compute; (reflexivity || discriminate).

Example C14_witness_serde_roundtrip : forall m, wde (wser m) = Some m.
Proof. reflexivity. Qed.

(* hypotheses of C14_any_split: two messages (one of them exactly max = 4 bytes long), five reads
   that cut the first header, contain an empty read, and cut the second header *)
Example C14_witness_any_split :
  let msgs := [[34; 80; 34]; [1; 2; 3; 4]] in
  let chunks := [[0; 0; 0]; [0; 0; 0; 0; 3; 34]; []; [80; 34; 0; 0; 0; 0; 0; 0; 0]; [4; 1; 2; 3; 4]] in
  Forall (valid bytes wser 4) msgs
  /\ encode_all bytes wser msgs [] = Some (concat chunks)
  /\ framed bytes wde 4 chunks true = map IMsg msgs
  /\ feed bytes wde 4 [] chunks =
     ([[(DNeed, 3)]; [(DNeed, 9)]; [(DNeed, 9)]; [(DMsg [34; 80; 34], 7); (DNeed, 7)];
       [(DMsg [1; 2; 3; 4], 0); (DNeed, 0)]], Cont []).
Proof.
  cbv zeta. split; [all_valid|]. vm_compute. repeat split; reflexivity.
Qed.

(* hypotheses of C14_reject_empty_or_oversize, both arms, with bytes after the bad header *)
Example C14_witness_reject_empty :
  let msgs := [[34; 80; 34]] in
  let chunks := [[0; 0; 0; 0; 0; 0; 0; 3; 34; 80]; [34; 0; 0; 0; 0]; [0; 0; 0; 0; 7; 7]] in
  Forall (valid bytes wser 4) msgs
  /\ concat chunks = wire bytes wser msgs ++ be64 0 ++ [7; 7]
  /\ framed bytes wde 4 chunks true = [IMsg [34; 80; 34]; IErr EEmpty].
Proof.
  cbv zeta. split; [all_valid|]. vm_compute. repeat split; reflexivity.
Qed.

Example C14_witness_reject_oversize :
  let msgs := [[34; 80; 34]] in
  let chunks := [[0; 0; 0; 0; 0; 0; 0; 3; 34; 80]; [34; 0; 0; 0; 0]; [0; 0; 0; 5]] in
  Forall (valid bytes wser 4) msgs
  /\ 4 < 5 /\ 5 < 2 ^ 64
  /\ concat chunks = wire bytes wser msgs ++ be64 5 ++ []
  /\ framed bytes wde 4 chunks false = [IMsg [34; 80; 34]; IErr ETooLarge]
  /\ snd (feed bytes wde 4 [] chunks) = Stop.
Proof.
  cbv zeta. split; [all_valid|]. vm_compute. repeat split; reflexivity.
Qed.

(* C14_retained_bounded is not vacuous: a truncated frame is retained (9 < 8 + 4 bytes) and
   reported as "bytes remaining" when the connection closes *)
Example C14_witness_truncated :
  let chunks := [[0; 0; 0; 0; 0; 0; 0]; [4; 1]] in
  snd (feed bytes wde 4 [] chunks) = Cont [0; 0; 0; 0; 0; 0; 0; 4; 1]
  /\ framed bytes wde 4 chunks true = [IErr ERemaining]
  /\ framed bytes wde 4 chunks false = [].
Proof. vm_compute. repeat split; reflexivity. Qed.

(* two cases in the form the harness records them: "Ping" then "Refresh" with the limit one below
   the second payload: rejected on its header; and the same with read boundaries inside both
   headers. Both satisfy agree and pcheck. *)
Definition w_jt : jtab :=
  [([34; 80; 105; 110; 103; 34], Some 0); ([34; 82; 101; 102; 114; 101; 115; 104; 34], Some 1)].
Definition w_enc : bytes :=
  [0; 0; 0; 0; 0; 0; 0; 6; 34; 80; 105; 110; 103; 34; 0; 0; 0; 0; 0; 0; 0; 9; 34; 82; 101; 102; 114; 101; 115; 104; 34].
Definition w_case_reject : case :=
  CStream 8 w_jt [0; 1] (Some w_enc) [] [8; 9] true
    [[(RNeed, 8)]; [(RMsg 0, 3); (RNeed, 3)]; [(RErr ETooLarge, 17)]]
    [0; 0; 0; 0; 0; 0; 0; 9; 34; 82; 101; 102; 114; 101; 115; 104; 34]
    [OMsg 0; OErr ETooLarge].
Definition w_case_ok : case :=
  CStream 1048576 w_jt [0; 1] (Some w_enc) [] [6; 8] false
    [[(RNeed, 6)]; [(RMsg 0, 0); (RNeed, 0)]; [(RMsg 1, 0); (RNeed, 0)]] [] [OMsg 0; OMsg 1].

Example C14_witness_bridge_hypothesis :
  agree w_case_reject = true /\ pcheck w_case_reject = true /\
  agree w_case_ok = true /\ pcheck w_case_ok = true.
Proof. vm_compute. repeat split; reflexivity. Qed.

(* pcheck is a real test: it is false on observations that reorder messages, that deliver an
   over-limit frame or keep waiting for it instead of rejecting it, that lose a message, and on
   an encoder output whose length header is wrong *)
Example C14_witness_pcheck_refutes_reordering :
  pcheck (CStream 1048576 w_jt [0; 1] (Some w_enc) [] [6; 8] false
    [[(RNeed, 6)]; [(RMsg 1, 0); (RNeed, 0)]; [(RMsg 0, 0); (RNeed, 0)]] [] [OMsg 1; OMsg 0]) = false.
Proof. vm_compute. reflexivity. Qed.
Example C14_witness_pcheck_refutes_buffering :
  pcheck (CStream 8 w_jt [0; 1] (Some w_enc) [] [8; 9] true
    [[(RNeed, 8)]; [(RMsg 0, 3); (RNeed, 3)]; [(RMsg 1, 0); (RNeed, 0)]] [] [OMsg 0; OMsg 1]) = false
  /\ pcheck (CStream 8 w_jt [0; 1] (Some w_enc) [] [8; 9] false
    [[(RNeed, 8)]; [(RMsg 0, 3); (RNeed, 3)]; [(RNeed, 17)]]
    [0; 0; 0; 0; 0; 0; 0; 9; 34; 82; 101; 102; 114; 101; 115; 104; 34] [OMsg 0]) = false.
Proof. vm_compute. split; reflexivity. Qed.
Example C14_witness_pcheck_refutes_lost_message :
  pcheck (CStream 1048576 w_jt [0; 1] (Some w_enc) [] [6; 8] false
    [[(RNeed, 6)]; [(RMsg 0, 0); (RNeed, 0)]; [(RNeed, 0)]] [] [OMsg 0]) = false.
Proof. vm_compute. reflexivity. Qed.
Example C14_witness_pcheck_refutes_bad_encoder :
  (* length header one too large *)
  pcheck (CStream 1048576 w_jt [0] (Some [0; 0; 0; 0; 0; 0; 0; 7; 34; 80; 105; 110; 103; 34]) [] [] false
    [[(RNeed, 14)]] [0; 0; 0; 0; 0; 0; 0; 7; 34; 80; 105; 110; 103; 34] []) = false.
Proof. vm_compute. reflexivity. Qed.
