(* C14: any sequence of replication requests / responses written to a connection is decoded as
   the same sequence in the same order no matter how the bytes are split across reads, and a frame
   that is empty or larger than the configured limit is rejected rather than buffered or misparsed.

   M is the message type, ser / de stand for serde_json::to_writer / from_slice on it; the only
   thing assumed of them is serde's own round trip  de (ser m) = Some m  (an explicit premise).
   Payload lengths are below 2^64 (a usize), which is part of [valid]. *)
From Coq Require Import List NArith Bool Lia.
Import ListNotations.
Require Import KV.C14.Model KV.C14.Proofs.
Open Scope N_scope.

(* the length header is a faithful 8 byte big-endian number *)
Theorem C14_be64_roundtrip : forall n, n < 2 ^ 64 ->
  from_be (be64 n) = n /\ length (be64 n) = 8%nat /\ (forall x, In x (be64 n) -> x < 256).
Proof.
  intros n H. split; [apply from_be_be64; exact H|]. split; [apply length_be64|].
  intros x. apply be_bytes_lt.
Qed.

(* the encoder never fails and appends exactly  length ++ json  behind whatever is already queued;
   a sequence of sends leaves exactly the concatenation of the frames, in order *)
Theorem C14_encoder_writes_frames : forall M (ser : M -> bytes) ms dst,
  encode_all M ser ms dst = Some (dst ++ concat (map (fun m => be64 (len (ser m)) ++ ser m) ms)).
Proof. intros M ser ms dst. apply encode_all_wire. Qed.

(* decode_length_checked_json, arm by arm, is this table (in particular the "trim to length" arm
   whose comparison is src.len() == req_len can never be taken and changes nothing) *)
Theorem C14_decode_table : forall M de max src,
  decode M de max src =
  match hdr src with
  | None => (DNeed, src)
  | Some (n, body) =>
    if n =? 0 then (DErr EEmpty, src)
    else if max <? n then (DErr ETooLarge, src)
    else if len body <? n then (DNeed, src)
    else (match de (firstn (N.to_nat n) body) with Some m => DMsg m | None => DErr EBadJson end,
          skipn (N.to_nat n) body)
  end.
Proof. intros M de max src. apply decode_is_clean. Qed.

(* nothing is misparsed: a delivered message is serde's reading of exactly the announced bytes,
   whose count is within 1..max, and the buffer keeps exactly what followed them *)
Theorem C14_delivered_is_announced : forall M de max src m r,
  decode M de max src = (DMsg m, r) ->
  exists n p, hdr src = Some (n, p ++ r) /\ len p = n /\ 0 < n /\ n <= max /\ de p = Some m.
Proof. exact decode_msg_inv. Qed.

(* THE PROPERTY, first half. For every message type, every list of in-limit messages and EVERY
   way of cutting the bytes the encoder produced into reads (any number of reads, empty reads
   included), the FramedRead stream yields exactly these messages in this order, with no error
   (also when the connection then closes), the direct decode loop yields the same, and nothing
   is left in the buffer. *)
Theorem C14_any_split : forall M (ser : M -> bytes) (de : bytes -> option M) max,
  (forall m, de (ser m) = Some m) ->
  forall msgs enc chunks eof,
  Forall (valid M ser max) msgs ->
  encode_all M ser msgs [] = Some enc ->
  concat chunks = enc ->
  framed M de max chunks eof = map IMsg msgs
  /\ items_of M (concat (fst (feed M de max [] chunks))) = map IMsg msgs
  /\ snd (feed M de max [] chunks) = Cont [].
Proof.
  intros M ser de max Hrt msgs enc chunks eof Hv He Hc.
  rewrite encode_all_wire in He. injection He as <-.
  exact (any_split M de max ser msgs chunks eof (good_all M de max ser Hrt msgs Hv) Hc).
Qed.

(* Fragmentation never matters, for ARBITRARY bytes (valid, hostile or truncated): what a
   FramedRead yields is a function of the concatenated bytes only, namely what the grammar
   frame* says: the messages up to the first rejected frame / the incomplete tail. *)
Theorem C14_stream_is_grammar : forall M de max chunks eof,
  framed M de max chunks eof = fst (spec_stream M de max (concat chunks) eof).
Proof. exact framed_is_spec. Qed.

Theorem C14_fragmentation_irrelevant : forall M de max chunks1 chunks2 eof,
  concat chunks1 = concat chunks2 ->
  framed M de max chunks1 eof = framed M de max chunks2 eof.
Proof. intros M de max c1 c2 eof H. rewrite !framed_is_spec, H. reflexivity. Qed.

(* THE PROPERTY, second half. After any in-limit messages, a frame whose header announces 0 bytes
   or more than max bytes is rejected: whatever follows it and however the bytes are split, the
   stream yields the earlier messages, then the error, and stops. *)
Theorem C14_reject_empty_or_oversize : forall M (ser : M -> bytes) (de : bytes -> option M) max,
  (forall m, de (ser m) = Some m) ->
  forall msgs n junk chunks eof,
  Forall (valid M ser max) msgs -> n < 2 ^ 64 ->
  concat chunks = wire M ser msgs ++ be64 n ++ junk ->
  (n = 0 -> framed M de max chunks eof = map IMsg msgs ++ [IErr EEmpty]
            /\ snd (feed M de max [] chunks) = Stop)
  /\ (max < n -> framed M de max chunks eof = map IMsg msgs ++ [IErr ETooLarge]
                 /\ snd (feed M de max [] chunks) = Stop).
Proof.
  intros M ser de max Hrt msgs n junk chunks eof Hv H64 Hc.
  assert (G := good_all M de max ser Hrt msgs Hv).
  destruct (run_bad_header M de max n junk H64) as [R0 R1].
  split; intros Hn.
  - exact (reject_after M de max ser msgs _ _ chunks eof G (R0 Hn) Hc).
  - exact (reject_after M de max ser msgs _ _ chunks eof G (R1 Hn) Hc).
Qed.

(* ... and it is rejected on the header alone: the body need not (and for an oversize frame must
   not) be awaited — the decision is taken with nothing but the 8 header bytes in the buffer *)
Theorem C14_rejected_on_header_alone : forall M de max n, n < 2 ^ 64 ->
  (n = 0 -> forall junk, decode M de max (be64 n ++ junk) = (DErr EEmpty, be64 n ++ junk)) /\
  (max < n -> forall junk, decode M de max (be64 n ++ junk) = (DErr ETooLarge, be64 n ++ junk)).
Proof.
  intros M de max n H64. split; intros Hn junk; destruct (decode_bad_header M de max n junk H64) as [A B];
    [apply A | apply B]; exact Hn.
Qed.

(* "rather than buffered": whatever bytes arrive in whatever reads, whenever the codec waits for
   more data it retains fewer than 8 + max bytes (an incomplete header, or a header announcing
   at most max bytes plus an incomplete body); and the loop model never runs out of fuel *)
Theorem C14_retained_bounded : forall M de max chunks,
  (forall b, snd (feed M de max [] chunks) = Cont b -> len b < 8 + max)
  /\ (forall n, In (DNeed, n) (concat (fst (feed M de max [] chunks))) -> n < 8 + max)
  /\ snd (feed M de max [] chunks) <> OutOfFuel.
Proof.
  intros M de max chunks. split; [|split].
  - apply feed_rest_bounded.
  - intros n. apply feed_need_bounded.
  - apply feed_no_oof.
Qed.

(* every error the decoder reports is one of exactly three situations *)
Theorem C14_error_cases : forall M de max src e r,
  decode M de max src = (DErr e, r) ->
  exists n body, hdr src = Some (n, body) /\
    ((e = EEmpty /\ n = 0 /\ r = src) \/ (e = ETooLarge /\ max < n /\ r = src) \/
     (e = EBadJson /\ 0 < n /\ n <= max /\ n <= len body /\ de (firstn (N.to_nat n) body) = None
      /\ r = skipn (N.to_nat n) body)).
Proof. exact decode_err_inv. Qed.

(* bridge: on every recorded case where the model reproduces the implementation's observations,
   the property's executable predicate holds of the implementation's observations *)
Theorem C14_agree_implies_property : forall c, agree c = true -> pcheck c = true.
Proof. exact agree_implies_pcheck. Qed.
